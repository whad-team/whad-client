(** C08 — the property theorems, read off the lemmas of Proofs.v; the witnesses against the original
    code and the non-vacuity example are evaluated.
    The server model is C07/Model.v; [server_step]/[responses]/[step V_fixed] are the REPAIRED code,
    [V_orig] the code before the repairs. *)
From Coq Require Import List NArith Arith.
From Whad Require Import Lib.Bytes C07.Model C08.Model C08.Proofs.
Import ListNotations.
Open Scope N_scope.

(** The permission checks of the handlers ARE the reference permission model (property bit /\
    security requirement vs link state). *)
Theorem C08_read_check_is_reference_model :
  forall st h, read_denied st h = None <-> value_may_read st h = true.
Proof. exact read_denied_spec. Qed.

Theorem C08_write_check_is_reference_model :
  forall st h nf, write_denied st h nf = None <-> value_may_write st h = true.
Proof. exact write_denied_spec. Qed.

(** NON-INTERFERENCE.  [S] is any set of handles of characteristic values that the client may not
    read over the current link ([secret_ok]).  Two well-formed states that are equal except in the
    values stored at [S] ([view S st1 = view S st2]) answer EVERY session identically, provided the
    session contains no authorised write to a handle of [S] ([session_allowed]; such a write is
    legitimate and its answer may depend on the old value's length) and the hooks of the session,
    which may update any other characteristic (with the notifications that entails), do not
    themselves assign a characteristic of [S].  This is "a value is disclosed
    only if readable" for every procedure and every sequence at once: read, read blob (any
    offset), read by type, read by group type, read multiple, find information, find by type
    value, prepare/execute write, whatever the hooks do. *)
Theorem C08_non_interference :
  forall (S : N -> bool) (s : session) (st1 st2 : state),
    wf_state st1 = true -> wf_state st2 = true ->
    view S st1 = view S st2 -> secret_ok st1 S -> queue_clean st1 S ->
    inputs_ok st1 s -> session_allowed st1 S s ->
    responses st1 s = responses st2 s.
Proof.
  intros S s st1 st2 W1 _ Ev Sec Qc _ Hal.
  exact (proj1 (non_interference S s st1 st2 (C07.Proofs.wf_state_sorted st1 W1) Ev Sec Qc Hal)).
Qed.

(** A characteristic value changes across a request only if the client may write it (WRITE /
    WRITE WITHOUT RESPONSE property and the write security requirements met by the link) -- or a
    hook of the application assigns that very characteristic itself ([hook_assigns]): for every
    state, every request (write request, write command, prepared + executed writes, ...) and all
    hook behaviours. *)
Theorem C08_write_needs_permission :
  forall (st : state) (r : att_request) (hk : hook_oracle) (h : N),
    is_value_handle st h = true -> value_may_write st h = false -> hook_assigns hk h = false ->
    value_at (fst (server_step st r hk)) h = value_at st h.
Proof. exact write_needs_permission. Qed.

(** ... and across every session. *)
Theorem C08_write_needs_permission_session :
  forall (s : session) (st : state) (h : N),
    is_value_handle st h = true -> value_may_write st h = false ->
    Forall (fun x => hook_assigns (snd x) h = false) s ->
    value_at (fold_left session_step s st) h = value_at st h.
Proof.
  induction s as [|[r hk] t IH]; intros st h Hv Hw Ha; cbn [fold_left]; [reflexivity|].
  inversion Ha as [|x l Ha1 Ha2]; subst.
  destruct (protected_static st (session_step st (r, hk)) h (handle_static st r hk) (conj Hv Hw)) as [Hv' Hw'].
  rewrite (IH _ h Hv' Hw' Ha2). apply write_needs_permission; assumption.
Qed.

(** Notifications / indications are only sent for a characteristic whose CCCD the client has set to
    0x0001 / 0x0002 by its last accepted CCCD write of the CURRENT connection: over every history of
    client PDUs, link-security changes, application writes, disconnections and reconnections --
    including the notifications sent in the middle of a request because one of its hooks updates
    a characteristic.
    [history_ok st [] evs] threads the reference subscription table ([ref_step]: set by accepted CCCD
    writes, emptied by a disconnection) and checks every emitted PDU against it ([notif_ok]). *)
Theorem C08_notify_only_subscribed :
  forall (evs : list event) (st : state),
    wf_state st = true -> cccd_ok (st_db st) = true -> no_callbacks (st_db st) = true ->
    history_inputs_ok st evs -> history_ok st [] evs.
Proof.
  exact (fun evs st Hwf Hc Hn Hin => notify_only_subscribed evs st [] Hwf (sub_inv_init st Hc Hn) Hin).
Qed.

(** The code before the repairs (V_orig) on two states that differ only in the value of a
    write-only characteristic: Read Blob at offset == length and Find By Type Value on the
    declaration type tell them apart; a read-only characteristic is modified through Prepare +
    Execute Write. *)
Theorem C08_orig_non_interference_refuted :
  wf_state demo_state = true /\ wf_state demo_state2 = true
  /\ view demo_S demo_state = view demo_S demo_state2 /\ secret_ok demo_state demo_S
  /\ inputs_ok demo_state leak_session /\ session_allowed demo_state demo_S leak_session
  /\ responses_v V_orig demo_state leak_session
     = [ [PReadBlobRsp []]; [PError 12 10 7]; [PFindByTypeValueRsp [(9, 9)]];
         [PPrepareWriteRsp 6 0 [9]]; [PExecuteWriteRsp]; [PReadRsp [9]] ]
  /\ responses_v V_orig demo_state2 leak_session
     = [ [PError 12 10 2]; [PReadBlobRsp []]; [PError 6 1 10];
         [PPrepareWriteRsp 6 0 [9]]; [PExecuteWriteRsp]; [PReadRsp [9]] ].
Proof.
  destruct demo_states_ok as (H1 & H2 & H3).
  split; [exact H1|]. split; [exact H2|]. split; [exact H3|]. split; [exact demo_secret_ok|].
  vm_compute. repeat split.
Qed.

Theorem C08_orig_write_needs_permission_refuted :
  let st1 := fst (server_step_v V_orig demo_state (PrepareWrite 6 0 [9]) no_hooks) in
  let st2 := fst (server_step_v V_orig st1 (ExecuteWrite 1) no_hooks) in
  is_value_handle st1 6 = true /\ value_may_write st1 6 = false
  /\ value_at st1 6 = Some [100] /\ value_at st2 6 = Some [9].
Proof. vm_compute. repeat split. Qed.

Theorem C08_orig_notify_after_disconnect_refuted :
  snd (run V_orig demo_state sub_disc_history) = [ [PWriteRsp]; [PNotification 6 [65]]; []; [PNotification 6 [66]] ]
  /\ snd (run V_fixed demo_state sub_disc_history) = [ [PWriteRsp]; [PNotification 6 [65]]; []; [] ].
Proof. vm_compute. split; reflexivity. Qed.

(** Non-vacuity: the hypotheses of the three theorems hold on the demo database with
    S = {handle 10} (a write-only characteristic) and a 13-request session probing it with every
    procedure; the answers are the expected errors. *)
Example C08_nonvacuous :
  wf_state demo_state = true /\ wf_state demo_state2 = true
  /\ view demo_S demo_state = view demo_S demo_state2
  /\ secret_ok demo_state demo_S /\ queue_clean demo_state demo_S
  /\ inputs_ok demo_state probe_session /\ session_allowed demo_state demo_S probe_session
  /\ cccd_ok demo_db = true /\ no_callbacks demo_db = true
  /\ history_inputs_ok demo_state sub_disc_history
  /\ nth 2 (responses demo_state probe_session) [] = [PError 12 10 2]
  /\ nth 10 (responses demo_state probe_session) [] = [PError 24 6 3].
Proof.
  destruct demo_states_ok as (H1 & H2 & H3).
  split; [exact H1|]. split; [exact H2|]. split; [exact H3|]. split; [exact demo_secret_ok|].
  split; [intros q []|]. rewrite probe_session_fixed. vm_compute. repeat split.
Qed.
