(** C08 — lemmas behind the property theorems.  Three notions carry the file.
    [evolves hk st st']: what one request with hooks [hk] can make of a state, proved once for every
    handler ([handle_evolves]); write permission and the invariance of [secret_ok] and [queue_clean]
    are read off it.
    [view S]: every handler commutes with the erasure of the values in [S] ([handle_view]), so a
    session run on the view is the view of the session ([session_view]).
    [sub_inv]: the installed callbacks agree with the reference subscription table; within [notif_inv]
    it is kept by every event, and every event sends allowed PDUs only ([step_inv]). *)
From Coq Require Import List NArith Arith Bool Lia.
From Whad Require Import Lib.Bytes C07.Model C07.Proofs C08.Model.
Import ListNotations.
Open Scope N_scope.

(** * The permission checks of the code are the reference permission model *)

Lemma sec_check_ok st bits : sec_check st bits = None <-> sec_ok (st_enc st) (st_auth st) bits = true.
Proof.
  unfold sec_check, sec_ok.
  destruct (has bits S_AUTHN), (st_auth st), (has bits S_ENC), (st_enc st), (has bits S_AUTHOR); cbn; split; intros; try discriminate; reflexivity.
Qed.

Lemma access_spec st bits (p : bool) (code : N) :
  match sec_check st bits with Some c => Some c | None => if p then None else Some code end = None
  <-> p && sec_ok (st_enc st) (st_auth st) bits = true.
Proof.
  pose proof (sec_check_ok st bits) as H. destruct (sec_check st bits).
  - split; [discriminate|]. intros E. apply andb_true_iff in E as [_ E]. apply H in E. discriminate.
  - rewrite (proj1 H eq_refl), andb_true_r. destruct p; split; auto; discriminate.
Qed.

Lemma read_denied_spec st h : read_denied st h = None <-> value_may_read st h = true.
Proof.
  unfold read_denied, value_may_read. destruct (lookup (h - 1) (st_db st)) as [c|]; [apply access_spec|split; discriminate].
Qed.

Lemma write_denied_spec st h nf : write_denied st h nf = None <-> value_may_write st h = true.
Proof.
  unfold write_denied, value_may_write. destruct (lookup (h - 1) (st_db st)) as [c|]; [apply access_spec|split; discriminate].
Qed.

Lemma lookup_map (g : attr -> attr) db h : (forall a, a_handle (g a) = a_handle a) ->
  lookup h (map g db) = option_map g (lookup h db).
Proof.
  intros Hg. induction db as [|x r IH]; cbn [map lookup]; [reflexivity|]. rewrite Hg.
  destruct (a_handle x =? h); [reflexivity|exact IH].
Qed.

Lemma sorted_above db : forall lo, sorted_from lo db = true -> forall b, In b db -> lo < a_handle b.
Proof.
  induction db as [|y l IH]; intros lo Hl b Hb; [contradiction|].
  cbn [sorted_from] in Hl. apply andb_true_iff in Hl as [Hl Hl2]. apply andb_true_iff in Hl as [Hl1 _].
  apply N.ltb_lt in Hl1. destruct Hb as [<-|Hb]; [exact Hl1|]. apply (N.lt_trans _ _ _ Hl1), (IH _ Hl2 b Hb).
Qed.

Lemma sorted_in_lookup db : forall lo a, sorted_from lo db = true -> In a db -> lookup (a_handle a) db = Some a.
Proof.
  induction db as [|x r IH]; intros lo a Hs Hin; [contradiction|].
  cbn [sorted_from] in Hs. apply andb_true_iff in Hs as [_ Hr].
  cbn [lookup]. destruct Hin as [<-|Hin]; [rewrite N.eqb_refl; reflexivity|].
  destruct (a_handle x =? a_handle a) eqn:E; [|eapply IH; eauto].
  apply N.eqb_eq in E. pose proof (sorted_above r _ Hr a Hin) as Hgt. rewrite E in Hgt.
  destruct (N.lt_irrefl _ Hgt).
Qed.

(** * Static part of the database *)

Definition static_db (d1 d2 : db_t) : Prop := Forall2 static_eq d1 d2.

Lemma static_eq_sym a b : static_eq a b -> static_eq b a.
Proof. unfold static_eq. intuition congruence. Qed.

Lemma static_db_refl d : static_db d d.
Proof. induction d; constructor; [apply static_eq_refl|assumption]. Qed.

Lemma static_db_sym d1 d2 : static_db d1 d2 -> static_db d2 d1.
Proof. induction 1; constructor; [apply static_eq_sym|]; assumption. Qed.

Lemma static_db_trans d1 d2 d3 : static_db d1 d2 -> static_db d2 d3 -> static_db d1 d3.
Proof.
  intros H. revert d3. induction H; intros d3 H3; inversion H3; subst; constructor.
  - eapply static_eq_trans; eauto.
  - apply IHForall2. assumption.
Qed.

Lemma update_static h f db : (forall a, static_eq a (f a)) -> static_db db (update h f db).
Proof.
  intros Hf. induction db as [|x r IH]; cbn [update]; [constructor|].
  destruct (a_handle x =? h); constructor; [apply Hf|apply static_db_refl|apply static_eq_refl|exact IH].
Qed.

Lemma map_static (g : attr -> attr) db : (forall a, static_eq a (g a)) -> static_db db (map g db).
Proof. intros Hg. induction db as [|a r IH]; cbn [map]; constructor; [apply Hg|exact IH]. Qed.

Lemma set_value_static a x : static_eq a (set_value a x).
Proof. unfold static_eq. cbn. tauto. Qed.

Lemma set_cbs_static a n i : static_eq a (set_cbs a n i).
Proof. unfold static_eq. cbn. tauto. Qed.

Lemma lookup_static d1 d2 h : static_db d1 d2 ->
  match lookup h d1, lookup h d2 with
  | Some a, Some b => static_eq a b
  | None, None => True
  | _, _ => False
  end.
Proof.
  induction 1 as [|a b r1 r2 E _ IH]; cbn [lookup]; [exact I|].
  pose proof E as (Hh & _). rewrite <- Hh. destruct (a_handle a =? h); [exact E|exact IH].
Qed.

Lemma lookup_static_back d1 d2 h b : static_db d1 d2 -> lookup h d2 = Some b ->
  exists a, lookup h d1 = Some a /\ static_eq a b.
Proof.
  intros E L. pose proof (lookup_static _ _ h E) as M. rewrite L in M.
  destruct (lookup h d1) as [a|]; [|contradiction]. exists a. split; [reflexivity|exact M].
Qed.

Lemma lookup_static_f {B} (f : attr -> B) (z : B) d1 d2 h : static_db d1 d2 ->
  (forall a b, static_eq a b -> f a = f b) ->
  match lookup h d1 with Some a => f a | None => z end = match lookup h d2 with Some a => f a | None => z end.
Proof.
  intros Hd Hf. pose proof (lookup_static _ _ h Hd) as L.
  destruct (lookup h d1), (lookup h d2); try contradiction; [apply Hf, L|reflexivity].
Qed.

Lemma static_sorted d1 d2 : static_db d1 d2 -> forall lo, sorted_from lo d1 = sorted_from lo d2.
Proof.
  induction 1 as [|a b r1 r2 E _ IH]; intros lo; cbn [sorted_from]; [reflexivity|].
  destruct E as (Hh & _). rewrite Hh, IH. reflexivity.
Qed.

Lemma owner_decl_static d1 d2 h : static_db d1 d2 -> forall cur, owner_decl h d1 cur = owner_decl h d2 cur.
Proof.
  induction 1 as [|a b r1 r2 E _ IH]; intros cur; cbn [owner_decl]; [reflexivity|].
  destruct E as (Hh & Hk & _). rewrite <- Hh, <- Hk. destruct (a_handle a =? h); [reflexivity|apply IH].
Qed.

Lemma find_static (p1 p2 : attr -> bool) d1 d2 :
  static_db d1 d2 -> (forall a b, static_eq a b -> p1 a = p2 b) ->
  option_map a_handle (find p1 d1) = option_map a_handle (find p2 d2).
Proof.
  intros E P. induction E as [|a b r1 r2 E _ IH]; cbn [find]; [reflexivity|].
  rewrite <- (P a b E). destruct (p1 a); [|exact IH]. destruct E as (Hh & _). cbn. rewrite Hh. reflexivity.
Qed.

Lemma cccd_handle_static d1 d2 d : static_db d1 d2 -> cccd_handle d1 d = cccd_handle d2 d.
Proof.
  intros E. apply (find_static _ _ _ _ E). intros a b (Hh & Hk & _).
  rewrite <- Hh, <- Hk, (owner_decl_static _ _ _ E). reflexivity.
Qed.

Lemma cccd_handle_spec db d hc : cccd_handle db d = Some hc ->
  exists x, In x db /\ a_handle x = hc /\ a_kind x = KCccd /\ owner_decl hc db None = Some d.
Proof.
  unfold cccd_handle. destruct (find _ db) as [x|] eqn:E; [|discriminate]. intros H. inversion H; subst.
  apply find_some in E as [Hin Hp]. apply andb_true_iff in Hp as [Hk Ho].
  exists x. repeat split; try assumption.
  - destruct (a_kind x); try discriminate. reflexivity.
  - destruct (owner_decl (a_handle x) db None) as [o|]; [|discriminate]. apply N.eqb_eq in Ho. congruence.
Qed.

Lemma cccd_handle_lookup db d hc : sorted_from 0 db = true -> cccd_handle db d = Some hc ->
  exists x, lookup hc db = Some x /\ a_kind x = KCccd /\ owner_decl hc db None = Some d.
Proof.
  intros Hs Hc. destruct (cccd_handle_spec _ _ _ Hc) as (x & Hin & <- & Hk & Ho).
  exists x. split; [apply (sorted_in_lookup _ 0 x Hs Hin)|split; assumption].
Qed.

Lemma cfg_of_ext db db' d : sorted_from 0 db = true -> static_db db db' ->
  (forall hc x, lookup hc db = Some x -> a_kind x = KCccd -> owner_decl hc db None = Some d ->
     option_map a_value (lookup hc db') = Some (a_value x)) ->
  cfg_of db' d = cfg_of db d.
Proof.
  intros Hs Es H. unfold cfg_of. rewrite <- (cccd_handle_static _ _ d Es).
  destruct (cccd_handle db d) as [hc|] eqn:Ec; [|reflexivity].
  destruct (cccd_handle_lookup _ _ _ Hs Ec) as (x & Lx & Hk & Ho). specialize (H hc x Lx Hk Ho). rewrite Lx.
  destruct (lookup hc db'); inversion H; congruence.
Qed.

(** the database after [Characteristic.value = v] for the characteristic declared at [d] ([app_set]) *)
Definition app_store (db : db_t) (d : N) (v : bytes) : db_t :=
  match lookup (d + 1) db with
  | Some x => if kind_eqb (a_kind x) KValue then update (d + 1) (fun a => set_value a v) db else db
  | None => db
  end.

Lemma app_store_static db d v : static_db db (app_store db d v).
Proof.
  unfold app_store. destruct (lookup (d + 1) db) as [x|]; [destruct (kind_eqb (a_kind x) KValue)|]; try apply static_db_refl.
  apply update_static. intros. apply set_value_static.
Qed.

(** * What a request may do to the state *)

Definition same_static (st st' : state) : Prop :=
  static_db (st_db st) (st_db st') /\ st_enc st' = st_enc st /\ st_auth st' = st_auth st.

Lemma same_static_refl st : same_static st st.
Proof. split; [apply static_db_refl|auto]. Qed.
Lemma same_static_trans a b c : same_static a b -> same_static b c -> same_static a c.
Proof. intros (H1 & H2 & H3) (K1 & K2 & K3). split; [eapply static_db_trans; eauto|split; congruence]. Qed.
Lemma same_static_db st db' : static_db (st_db st) db' -> same_static st (with_db st db').
Proof. intros. split; [assumption|auto]. Qed.

Lemma same_static_sym a b : same_static a b -> same_static b a.
Proof. intros (H1 & H2 & H3). split; [apply static_db_sym, H1|split; congruence]. Qed.

Lemma read_denied_static st st' h : same_static st st' -> read_denied st' h = read_denied st h.
Proof.
  intros (Hd & He & Ha). unfold read_denied, sec_check. rewrite He, Ha. symmetry.
  apply (lookup_static_f _ _ _ _ _ Hd). intros a b (_ & _ & _ & _ & _ & Hp & Hs & _).
  unfold rsec, readable. rewrite Hp, Hs. reflexivity.
Qed.
Lemma write_denied_static st st' h nf : same_static st st' -> write_denied st' h nf = write_denied st h nf.
Proof.
  intros (Hd & He & Ha). unfold write_denied, sec_check. rewrite He, Ha. symmetry.
  apply (lookup_static_f _ _ _ _ _ Hd). intros a b (_ & _ & _ & _ & _ & Hp & Hs & _).
  unfold wsec, writeable. rewrite Hp, Hs. reflexivity.
Qed.
Lemma value_may_read_static st st' h : same_static st st' -> value_may_read st' h = value_may_read st h.
Proof. intros Hs. apply eq_true_iff_eq. rewrite <- !read_denied_spec, (read_denied_static _ _ _ Hs). reflexivity. Qed.
Lemma value_may_write_static st st' h : same_static st st' -> value_may_write st' h = value_may_write st h.
Proof.
  intros Hs. apply eq_true_iff_eq. rewrite <- !(write_denied_spec _ _ 0), (write_denied_static _ _ _ _ Hs). reflexivity.
Qed.
Lemma is_value_handle_static st st' h : same_static st st' -> is_value_handle st' h = is_value_handle st h.
Proof.
  intros (Hd & _). unfold is_value_handle. symmetry.
  apply (lookup_static_f _ false _ _ _ Hd). intros a b (_ & -> & _). reflexivity.
Qed.

Lemma secret_ok_static S st st' : same_static st st' -> secret_ok st S -> secret_ok st' S.
Proof.
  intros Hs Hsec h Hh. destruct (Hsec h Hh) as [H1 H2]. split.
  - rewrite (value_may_read_static _ _ _ Hs). exact H1.
  - intros a' Ha'. destruct (lookup_static_back _ _ h a' (proj1 Hs) Ha') as (a & La & _ & Hk & _).
    rewrite <- Hk. apply (H2 a La).
Qed.

Lemma hook_error_static st op opa h o : same_static st (r_state (hook_error st op opa h o)).
Proof. rewrite hook_error_state. apply same_static_refl. Qed.

Definition sites (hk : hook_oracle) : list (option (N * bytes)) :=
  let a := h_acts hk in [ha_read a; ha_write a; ha_written a; ha_sub a; ha_unsub a].

Lemma site_assigns hk act h : In act (sites hk) -> act_target act h = true -> hook_assigns hk h = true.
Proof.
  unfold hook_assigns. cbn. intros [<-|[<-|[<-|[<-|[<-|[]]]]]] ->; rewrite ?orb_true_r; reflexivity.
Qed.

Lemma site_avoids S hk act : acts_avoid S hk = true -> In act (sites hk) -> act_avoids S act = true.
Proof.
  unfold acts_avoid. cbv zeta. intros H. repeat (apply andb_true_iff in H as [H ?]).
  cbn. intros [<-|[<-|[<-|[<-|[<-|[]]]]]]; assumption.
Qed.

Definition qh (st : state) : list N := map fst (i_queues (st_cur st)).

Definition protected (st : state) (h : N) : Prop := is_value_handle st h = true /\ value_may_write st h = false.

Lemma protected_static st st' h : same_static st st' -> protected st h -> protected st' h.
Proof.
  intros Hs [H1 H2]. split; [rewrite (is_value_handle_static _ _ _ Hs)|rewrite (value_may_write_static _ _ _ Hs)]; assumption.
Qed.

(** [Q], the handles added to the prepared-write queue, is empty but for Prepare Write *)
Definition evolves_q (hk : hook_oracle) (Q : list N) (st st' : state) : Prop :=
  same_static st st'
  /\ incl (qh st') (Q ++ qh st)
  /\ forall h, protected st h -> hook_assigns hk h = false -> value_at st' h = value_at st h.
Definition evolves (hk : hook_oracle) : state -> state -> Prop := evolves_q hk [].

Lemma evolves_refl hk Q st : evolves_q hk Q st st.
Proof. split; [apply same_static_refl|split; [apply incl_appr, incl_refl|reflexivity]]. Qed.

Lemma evolves_trans hk a b c : evolves hk a b -> evolves hk b c -> evolves hk a c.
Proof.
  intros (S1 & Q1 & V1) (S2 & Q2 & V2). split; [eapply same_static_trans; eauto|]. split; [eapply incl_tran; eauto|].
  intros h Hp Ha. rewrite V2, V1; auto. apply (protected_static a b h S1 Hp).
Qed.

Lemma evolves_db hk st db' :
  static_db (st_db st) db' ->
  (forall h, protected st h -> hook_assigns hk h = false ->
     option_map a_value (lookup h db') = option_map a_value (lookup h (st_db st))) ->
  evolves hk st (with_db st db').
Proof. intros Hs Hv. split; [apply same_static_db, Hs|]. split; [apply incl_refl|exact Hv]. Qed.

Lemma evolves_cur hk st i : incl (map fst (i_queues i)) (qh st) -> evolves hk st (with_cur st i).
Proof. intros H. split; [exact (same_static_refl st)|]. split; [exact H|reflexivity]. Qed.

Lemma store_static st h x : same_static st (with_db st (update h (fun a => set_value a x) (st_db st))).
Proof. apply same_static_db, update_static. intros. apply set_value_static. Qed.

Lemma cbs_static st d (n i : attr -> option N) :
  same_static st (with_db st (update d (fun c => set_cbs c (n c) (i c)) (st_db st))).
Proof. apply same_static_db, update_static. intros. apply set_cbs_static. Qed.

Lemma store_evolves hk st h x : ~ protected st h ->
  evolves hk st (with_db st (update h (fun a => set_value a x) (st_db st))).
Proof.
  intros Hn. apply evolves_db; [apply store_static|]. intros h' Hp _.
  rewrite lookup_update by reflexivity. destruct (N.eqb_spec h' h) as [->|_]; [contradiction|reflexivity].
Qed.

Lemma cbs_evolves hk st d (n i : attr -> option N) :
  evolves hk st (with_db st (update d (fun c => set_cbs c (n c) (i c)) (st_db st))).
Proof.
  apply evolves_db; [apply cbs_static|]. intros h _ _.
  rewrite lookup_update by reflexivity. destruct (h =? d); [destruct (lookup h (st_db st))|]; reflexivity.
Qed.

Lemma app_set_evolves hk st d v hk' : hook_assigns hk (d + 1) = true -> evolves hk st (r_state (app_set st d v hk')).
Proof.
  intros Ha. destruct (app_set_state st d v hk') as [->|(a & _ & _ & ->)]; [apply evolves_refl|].
  apply evolves_db; [apply store_static|]. intros h _ Hh.
  rewrite lookup_update by reflexivity. destruct (N.eqb_spec h (d + 1)) as [->|_]; [congruence|reflexivity].
Qed.

Lemma hook_act_evolves st hk act o st1 pd res :
  In act (sites hk) -> hook_act st hk act o = (st1, pd, res) -> evolves hk st st1.
Proof.
  unfold hook_act. destruct act as [[d v]|]; intros Hin E; inversion E; subst; [|apply evolves_refl].
  apply app_set_evolves, (site_assigns hk _ _ Hin). cbn. apply N.eqb_refl.
Qed.

Lemma post_hook_evolves st hk act o out : In act (sites hk) -> evolves hk st (r_state (post_hook st hk act o out)).
Proof.
  intros Hin. unfold post_hook. destruct (hook_act st hk act o) as [[st1 pd] res] eqn:E.
  pose proof (hook_act_evolves _ _ _ _ _ _ _ Hin E) as H. destruct res as [o'|]; exact H.
Qed.

Lemma read_value_answer_evolves st hk op opa h mk normal :
  evolves hk st (r_state (read_value_answer st hk op opa h mk normal)).
Proof.
  unfold read_value_answer. dha ha_read st1 pd res E.
  assert (H : evolves hk st st1) by (eapply hook_act_evolves; [|exact E]; cbn; tauto).
  destruct res as [o'|]; [|exact H].
  destruct o' as [|x| | | | |g1 g2 g3|]; cbn [r_state done prepend]; rewrite ?hook_error_state; exact H.
Qed.

Lemma read_end_evolves st hk r : read_end st hk r -> evolves hk st (r_state r).
Proof. intros [p _ _|op opa h mk normal _ _ _]; [apply evolves_refl|apply read_value_answer_evolves]. Qed.

Lemma write_value_evolves st hk op opa h val rsp :
  value_may_write st h = true -> evolves hk st (r_state (write_value st hk op opa h val rsp)).
Proof.
  intros Hw. unfold write_value. cbv zeta. dha ha_write st1 pd1 res1 E1.
  assert (V1 : evolves hk st st1) by (eapply hook_act_evolves; [|exact E1]; cbn; tauto).
  assert (Hst : forall x out, evolves hk st (r_state (post_hook (with_db st1 (update h (fun a => set_value a x) (st_db st1)))
                                                        hk (ha_written (h_acts hk)) (h_written hk) out))).
  { intros x out. eapply evolves_trans; [exact V1|].
    eapply evolves_trans; [apply store_evolves|apply post_hook_evolves; cbn; tauto].
    intros [_ Hp]. rewrite (value_may_write_static _ _ _ (proj1 V1)) in Hp. congruence. }
  destruct res1 as [o1|]; [|exact V1].
  destruct o1 as [|x| | | | |g1 g2 g3|]; try (cbn [r_state prepend]; rewrite hook_error_state; exact V1).
  - apply Hst.
  - apply Hst.
  - destruct rsp; [exact V1|]. cbn [r_state prepend]. rewrite hook_error_state. exact V1.
Qed.

(** the repaired code records every subscription: [record] is [true] *)
Lemma cccd_effects_evolves st hk h newv out :
  is_value_handle st h = false -> evolves hk st (r_state (cccd_effects st hk h newv true out)).
Proof.
  intros Hk. unfold cccd_effects.
  set (st1 := with_db st (update h (fun a => set_value a newv) (st_db st))).
  assert (S1 : evolves hk st st1).
  { apply store_evolves. intros [Hv _]. congruence. }
  (* callbacks installed / removed, subscription recorded, then the informative hook *)
  assert (S2 : forall d n i subs act o, In act (sites hk) ->
    evolves hk st (r_state (post_hook (with_subs (with_db st1 (update d (fun c => set_cbs c (n c) (i c)) (st_db st1))) subs)
                                      hk act o out))).
  { intros d n i subs act o Hin. eapply evolves_trans; [exact S1|].
    eapply evolves_trans; [apply (cbs_evolves hk _ d n i)|].
    eapply evolves_trans; [|apply post_hook_evolves, Hin]. apply evolves_cur, incl_refl. }
  destruct (un_le16_2 newv) as [cfg|]; [|exact S1].
  destruct (owner_decl h (st_db st) None) as [d|]; [|exact S1].
  destruct (cfg =? 1); [apply (S2 d (fun _ => Some (i_id (st_cur st))) a_icb); cbn; tauto|].
  destruct (cfg =? 2); [apply (S2 d a_ncb (fun _ => Some (i_id (st_cur st)))); cbn; tauto|].
  destruct (cfg =? 0); [|exact S1].
  apply (S2 d (fun _ => None) (fun _ => None)); cbn; tauto.
Qed.

Lemma write_gen_evolves st hk is_cmd h val : evolves hk st (r_state (h_write_gen V_fixed st hk is_cmd h val)).
Proof.
  unfold h_write_gen. cbn [fx_write_default fx_sub_record V_fixed].
  destruct (h =? 0); [apply evolves_refl|].
  destruct (lookup h (st_db st)) as [a|] eqn:El; [|apply evolves_refl].
  destruct (a_kind a) eqn:K.
  (* goals in the order of [kind]: KValue is the fifth, KCccd the sixth; a closing tactic tried on the
     hook-calling branch makes unification unfold the handler *)
  1-4, 7: destruct is_cmd; apply evolves_refl.
  - destruct (write_denied st h E_NOT_FOUND) eqn:E; [apply evolves_refl|].
    apply write_value_evolves. apply write_denied_spec in E. exact E.
  - match goal with |- context [if ?b then cccd_effects _ _ _ _ _ _ else _] => destruct b end;
      [|apply evolves_refl].
    rewrite orb_true_r. apply cccd_effects_evolves. unfold is_value_handle. rewrite El, K. reflexivity.
Qed.

Lemma update_set_value_twice h x y db :
  update h (fun a => set_value a y) (update h (fun a => set_value a x) db) = update h (fun a => set_value a y) db.
Proof.
  induction db as [|a r IH]; cbn [update]; [reflexivity|].
  destruct (a_handle a =? h) eqn:E; cbn [update a_handle set_value]; rewrite E, ?IH; reflexivity.
Qed.

Lemma apply_writes_shape h ws : forall db,
  fst (apply_writes h ws db) = db \/ exists x, fst (apply_writes h ws db) = update h (fun a => set_value a x) db.
Proof.
  induction ws as [|[off val] r IH]; intros db; cbn [apply_writes]; [left; reflexivity|].
  destruct (lookup h db) as [a|]; [|left; reflexivity].
  destruct (nlen (a_value a) <? off); [left; reflexivity|]. right.
  destruct (IH (update h (fun x => set_value x (splice (a_value a) off val)) db)) as [->|[x ->]]; eexists;
    [reflexivity|apply update_set_value_twice].
Qed.

Lemma apply_writes_static st h ws : same_static st (with_db st (fst (apply_writes h ws (st_db st)))).
Proof.
  destruct (apply_writes_shape h ws (st_db st)) as [->|[x ->]]; [exact (same_static_refl st)|apply store_static].
Qed.

Lemma exec_loop_evolves hk q : forall st,
  match exec_loop V_fixed st q with
  | inl r => evolves hk st (r_state r)
  | inr st' => evolves hk st st'
  end.
Proof.
  induction q as [|[h ws] q IH]; intros st; cbn [exec_loop]; [apply evolves_refl|].
  cbn [fx_exec_perm V_fixed].
  assert (Hclear : forall st', evolves hk st st' -> evolves hk st (with_queues st' [])).
  { intros st' H. eapply evolves_trans; [exact H|]. apply evolves_cur. intros x []. }
  destruct (lookup h (st_db st)) as [a|]; [|apply Hclear, evolves_refl].
  destruct (a_kind a).
  1-4, 6-7: apply IH.
  destruct (write_denied st h E_INVALID_HANDLE) eqn:E; [apply Hclear, evolves_refl|].
  assert (H1 : evolves hk st (with_db st (fst (apply_writes h ws (st_db st))))).
  { destruct (apply_writes_shape h ws (st_db st)) as [->|[x ->]]; [exact (evolves_refl hk [] st)|].
    apply store_evolves. intros [_ Hp]. apply write_denied_spec in E. congruence. }
  destruct (apply_writes h ws (st_db st)) as [db' ok]. cbn [fst] in H1.
  destruct ok; [|apply Hclear, H1].
  specialize (IH (with_db st db')).
  destruct (exec_loop V_fixed (with_db st db') q); (eapply evolves_trans; [exact H1|exact IH]).
Qed.

Definition prep_handle (r : att_request) : list N := match r with PrepareWrite h _ _ => [h] | _ => [] end.

Lemma queue_add_qh h off val q : incl (map fst (queue_add h off val q)) (h :: map fst q).
Proof.
  induction q as [|[h' l] r IH]; cbn [queue_add map fst].
  - intros x [<-|[]]. left. reflexivity.
  - destruct (h' =? h) eqn:E; cbn [map fst].
    + intros x Hx. right. exact Hx.
    + intros x [<-|Hx]; [right; left; reflexivity|]. destruct (IH x Hx) as [<-|Hin]; [left; reflexivity|right; right; exact Hin].
Qed.

Lemma locked_evolves hk Q st body :
  (forall s, evolves_q hk Q s (r_state (body s))) -> evolves_q hk Q st (r_state (locked V_fixed st body)).
Proof.
  intros H. unfold locked. destruct (tx_locked st); [apply evolves_refl|].
  destruct (r_exc (body (with_lock st true))) as [[]|]; exact (H (with_lock st true)).
Qed.

Lemma handle_evolves st r hk : evolves_q hk (prep_handle r) st (r_state (handle V_fixed st r hk)).
Proof.
  destruct r; cbn [handle fx_rbt128 V_fixed prep_handle]; try apply locked_evolves; try intros s0.
  - unfold h_mtu. cbn [r_state done]. destruct (23 <=? mtu); [apply evolves_cur, incl_refl|apply evolves_refl].
  - rewrite find_info_state. apply evolves_refl.
  - rewrite fbtv_state. apply evolves_refl.
  - rewrite read_by_type_state. apply evolves_refl.
  - rewrite read_by_type_state. apply evolves_refl.
  - apply read_end_evolves, read_req_end.
  - apply read_end_evolves, read_blob_end.
  - destruct hs; [rewrite unparsed_state; apply evolves_refl|]. apply locked_evolves. intros s0. apply evolves_refl.
  - rewrite read_by_group_state. apply evolves_refl.
  - apply write_gen_evolves.
  - apply write_gen_evolves.
  - apply evolves_refl.
  - (* the one request that adds to the queue *)
    unfold h_prepare. destruct (lookup h (st_db s0)) as [a0|]; [destruct (a_kind a0)|].
    1-4, 6-8: apply evolves_refl.
    split; [exact (same_static_refl s0)|split; [apply queue_add_qh|reflexivity]].
  - unfold h_execute. cbn [fx_exec_clear fx_exec_flags V_fixed].
    destruct (flags =? 0); [apply evolves_cur; intros x []|]. destruct (flags =? 1); [|apply evolves_refl].
    pose proof (exec_loop_evolves hk (i_queues (st_cur s0)) s0) as H.
    destruct (exec_loop V_fixed s0 (i_queues (st_cur s0))); [exact H|].
    cbn [r_state done]. eapply evolves_trans; [exact H|]. apply evolves_cur. intros x [].
  - apply evolves_refl.
  - apply evolves_refl.
  - apply evolves_refl.
  - rewrite unparsed_state. apply evolves_refl.
Qed.

Lemma handle_static st r hk : same_static st (r_state (handle V_fixed st r hk)).
Proof. apply handle_evolves. Qed.

(** * A value changes across a request only if the client may write it, or a hook assigns it *)

Lemma write_needs_permission st r hk h :
  is_value_handle st h = true -> value_may_write st h = false -> hook_assigns hk h = false ->
  value_at (fst (server_step st r hk)) h = value_at st h.
Proof. intros Hv Hw Hha. apply handle_evolves; [split|]; assumption. Qed.

(** * Non-interference: every handler commutes with the erasure of unreadable values *)

Definition map_state (f : state -> state) (r : hres) : hres := mkRes (f (r_state r)) (r_out r) (r_exc r).

Section NI.
Variable S : N -> bool.
Notation er := (er S).
Notation view := (view S).

Lemma er_handle a : a_handle (er a) = a_handle a. Proof. unfold Model.er. destruct (S _); reflexivity. Qed.
Lemma er_kind a : a_kind (er a) = a_kind a. Proof. unfold Model.er. destruct (S _); reflexivity. Qed.
Lemma er_type a : a_type (er a) = a_type a. Proof. unfold Model.er. destruct (S _); reflexivity. Qed.
Lemma er_uuid a : a_uuid (er a) = a_uuid a. Proof. unfold Model.er. destruct (S _); reflexivity. Qed.
Lemma er_end a : a_end (er a) = a_end a. Proof. unfold Model.er. destruct (S _); reflexivity. Qed.
Lemma er_props a : a_props (er a) = a_props a. Proof. unfold Model.er. destruct (S _); reflexivity. Qed.
Lemma er_sec a : a_sec (er a) = a_sec a. Proof. unfold Model.er. destruct (S _); reflexivity. Qed.
Lemma er_ncb a : a_ncb (er a) = a_ncb a. Proof. unfold Model.er. destruct (S _); reflexivity. Qed.
Lemma er_icb a : a_icb (er a) = a_icb a. Proof. unfold Model.er. destruct (S _); reflexivity. Qed.
Lemma er_public a : S (a_handle a) = false -> er a = a.
Proof. unfold Model.er. intros ->. reflexivity. Qed.
Lemma er_idem a : er (er a) = er a.
Proof. unfold Model.er. destruct (S (a_handle a)) eqn:E; cbn; rewrite E; reflexivity. Qed.
Lemma er_static a : static_eq a (er a).
Proof. unfold Model.er. destruct (S _); [apply set_value_static|apply static_eq_refl]. Qed.
Lemma er_payload a : a_kind a <> KValue -> a_kind a <> KCccd -> a_kind a <> KDesc -> payload (er a) = payload a.
Proof.
  intros. unfold payload. rewrite er_kind, er_props, er_handle, er_uuid.
  destruct (a_kind a); try reflexivity; try contradiction; unfold Model.er; destruct (S _); reflexivity.
Qed.
Lemma er_obj_uuid a : obj_uuid (er a) = obj_uuid a.
Proof. unfold obj_uuid. rewrite er_kind, er_uuid, er_type. reflexivity. Qed.
Lemma er_readable a : readable (er a) = readable a. Proof. unfold readable. rewrite er_props. reflexivity. Qed.
Lemma er_writeable a : writeable (er a) = writeable a. Proof. unfold writeable. rewrite er_props. reflexivity. Qed.
Lemma er_rsec a : rsec (er a) = rsec a. Proof. unfold rsec. rewrite er_sec. reflexivity. Qed.
Lemma er_wsec a : wsec (er a) = wsec a. Proof. unfold wsec. rewrite er_sec. reflexivity. Qed.
Lemma er_set_cbs a n i : er (set_cbs a n i) = set_cbs (er a) n i.
Proof. unfold Model.er. cbn. destruct (S (a_handle a)); reflexivity. Qed.
Lemma er_set_value_public a x : S (a_handle a) = false -> er (set_value a x) = set_value (er a) x.
Proof. unfold Model.er. cbn. intros ->. reflexivity. Qed.

Lemma lookup_er h db : lookup h (map er db) = option_map er (lookup h db).
Proof. apply lookup_map, er_handle. Qed.

Lemma filter_er (f : attr -> bool) l : (forall a, f (er a) = f a) -> filter f (map er l) = map er (filter f l).
Proof.
  intros Hf. induction l as [|a r IH]; cbn [map filter]; [reflexivity|]. rewrite Hf.
  destruct (f a); cbn [map]; rewrite IH; reflexivity.
Qed.

Lemma take_while_er (f : attr -> bool) l : (forall a, f (er a) = f a) ->
  take_while f (map er l) = map er (take_while f l).
Proof.
  intros Hf. induction l as [|a r IH]; cbn [map take_while]; [reflexivity|]. rewrite Hf.
  destruct (f a); cbn [map]; [rewrite IH|]; reflexivity.
Qed.

Lemma in_range_er s e a : in_range s e (er a) = in_range s e a.
Proof. unfold in_range. rewrite er_handle. reflexivity. Qed.

Lemma by_range_er s e db : by_range s e (map er db) = map er (by_range s e db).
Proof. apply filter_er. apply in_range_er. Qed.
Lemma by_type_er ty s e db : by_type ty s e (map er db) = map er (by_type ty s e db).
Proof. apply filter_er. intros a. rewrite er_type, in_range_er. reflexivity. Qed.

Lemma map_er_ext {B} (g : attr -> B) l : (forall a, In a l -> g (er a) = g a) -> map g (map er l) = map g l.
Proof. intros H. rewrite map_map. apply map_ext_in. exact H. Qed.

Lemma update_er h f db :
  (forall a, a_handle a = h -> er (f a) = f (er a)) ->
  update h f (map er db) = map er (update h f db).
Proof.
  intros Hf. induction db as [|a r IH]; cbn [map update]; [reflexivity|]. rewrite er_handle.
  destruct (a_handle a =? h) eqn:E; cbn [map]; [|rewrite IH; reflexivity].
  apply N.eqb_eq in E. rewrite Hf by exact E. reflexivity.
Qed.

Lemma view_idem st : view (view st) = view st.
Proof.
  unfold Model.view. cbn. unfold with_db. cbn. f_equal. rewrite map_map. apply map_ext. intros. apply er_idem.
Qed.

Lemma view_db st : st_db (view st) = map er (st_db st).
Proof. reflexivity. Qed.

Lemma owner_decl_er h db cur : owner_decl h (map er db) cur = owner_decl h db cur.
Proof. symmetry. apply owner_decl_static, map_static, er_static. Qed.
Lemma cccd_handle_er db d : cccd_handle (map er db) d = cccd_handle db d.
Proof. symmetry. apply cccd_handle_static, map_static, er_static. Qed.

Lemma view_static st : same_static st (view st).
Proof. split; [apply map_static, er_static|auto]. Qed.

Lemma view_eq_static st1 st2 : view st1 = view st2 -> same_static st1 st2.
Proof.
  intros E. eapply same_static_trans; [apply view_static|]. rewrite E. apply same_static_sym, view_static.
Qed.

Lemma read_denied_view st h : read_denied (view st) h = read_denied st h.
Proof. apply read_denied_static, view_static. Qed.
Lemma write_denied_view st h nf : write_denied (view st) h nf = write_denied st h nf.
Proof. apply write_denied_static, view_static. Qed.

Definition ni_ok (st : state) : Prop := sorted_from 0 (st_db st) = true /\ secret_ok st S.

Lemma ni_ok_static st st' : same_static st st' -> ni_ok st -> ni_ok st'.
Proof.
  intros Hs [H1 H2]. split; [|eapply secret_ok_static; eauto].
  destruct Hs as (Hd & _). rewrite <- (static_sorted _ _ Hd). exact H1.
Qed.

(** the one case analysis behind every handler: an attribute is either untouched by the erasure
    or a characteristic value that every handler refuses to read *)
Lemma er_lookup st h a : ni_ok st -> lookup h (st_db st) = Some a ->
  (S h = false /\ er a = a) \/ (a_kind a = KValue /\ exists c, read_denied st h = Some c).
Proof.
  intros [_ Hsec] L. destruct (S h) eqn:E.
  - right. destruct (Hsec h E) as [Hr Hk]. split; [apply (Hk a L)|].
    destruct (read_denied st h) as [c|] eqn:Ed; [eauto|]. apply read_denied_spec in Ed. congruence.
  - left. split; [reflexivity|]. apply er_public. apply lookup_in in L as [_ ->]. exact E.
Qed.

Lemma cfg_of_view st d : ni_ok st -> cfg_of (st_db (view st)) d = cfg_of (st_db st) d.
Proof.
  intros Hok. apply (cfg_of_ext _ _ _ (proj1 Hok) (proj1 (view_static st))). intros hc x Lx Hk _.
  rewrite view_db, lookup_er, Lx. cbn [option_map]. destruct (er_lookup st hc x Hok Lx) as [[_ ->]|[K _]]; [reflexivity|congruence].
Qed.

Lemma find_info_view st s e : h_find_info (view st) s e = map_state view (h_find_info st s e).
Proof.
  unfold h_find_info. destruct ((s =? 0) || (e <? s)); [reflexivity|].
  rewrite view_db, by_range_er. destruct (by_range s e (st_db st)) as [|a0 r]; [reflexivity|].
  cbn [map]. cbv zeta. rewrite er_type.
  change (er a0 :: map er r) with (map er (a0 :: r)).
  rewrite firstn_map, take_while_er by (intros; rewrite er_type; reflexivity).
  rewrite map_er_ext by (intros; rewrite er_handle, er_type; reflexivity).
  reflexivity.
Qed.

Lemma fbtv_match_view st ty vr l : ni_ok st ->
  (forall a, In a l -> In a (st_db st)) ->
  fbtv_match V_fixed (view st) ty vr (map er l) = fbtv_match V_fixed st ty vr l.
Proof.
  intros Hok. induction l as [|a r IH]; intros Hin; cbn [map fbtv_match]; [reflexivity|].
  rewrite er_type, IH by (intros; apply Hin; right; assumption).
  destruct (negb (bytes_eqb ty (a_type a))); [reflexivity|].
  rewrite read_denied_view, er_handle. cbn [fx_fbtv V_fixed].
  assert (La : lookup (a_handle a) (st_db st) = Some a).
  { eapply sorted_in_lookup; [apply Hok|]. apply Hin. left. reflexivity. }
  destruct (er_lookup st _ a Hok La) as [[_ ->]|(K & c & E)]; [reflexivity|].
  rewrite er_kind, er_end, K, E. reflexivity.
Qed.

Lemma fbtv_view st s e ty vr : ni_ok st ->
  h_fbtv V_fixed (view st) s e ty vr = map_state view (h_fbtv V_fixed st s e ty vr).
Proof.
  intros Hok. unfold h_fbtv. destruct ((s =? 0) || (e <? s)); [reflexivity|].
  rewrite view_db, by_range_er, (fbtv_match_view st _ _ _ Hok) by (intros a Ha; eapply by_range_in; eauto).
  destruct (fbtv_match V_fixed st (uuid16 ty) vr (by_range s e (st_db st))) as [[|x l]|]; reflexivity.
Qed.

Lemma read_by_type_view st s e ty : h_read_by_type (view st) s e ty = map_state view (h_read_by_type st s e ty).
Proof.
  unfold h_read_by_type. destruct ((s =? 0) || (e <? s)); [reflexivity|].
  rewrite view_db, by_type_er. destruct (by_type ty s e (st_db st)) as [|a0 r]; [reflexivity|].
  cbn [map]. cbv zeta. rewrite er_uuid.
  change (er a0 :: map er r) with (map er (a0 :: r)).
  change (mtu_of (view st)) with (mtu_of st).
  rewrite !firstn_map.
  rewrite take_while_er by (intros; rewrite er_uuid; reflexivity).
  rewrite !filter_er by (intros; rewrite ?er_uuid, ?er_kind; reflexivity).
  (* the items are payloads of declarations / includes: no value in them *)
  destruct (bytes_eqb ty (uuid16 10243)); [|destruct (bytes_eqb ty (uuid16 10242)); [|reflexivity]].
  - rewrite map_er_ext.
    + match goal with |- context [match ?l with [] => _ | _ :: _ => _ end] => destruct l end; reflexivity.
    + intros a Ha. apply filter_In in Ha as [_ Ha].
      rewrite er_handle, er_payload by (destruct (a_kind a); discriminate). reflexivity.
  - rewrite map_er_ext.
    + match goal with |- context [match ?l with [] => _ | _ :: _ => _ end] => destruct l end; reflexivity.
    + intros a Ha. apply filter_In in Ha as [_ Ha]. apply andb_true_iff in Ha as [_ Ha].
      rewrite er_handle, er_payload by (destruct (a_kind a); discriminate). reflexivity.
Qed.

Lemma group_items_er usz l : group_items V_fixed usz (map er l) = group_items V_fixed usz l.
Proof.
  induction l as [|a r IH]; cbn [map group_items]; [reflexivity|].
  rewrite er_kind, er_end, er_handle, er_obj_uuid, IH. reflexivity.
Qed.

Lemma read_by_group_view st s e ty :
  h_read_by_group V_fixed (view st) s e ty = map_state view (h_read_by_group V_fixed st s e ty).
Proof.
  unfold h_read_by_group. destruct ((s =? 0) || (e <? s)); [reflexivity|].
  destruct (negb (existsb (N.eqb ty) SUPPORTED_GROUPS)); [reflexivity|].
  rewrite view_db, by_type_er. destruct (by_type (uuid16 ty) s e (st_db st)) as [|a0 r]; [reflexivity|].
  cbn [map]. cbv zeta. rewrite er_obj_uuid.
  change (er a0 :: map er r) with (map er (a0 :: r)).
  change (mtu_of (view st)) with (mtu_of st).
  rewrite firstn_map, group_items_er.
  match goal with |- context [group_items V_fixed ?u ?l] => destruct (group_items V_fixed u l) end; reflexivity.
Qed.

Lemma prepare_view st h off val : h_prepare (view st) h off val = map_state view (h_prepare st h off val).
Proof.
  unfold h_prepare. rewrite view_db, lookup_er.
  destruct (lookup h (st_db st)) as [a|]; cbn [option_map]; [rewrite er_kind; destruct (a_kind a)|]; reflexivity.
Qed.

Lemma unparsed_view st o : unparsed (view st) o = map_state view (unparsed st o).
Proof. unfold unparsed. destruct (req_opcode o); reflexivity. Qed.

Lemma notify_via_view st id o mk vh val :
  notify_via (view st) id o mk vh val = map_state view (notify_via st id o mk vh val).
Proof.
  unfold notify_via. change (find_inst (view st) id) with (find_inst st id).
  destruct (find_inst st id) as [i|]; [|reflexivity]. destruct (i_proc_locked i); [reflexivity|].
  destruct o as [|x| | | | |g1 g2 g3|]; reflexivity.
Qed.

Lemma update_view st h f : (forall a, a_handle a = h -> er (f a) = f (er a)) ->
  with_db (view st) (update h f (st_db (view st))) = view (with_db st (update h f (st_db st))).
Proof. intros Hf. unfold Model.view at 3. cbn [st_db with_db]. rewrite <- update_er by exact Hf. reflexivity. Qed.

Lemma app_store_er db d v : S (d + 1) = false -> app_store (map er db) d v = map er (app_store db d v).
Proof.
  intros Hs. unfold app_store. rewrite lookup_er. destruct (lookup (d + 1) db) as [x|]; cbn [option_map]; [|reflexivity].
  rewrite er_kind. destruct (kind_eqb (a_kind x) KValue); [|reflexivity].
  apply update_er. intros a Ea. apply er_set_value_public. rewrite Ea. exact Hs.
Qed.

Lemma app_set_view st d v hk : ni_ok st -> S (d + 1) = false ->
  app_set (view st) d v hk = map_state view (app_set st d v hk).
Proof.
  intros Hok Hs. unfold app_set. fold (app_store (st_db (view st)) d v) (app_store (st_db st) d v).
  rewrite view_db, (app_store_er _ d v Hs), lookup_er.
  destruct (lookup d (st_db st)) as [c|]; cbn [option_map]; [|reflexivity].
  rewrite er_kind. destruct (a_kind c); try reflexivity.
  rewrite er_props, er_ncb, er_icb.
  set (st1 := with_db st (app_store (st_db st) d v)).
  change (with_db (view st) (map er (app_store (st_db st) d v))) with (view st1).
  change (map er (app_store (st_db st) d v)) with (st_db (view st1)).
  rewrite (cfg_of_view st1 d) by (apply (ni_ok_static st); [apply same_static_db, app_store_static|exact Hok]).
  cbn [st_db st1 with_db].
  destruct (has (a_props c) P_NOTIFY && _ && _).
  - destruct (a_ncb c); [apply notify_via_view|reflexivity].
  - destruct (has (a_props c) P_INDICATE && _ && _); [|reflexivity].
    destruct (a_icb c); [apply notify_via_view|reflexivity].
Qed.

Lemma hook_act_view st hk act o : ni_ok st -> act_avoids S act = true ->
  hook_act (view st) hk act o =
  (let '(st1, pd, res) := hook_act st hk act o in (view st1, pd, res)).
Proof.
  intros Hok Ha. unfold hook_act. destruct act as [[d v]|]; [|reflexivity].
  cbn [act_avoids] in Ha. apply negb_true_iff in Ha. rewrite (app_set_view st d v hk Hok Ha). reflexivity.
Qed.

Lemma hook_error_view st op opa h o : hook_error (view st) op opa h o = map_state view (hook_error st op opa h o).
Proof. destruct o as [|x| | | | |g1 g2 g3|]; reflexivity. Qed.

Lemma post_hook_view st hk act o out : ni_ok st -> act_avoids S act = true ->
  post_hook (view st) hk act o out = map_state view (post_hook st hk act o out).
Proof.
  intros Hok Ha. unfold post_hook. rewrite (hook_act_view st hk act o Hok Ha).
  destruct (hook_act st hk act o) as [[st1 pd] res]. destruct res as [o'|]; reflexivity.
Qed.

Lemma val_at_view st h : S h = false -> val_at (view st) h = val_at st h.
Proof.
  intros Hs. unfold val_at. rewrite view_db, lookup_er.
  destruct (lookup h (st_db st)) as [a|] eqn:L; [|reflexivity]. cbn [option_map].
  rewrite er_public; [reflexivity|]. apply lookup_in in L as [_ ->]. exact Hs.
Qed.

Lemma read_value_answer_view st hk op opa h mk (normal : state -> bytes) :
  ni_ok st -> acts_avoid S hk = true -> (forall s0, normal (view s0) = normal s0) ->
  read_value_answer (view st) hk op opa h mk normal = map_state view (read_value_answer st hk op opa h mk normal).
Proof.
  intros Hok Ha Hn. unfold read_value_answer.
  rewrite (hook_act_view st hk _ _ Hok) by (apply (site_avoids S hk _ Ha); cbn; tauto).
  destruct (hook_act st hk (ha_read (h_acts hk)) (h_read hk)) as [[st1 pd] res].
  change (mtu_of (view st)) with (mtu_of st).
  destruct res as [o'|]; [|reflexivity].
  destruct o' as [|x| | | | |g1 g2 g3|]; try reflexivity; try (rewrite hook_error_view; reflexivity).
  unfold map_state. cbn [r_state r_out r_exc done]. rewrite Hn. reflexivity.
Qed.

Lemma read_req_view st hk h : ni_ok st -> acts_avoid S hk = true ->
  h_read_req V_fixed (view st) hk h = map_state view (h_read_req V_fixed st hk h).
Proof.
  intros Hok Ha. unfold h_read_req. cbn [fx_read_default V_fixed].
  destruct (h =? 0); [reflexivity|].
  rewrite view_db, lookup_er. destruct (lookup h (st_db st)) as [a|] eqn:El; cbn [option_map]; [|reflexivity].
  change (mtu_of (view st)) with (mtu_of st). rewrite read_denied_view.
  destruct (er_lookup st h a Hok El) as [[Hs ->]|(K & c & E)]; [|rewrite er_kind, K, E; reflexivity].
  destruct (a_kind a).
  1-4, 6-7: reflexivity.
  destruct (read_denied st h); [reflexivity|].
  apply read_value_answer_view; [exact Hok|exact Ha|]. intros s0. rewrite val_at_view; [reflexivity|exact Hs].
Qed.

Lemma read_blob_view st hk h off : ni_ok st -> acts_avoid S hk = true ->
  h_read_blob V_fixed (view st) hk h off = map_state view (h_read_blob V_fixed st hk h off).
Proof.
  intros Hok Ha. unfold h_read_blob. cbn [fx_blob V_fixed].
  destruct (h =? 0); [reflexivity|].
  rewrite view_db, lookup_er. destruct (lookup h (st_db st)) as [a|] eqn:El; cbn [option_map]; [|reflexivity].
  change (mtu_of (view st)) with (mtu_of st). rewrite read_denied_view.
  destruct (er_lookup st h a Hok El) as [[Hs ->]|(K & c & E)]; [|rewrite er_kind, K, E; reflexivity].
  destruct (a_kind a).
  1-4, 6-7: destruct (off <? _); [|destruct (off =? _)]; reflexivity.
  destruct (read_denied st h); [reflexivity|].
  destruct (off <? _); [|destruct (off =? _); reflexivity].
  unfold blob_value_branch. change (mtu_of (view st)) with (mtu_of st).
  apply read_value_answer_view; [exact Hok|exact Ha|]. intros s0. rewrite val_at_view; [reflexivity|exact Hs].
Qed.

Lemma write_value_view st hk op opa h val rsp : S h = false -> ni_ok st -> acts_avoid S hk = true ->
  write_value (view st) hk op opa h val rsp = map_state view (write_value st hk op opa h val rsp).
Proof.
  intros Hsh Hok Ha. unfold write_value. cbv zeta.
  rewrite (hook_act_view st hk _ (h_write hk) Hok) by (apply (site_avoids S hk _ Ha); cbn; tauto).
  destruct (hook_act st hk (ha_write (h_acts hk)) (h_write hk)) as [[st1 pd1] res1] eqn:E1.
  assert (Hok1 : ni_ok st1).
  { apply (ni_ok_static st); [|exact Hok]. eapply hook_act_evolves; [|exact E1]. cbn; tauto. }
  assert (Hst : forall x out,
    post_hook (with_db (view st1) (update h (fun a => set_value a x) (st_db (view st1)))) hk
              (ha_written (h_acts hk)) (h_written hk) out
    = map_state view (post_hook (with_db st1 (update h (fun a => set_value a x) (st_db st1))) hk
                                (ha_written (h_acts hk)) (h_written hk) out)).
  { intros x out. rewrite update_view by (intros a <-; apply er_set_value_public, Hsh).
    apply post_hook_view; [apply (ni_ok_static _ _ (store_static st1 h x) Hok1)|].
    apply (site_avoids S hk _ Ha). cbn; tauto. }
  destruct res1 as [o1|]; [|reflexivity].
  destruct o1 as [|x| | | | |g1 g2 g3|]; try apply Hst; try (rewrite hook_error_view; reflexivity).
  destruct rsp; [reflexivity|]. rewrite hook_error_view. reflexivity.
Qed.

Lemma cccd_effects_view st hk h newv out : S h = false -> ni_ok st -> acts_avoid S hk = true ->
  cccd_effects (view st) hk h newv true out = map_state view (cccd_effects st hk h newv true out).
Proof.
  intros Hs Hok Ha. unfold cccd_effects.
  rewrite view_db, owner_decl_er, update_er by (intros a <-; apply er_set_value_public, Hs).
  destruct (un_le16_2 newv) as [cfg|]; [|reflexivity].
  destruct (owner_decl h (st_db st) None) as [d|]; [|reflexivity].
  set (st1 := with_db st (update h (fun a => set_value a newv) (st_db st))).
  change (with_db (view st) (map er (st_db st1))) with (view st1).
  change (map er (st_db st1)) with (st_db (view st1)).
  change (i_id (st_cur (view st))) with (i_id (st_cur st)).
  assert (G : forall n i subs act o,
    (forall a, n (er a) = n a) -> (forall a, i (er a) = i a) -> In act (sites hk) ->
    let st2 s := with_subs (with_db s (update d (fun c => set_cbs c (n c) (i c)) (st_db s))) subs in
    post_hook (st2 (view st1)) hk act o out = map_state view (post_hook (st2 st1) hk act o out)).
  { intros n i subs act o Hn Hi Hin st2. unfold st2. rewrite update_view by (intros a _; rewrite er_set_cbs, Hn, Hi; reflexivity).
    apply (post_hook_view (st2 st1)); [|apply (site_avoids S hk _ Ha Hin)].
    apply (ni_ok_static st); [|exact Hok].
    eapply same_static_trans; [apply store_static|apply (cbs_static st1 d n i)]. }
  destruct (cfg =? 1);
    [apply (G (fun _ => Some (i_id (st_cur st))) a_icb); try reflexivity; [apply er_icb|cbn; tauto]|].
  destruct (cfg =? 2);
    [apply (G a_ncb (fun _ => Some (i_id (st_cur st)))); try reflexivity; [apply er_ncb|cbn; tauto]|].
  destruct (cfg =? 0); [|reflexivity].
  apply (G (fun _ => None) (fun _ => None)); try reflexivity. cbn; tauto.
Qed.

Lemma write_gen_view st hk is_cmd h val :
  ni_ok st -> acts_avoid S hk = true -> negb (S h && value_may_write st h) = true ->
  h_write_gen V_fixed (view st) hk is_cmd h val = map_state view (h_write_gen V_fixed st hk is_cmd h val).
Proof.
  intros Hok Ha Hal. apply negb_true_iff in Hal. unfold h_write_gen. cbn [fx_write_default fx_sub_record V_fixed].
  destruct (h =? 0); [reflexivity|].
  rewrite view_db, lookup_er.
  destruct (lookup h (st_db st)) as [a|] eqn:El; cbn [option_map]; [|reflexivity].
  rewrite er_kind. destruct (a_kind a) eqn:K.
  1-4, 7: destruct is_cmd; reflexivity.
  - rewrite write_denied_view. destruct (write_denied st h E_NOT_FOUND) eqn:E; [reflexivity|].
    apply write_value_view; try assumption. apply write_denied_spec in E. rewrite E, andb_true_r in Hal. exact Hal.
  - destruct (er_lookup st h a Hok El) as [[Hs ->]|[K' _]]; [|congruence].
    match goal with |- context [if ?b then cccd_effects _ _ _ _ _ _ else _] => destruct b end; [|reflexivity].
    rewrite orb_true_r. apply cccd_effects_view; assumption.
Qed.

Lemma apply_writes_view h ws : S h = false -> forall db,
  apply_writes h ws (map er db) = (map er (fst (apply_writes h ws db)), snd (apply_writes h ws db)).
Proof.
  intros Hs. induction ws as [|[off val] r IH]; intros db; cbn [apply_writes]; [reflexivity|].
  rewrite lookup_er. destruct (lookup h db) as [a|] eqn:El; cbn [option_map]; [|reflexivity].
  assert (Ea : er a = a) by (apply er_public; apply lookup_in in El as [_ ->]; exact Hs).
  rewrite Ea. destruct (nlen (a_value a) <? off); [reflexivity|].
  rewrite update_er by (intros x <-; apply er_set_value_public; exact Hs).
  apply IH.
Qed.

Lemma exec_loop_view q : forall st,
  (forall h, In h (map fst q) -> S h && value_may_write st h = false) ->
  exec_loop V_fixed (view st) q
  = match exec_loop V_fixed st q with inl r => inl (map_state view r) | inr s => inr (view s) end.
Proof.
  induction q as [|[h ws] q IH]; intros st Hq; cbn [exec_loop]; [reflexivity|].
  cbn [fx_exec_perm V_fixed].
  rewrite view_db, lookup_er.
  destruct (lookup h (st_db st)) as [a|] eqn:El; cbn [option_map]; [|reflexivity].
  rewrite er_kind.
  assert (Hq' : forall h', In h' (map fst q) -> S h' && value_may_write st h' = false) by (intros; apply Hq; right; assumption).
  destruct (a_kind a).
  1-4, 6-7: apply IH; exact Hq'.
  rewrite write_denied_view. destruct (write_denied st h E_INVALID_HANDLE) eqn:E; [reflexivity|].
  assert (Hs : S h = false).
  { specialize (Hq h (or_introl eq_refl)). apply write_denied_spec in E. rewrite E, andb_true_r in Hq. exact Hq. }
  rewrite (apply_writes_view h ws Hs).
  pose proof (apply_writes_static st h ws) as Es.
  destruct (apply_writes h ws (st_db st)) as [db' ok]. cbn [fst snd] in *.
  destruct ok; [|reflexivity].
  change (with_db (view st) (map er db')) with (view (with_db st db')).
  apply IH. intros x Hx. rewrite (value_may_write_static st (with_db st db') x Es).
  apply Hq', Hx.
Qed.

Lemma queue_clean_qh st : queue_clean st S <-> (forall h, In h (qh st) -> S h && value_may_write st h = false).
Proof.
  unfold queue_clean, qh. split.
  - intros H h Hin. apply in_map_iff in Hin as (q & <- & Hq). apply H, Hq.
  - intros H q Hq. apply H. apply in_map. exact Hq.
Qed.

Lemma execute_view st f :
  queue_clean st S ->
  h_execute V_fixed (view st) f = map_state view (h_execute V_fixed st f).
Proof.
  intros Hq. unfold h_execute. cbn [fx_exec_clear fx_exec_flags V_fixed].
  destruct (f =? 0); [reflexivity|]. destruct (f =? 1); [|reflexivity].
  change (i_queues (st_cur (view st))) with (i_queues (st_cur st)).
  rewrite (exec_loop_view _ st (proj1 (queue_clean_qh st) Hq)).
  destruct (exec_loop V_fixed st (i_queues (st_cur st))); reflexivity.
Qed.

Lemma locked_view st (body : state -> hres) :
  body (with_lock (view st) true) = map_state view (body (with_lock st true)) ->
  locked V_fixed (view st) body = map_state view (locked V_fixed st body).
Proof.
  intros H. unfold locked. change (tx_locked (view st)) with (tx_locked st).
  destruct (tx_locked st); [reflexivity|]. rewrite H. cbn [r_exc r_state r_out map_state].
  destruct (r_exc (body (with_lock st true))) as [[]|]; reflexivity.
Qed.

Lemma handle_view st r hk :
  ni_ok st -> queue_clean st S -> ni_allowed st S r = true -> acts_avoid S hk = true ->
  handle V_fixed (view st) r hk = map_state view (handle V_fixed st r hk).
Proof.
  intros Hok Hq Hal Ha.
  assert (Hok' : ni_ok (with_lock st true)) by exact Hok.
  destruct r; cbn [handle fx_rbt128 V_fixed]; try reflexivity; try apply locked_view;
    change (with_lock (view st) true) with (view (with_lock st true)).
  - unfold h_mtu. destruct (23 <=? mtu); reflexivity.
  - apply find_info_view.
  - apply fbtv_view, Hok'.
  - apply read_by_type_view.
  - apply read_by_type_view.
  - apply read_req_view; assumption.
  - apply read_blob_view; assumption.
  - destruct hs; [apply unparsed_view|]. apply locked_view. reflexivity.
  - apply read_by_group_view.
  - apply write_gen_view; assumption.
  - apply write_gen_view; assumption.
  - apply prepare_view.
  - apply execute_view. exact Hq.
  - reflexivity.
  - apply unparsed_view.
Qed.

Lemma queue_clean_step st r hk :
  queue_clean st S -> ni_allowed st S r = true -> queue_clean (r_state (handle V_fixed st r hk)) S.
Proof.
  intros Hq Hal. apply queue_clean_qh. intros h Hin.
  destruct (handle_evolves st r hk) as (Hs & Hi & _).
  rewrite (value_may_write_static _ _ h Hs).
  apply Hi, in_app_or in Hin as [Hin|Hin]; [|apply (proj1 (queue_clean_qh st) Hq), Hin].
  destruct r; cbn [prep_handle] in Hin; try contradiction. destruct Hin as [<-|[]].
  cbn [ni_allowed] in Hal. apply negb_true_iff in Hal. exact Hal.
Qed.

Lemma session_view (s : session) : forall st,
  ni_ok st -> queue_clean st S -> session_allowed st S s ->
  responses (view st) s = responses st s
  /\ fold_left session_step s (view st) = view (fold_left session_step s st).
Proof.
  induction s as [|[r hk] t IH]; intros st Hok Qc Hal; cbn [responses fold_left]; [split; reflexivity|].
  cbn [session_allowed fst snd] in Hal. destruct Hal as (Ha & Haa & Hal).
  pose proof (handle_view st r hk Hok Qc Ha Haa) as V.
  unfold session_step, server_step, server_step_v in *. cbn [fst snd] in *. rewrite V. cbn [map_state r_state r_out].
  destruct (IH (r_state (handle V_fixed st r hk))) as [IH1 IH2];
    [apply (ni_ok_static st _ (handle_static st r hk) Hok)|apply queue_clean_step; assumption|exact Hal|].
  rewrite IH1, IH2. split; reflexivity.
Qed.

Lemma ni_allowed_static st st' r : same_static st st' -> ni_allowed st' S r = ni_allowed st S r.
Proof. intros Hs. destruct r; cbn [ni_allowed]; try reflexivity; rewrite (value_may_write_static _ _ _ Hs); reflexivity. Qed.

Lemma queue_clean_static st st' : same_static st st' -> st_cur st' = st_cur st -> queue_clean st S -> queue_clean st' S.
Proof.
  intros Hs Hc Hq q Hin. rewrite Hc in Hin. rewrite (value_may_write_static _ _ _ Hs). apply Hq, Hin.
Qed.

Lemma session_allowed_static (s : session) : forall st st',
  same_static st st' -> session_allowed st S s -> session_allowed st' S s.
Proof.
  induction s as [|[r hk] t IH]; intros st st' Hs; cbn [session_allowed fst snd]; [auto|].
  intros (Ha & Haa & Hal). split; [|split; [exact Haa|]].
  - rewrite (ni_allowed_static _ _ _ Hs). exact Ha.
  - apply (IH (session_step st (r, hk))); [|exact Hal].
    eapply same_static_trans; [apply same_static_sym, handle_static|].
    eapply same_static_trans; [exact Hs|apply handle_static].
Qed.

(** Two states that differ only in values of characteristics the client may not read answer every
    session without an authorised write to such a characteristic identically, and end in two such
    states again. *)
Theorem non_interference (s : session) st1 st2 :
  sorted_from 0 (st_db st1) = true ->
  view st1 = view st2 -> secret_ok st1 S -> queue_clean st1 S -> session_allowed st1 S s ->
  responses st1 s = responses st2 s
  /\ view (fold_left session_step s st1) = view (fold_left session_step s st2).
Proof.
  intros Hsort Ev Sec Qc Hal.
  pose proof (view_eq_static _ _ Ev) as Hs.
  assert (Ok1 : ni_ok st1) by (split; assumption).
  destruct (session_view s st1 Ok1 Qc Hal) as [R1 F1].
  destruct (session_view s st2) as [R2 F2];
    [apply (ni_ok_static _ _ Hs Ok1) | | apply (session_allowed_static s _ _ Hs Hal) |].
  - apply (queue_clean_static _ _ Hs); [|exact Qc]. apply (f_equal st_cur) in Ev. cbn in Ev. congruence.
  - rewrite <- R1, <- R2, <- F1, <- F2, Ev. split; reflexivity.
Qed.

End NI.

(** * Notifications only while subscribed *)

Definition cccd_struct (db : db_t) : Prop :=
  forall h a, lookup h db = Some a -> a_kind a = KCccd ->
    exists d, owner_decl h db None = Some d /\ cccd_handle db d = Some h.

Lemma cccd_struct_static d1 d2 : static_db d1 d2 -> cccd_struct d1 -> cccd_struct d2.
Proof.
  intros E H h b Lb Kb. destruct (lookup_static_back _ _ h b E Lb) as (a & La & _ & Hk & _).
  destruct (H h a La) as (d & Ho & Hc); [congruence|]. exists d.
  rewrite <- (owner_decl_static _ _ h E), <- (cccd_handle_static _ _ d E). split; assumption.
Qed.

Definition cb_set (a : attr) : bool :=
  match a_ncb a, a_icb a with None, None => false | _, _ => true end.

Record sub_inv (st : state) (t : sub_table) : Prop := {
  si_owner : forall h a, lookup h (st_db st) = Some a -> a_kind a = KCccd ->
                exists d, owner_decl h (st_db st) None = Some d;
  si_unique : forall h a d, lookup h (st_db st) = Some a -> a_kind a = KCccd ->
                owner_decl h (st_db st) None = Some d -> cccd_handle (st_db st) d = Some h;
  si_disc : st_connected st = false -> forall d c, lookup d (st_db st) = Some c -> cb_set c = false;
  si_sub : forall d c, lookup d (st_db st) = Some c -> cb_set c = true ->
             In d (i_subscribed (st_cur st)) /\ cfg_of (st_db st) d = Some (sub_get t d) }.

Lemma sub_get_set t d v d' : sub_get (sub_set t d v) d' = if d =? d' then v else sub_get t d'.
Proof. reflexivity. Qed.

Lemma sub_inv_struct st t : sub_inv st t -> cccd_struct (st_db st).
Proof.
  intros [Ow U _ _] h a L K. destruct (Ow h a L K) as (d & Ho). exists d. split; [exact Ho|apply (U h a d L K Ho)].
Qed.

Lemma sub_inv_intro st t :
  cccd_struct (st_db st) ->
  (st_connected st = false -> forall d c, lookup d (st_db st) = Some c -> cb_set c = false) ->
  (forall d c, lookup d (st_db st) = Some c -> cb_set c = true ->
     In d (i_subscribed (st_cur st)) /\ cfg_of (st_db st) d = Some (sub_get t d)) ->
  sub_inv st t.
Proof.
  intros H D Sb. constructor; [| |exact D|exact Sb].
  - intros h a L K. destruct (H h a L K) as (d & Ho & _). eauto.
  - intros h a d L K Ho. destruct (H h a L K) as (d' & Ho' & Hc). congruence.
Qed.

Lemma sub_inv_no_cb st t :
  cccd_struct (st_db st) -> (forall d c, lookup d (st_db st) = Some c -> cb_set c = false) -> sub_inv st t.
Proof.
  intros H Hn. apply sub_inv_intro; [exact H|intros _; exact Hn|].
  intros d c L Hcb. rewrite (Hn d c L) in Hcb. discriminate.
Qed.

Definition cccd_len (db : db_t) : Prop :=
  forall h a, lookup h db = Some a -> a_kind a = KCccd -> nlen (a_value a) = 2.

(** handles in increasing order and CCCD values of two bytes are all that is needed of a well-formed
    database: no write is accepted that makes a CCCD longer or shorter *)
Definition notif_inv (st : state) (t : sub_table) : Prop :=
  sorted_from 0 (st_db st) = true /\ cccd_len (st_db st) /\ sub_inv st t.

Lemma notif_inv_same st st' t :
  st_db st' = st_db st -> st_connected st' = st_connected st ->
  i_subscribed (st_cur st') = i_subscribed (st_cur st) -> notif_inv st t -> notif_inv st' t.
Proof.
  intros Ed Ec Es (Hs & Hl & [Ow U D Sb]). unfold notif_inv. rewrite Ed. split; [exact Hs|split; [exact Hl|]].
  constructor; rewrite ?Ed, ?Ec, ?Es; assumption.
Qed.

Lemma cccd_len_update d f db :
  (forall a, a_handle (f a) = a_handle a) ->
  (forall a, lookup d db = Some a -> a_kind (f a) = KCccd -> nlen (a_value (f a)) = 2) ->
  cccd_len db -> cccd_len (update d f db).
Proof.
  intros Hh Hf Hl h a' La' K. rewrite lookup_update in La' by exact Hh.
  destruct (N.eqb_spec h d) as [->|_]; [|apply (Hl h a' La' K)].
  destruct (lookup d db) as [a|]; inversion La'; subst. apply (Hf a eq_refl K).
Qed.

Lemma sub_inv_store st t t' h x :
  let st' := with_db st (update h (fun c => set_value c x) (st_db st)) in
  (forall d, cfg_of (st_db st) d = Some (sub_get t d) -> cfg_of (st_db st') d = Some (sub_get t' d)) ->
  sub_inv st t -> sub_inv st' t'.
Proof.
  intros st' Hcfg Hi. pose proof (proj1 (store_static st h x)) as Es. fold st' in Es.
  assert (Hback : forall h' a', lookup h' (st_db st') = Some a' ->
            exists a, lookup h' (st_db st) = Some a /\ cb_set a' = cb_set a).
  { intros h' a' La'. cbn [st' st_db with_db] in La'. rewrite lookup_update in La' by reflexivity.
    destruct (lookup h' (st_db st)) as [a|]; [|destruct (h' =? h); discriminate]. exists a. split; [reflexivity|].
    destruct (h' =? h); inversion La'; reflexivity. }
  apply sub_inv_intro.
  - apply (cccd_struct_static _ _ Es), (sub_inv_struct _ _ Hi).
  - intros Hd d c' Lc'. destruct (Hback d c' Lc') as (c & Lc & ->). apply (si_disc _ _ Hi Hd d c Lc).
  - intros d c' Lc' Hcb'. destruct (Hback d c' Lc') as (c & Lc & E). rewrite E in Hcb'.
    destruct (si_sub _ _ Hi d c Lc Hcb') as [H1 H2]. split; [exact H1|apply Hcfg, H2].
Qed.

Lemma cfg_of_store db h x d : sorted_from 0 db = true ->
  (forall a, lookup h db = Some a -> a_kind a = KCccd -> owner_decl h db None <> Some d) ->
  cfg_of (update h (fun c => set_value c x) db) d = cfg_of db d.
Proof.
  intros Hs Hn. apply (cfg_of_ext _ _ _ Hs); [apply update_static; intros; apply set_value_static|].
  intros hc c Lc Kc Ho. rewrite lookup_update by reflexivity.
  destruct (N.eqb_spec hc h) as [->|_]; [destruct (Hn c Lc Kc Ho)|]. rewrite Lc. reflexivity.
Qed.

Lemma store_inv st t h x a : notif_inv st t -> lookup h (st_db st) = Some a -> a_kind a = KValue ->
  notif_inv (with_db st (update h (fun c => set_value c x) (st_db st))) t.
Proof.
  intros (Hs & Hl & Hi) La Ka. pose proof (proj1 (store_static st h x)) as S1.
  split; [rewrite <- (static_sorted _ _ S1); exact Hs|].
  split; [apply cccd_len_update; [reflexivity| |exact Hl]; intros c Lc Kc; cbn in Kc; congruence|].
  apply (sub_inv_store st t t h x); [|exact Hi].
  intros d H. cbn [st_db with_db]. rewrite (cfg_of_store _ _ x d Hs) by (intros c Lc Kc; congruence). exact H.
Qed.

Lemma app_db_inv st t d v st1 : app_db st d v st1 -> notif_inv st t ->
  notif_inv st1 t /\ st_connected st1 = st_connected st.
Proof.
  intros [->|(a & La & Ka & ->)] G; (split; [|reflexivity]); [exact G|apply (store_inv st t _ v a G La Ka)].
Qed.

Lemma is_rsp_notif_ok st t p : is_rsp p = true -> notif_ok st t p = true.
Proof. destruct p; cbn; intros; try reflexivity; discriminate. Qed.

Lemma rsp_notif_ok st t out : Forall (fun p => is_rsp p = true) out -> Forall (fun p => notif_ok st t p = true) out.
Proof. intros H. eapply Forall_impl; [|exact H]. intros p. apply is_rsp_notif_ok. Qed.

Lemma notif_ok_conn st st' t p : st_connected st' = st_connected st -> notif_ok st' t p = notif_ok st t p.
Proof. intros E. destruct p; cbn; try reflexivity; rewrite E; reflexivity. Qed.

Lemma notify_via_all (P : att_pdu -> Prop) st id o mk vh val :
  (forall x, P (mk vh x)) -> Forall P (r_out (notify_via st id o mk vh val)).
Proof.
  intros Hmk. unfold notify_via. destruct (find_inst st id) as [i|]; [|constructor].
  destruct (i_proc_locked i); [constructor|].
  destruct o as [|y| | | | |g1 g2 g3|]; cbn; repeat constructor; apply Hmk.
Qed.

Lemma cfg_of_app_store db d v d' : sorted_from 0 db = true -> cfg_of (app_store db d v) d' = cfg_of db d'.
Proof.
  intros Hs. unfold app_store. destruct (lookup (d + 1) db) as [x|] eqn:E; [|reflexivity].
  destruct (kind_eqb (a_kind x) KValue) eqn:K; [|reflexivity].
  apply (cfg_of_store _ _ v d' Hs). intros c Lc Kc. rewrite E in Lc. inversion Lc; subst c. rewrite Kc in K. discriminate K.
Qed.

(** [Characteristic.value = v] notifies / indicates only when a callback is installed and the CCCD
    holds 1 / 2: by the invariant the link is up and the table holds the same *)
Lemma app_set_notif_ok st t d val hk :
  sorted_from 0 (st_db st) = true -> sub_inv st t ->
  Forall (fun p => notif_ok st t p = true) (r_out (app_set st d val hk)).
Proof.
  intros Hwf Hi. unfold app_set. fold (app_store (st_db st) d val).
  destruct (lookup d (st_db st)) as [c|] eqn:Lc; [|constructor].
  destruct (a_kind c); try constructor. cbv zeta.
  rewrite (cfg_of_app_store _ d val d Hwf).
  (* [k] = 1 with [mk] = [PNotification], or 2 with [PIndication] *)
  assert (Hsend : forall k mk id o,
            (forall x, notif_ok st t (mk (d + 1) x) = st_connected st && (sub_get t d =? k)) ->
            cb_set c = true ->
            match cfg_of (st_db st) d with Some k' => k' =? k | None => false end = true ->
            Forall (fun p => notif_ok st t p = true)
                   (r_out (notify_via (with_db st (app_store (st_db st) d val)) id o mk (d + 1) val))).
  { intros k mk id o Hmk Hcb Hk. apply notify_via_all. intros x.
    rewrite (proj2 (si_sub _ _ Hi d c Lc Hcb)) in Hk. rewrite Hmk, Hk.
    destruct (st_connected st) eqn:E; [reflexivity|]. rewrite (si_disc _ _ Hi E d c Lc) in Hcb. discriminate. }
  pose proof (N.add_sub d 1) as Hd.
  destruct (has (a_props c) P_NOTIFY && _ && _) eqn:E1.
  - apply andb_true_iff in E1 as [E1 Hn]. apply andb_true_iff in E1 as [_ E1].
    destruct (a_ncb c) as [idn|] eqn:En; [|discriminate].
    apply (Hsend 1); [intros; cbn [notif_ok]; rewrite Hd; reflexivity|unfold cb_set; rewrite En; reflexivity|exact E1].
  - destruct (has (a_props c) P_INDICATE && _ && _) eqn:E2; [|constructor].
    apply andb_true_iff in E2 as [E2 Hn]. apply andb_true_iff in E2 as [_ E2].
    destruct (a_icb c) as [idi|] eqn:Ei; [|discriminate].
    apply (Hsend 2); [intros; cbn [notif_ok]; rewrite Hd; reflexivity| |exact E2].
    unfold cb_set. rewrite Ei. destruct (a_ncb c); reflexivity.
Qed.

(** what [history_ok] asks of one step from [st0], with the invariant for the steps that follow:
    [history_ok] judges the PDUs of a step against the state BEFORE it (of which [notif_ok] reads
    [st_connected] only) and the table AFTER it, hence [st0] beside [t'] *)
Definition inv_res (st0 : state) (t' : sub_table) (r : hres) : Prop :=
  notif_inv (r_state r) t' /\ Forall (fun p => notif_ok st0 t' p = true) (r_out r).

Lemma inv_done st t out : notif_inv st t -> Forall (fun p => is_rsp p = true) out -> inv_res st t (done st out).
Proof. intros G Ho. split; [exact G|apply rsp_notif_ok, Ho]. Qed.

Lemma hook_act_inv st t hk act o st1 pd res :
  notif_inv st t -> hook_act st hk act o = (st1, pd, res) ->
  st_connected st1 = st_connected st /\ notif_inv st1 t /\ Forall (fun p => notif_ok st t p = true) pd.
Proof.
  intros G E. unfold hook_act in E. destruct act as [[d v]|]; inversion E; subst; clear E.
  - destruct (app_db_inv st t d v _ (app_set_state st d v hk) G) as [I C].
    split; [exact C|]. split; [exact I|apply app_set_notif_ok; apply G].
  - split; [reflexivity|]. split; [exact G|constructor].
Qed.

Lemma post_hook_inv st0 st t hk act o out :
  st_connected st = st_connected st0 -> notif_inv st t ->
  Forall (fun p => notif_ok st0 t p = true) out ->
  inv_res st0 t (post_hook st hk act o out).
Proof.
  intros Hc G Ho. unfold post_hook. destruct (hook_act st hk act o) as [[st1 pd] res] eqn:E.
  destruct (hook_act_inv _ _ _ _ _ _ _ _ G E) as (_ & I1 & P1).
  assert (P : Forall (fun p => notif_ok st0 t p = true) (out ++ pd)).
  { apply Forall_app. split; [exact Ho|]. eapply Forall_impl; [|exact P1].
    intros p Hp. cbv beta in Hp. rewrite (notif_ok_conn st0 st t p Hc) in Hp. exact Hp. }
  destruct res as [o'|]; split; assumption.
Qed.

Lemma hook_error_inv st0 st t pd op opa h o :
  notif_inv st t -> Forall (fun p => notif_ok st0 t p = true) pd ->
  inv_res st0 t (prepend pd (hook_error st op opa h o)).
Proof.
  intros G P. unfold inv_res. cbn [r_state r_out prepend]. rewrite hook_error_state. split; [exact G|].
  apply Forall_app; split; [exact P|]. apply rsp_notif_ok. destruct o as [|x| | | | |g1 g2 g3|]; cbn; repeat constructor.
Qed.

Lemma read_value_answer_inv st t hk op opa h (mk : bytes -> att_pdu) normal :
  notif_inv st t -> (forall x, is_rsp (mk x) = true) ->
  inv_res st t (read_value_answer st hk op opa h mk normal).
Proof.
  intros G Hmk. unfold read_value_answer. destruct (hook_act st hk (ha_read (h_acts hk)) (h_read hk)) as [[st1 pd] res] eqn:E.
  destruct (hook_act_inv _ _ _ _ _ _ _ _ G E) as (_ & I1 & P1).
  assert (A : forall x, inv_res st t (done st1 (pd ++ [mk x]))).
  { intros x. split; [exact I1|]. apply Forall_app; split; [exact P1|]. constructor; [apply is_rsp_notif_ok, Hmk|constructor]. }
  destruct res as [o'|]; [|split; assumption].
  destruct o' as [|x| | | | |g1 g2 g3|].
  1-2: apply A.
  all: apply (hook_error_inv st st1 t pd _ _ _ _ I1 P1).
Qed.

Lemma read_end_inv st t hk r : notif_inv st t -> read_end st hk r -> inv_res st t r.
Proof.
  intros G [p Hp _|op opa h mk normal Hmk _ _]; [|apply read_value_answer_inv; assumption].
  apply inv_done; [exact G|]. constructor; [exact Hp|constructor].
Qed.

Lemma write_value_inv st t hk op opa h val rsp a0 :
  notif_inv st t -> lookup h (st_db st) = Some a0 -> a_kind a0 = KValue ->
  Forall (fun p => is_rsp p = true) rsp ->
  inv_res st t (write_value st hk op opa h val rsp).
Proof.
  intros G Hl Hk Hrsp.
  pose proof (rsp_notif_ok st t rsp Hrsp) as Prsp.
  unfold write_value. cbv zeta.
  dha ha_write st1 pd1 res1 E1.
  destruct (hook_act_inv _ _ _ _ _ _ _ _ G E1) as (K1 & I1 & P1).
  destruct (kinds_lookup _ _ _ _ (hook_act_kinds _ _ _ _ _ _ _ E1) Hl) as (a1 & L1 & Kv). rewrite Hk in Kv.
  (* the value (given or overridden) is stored, then the 'written' hook runs *)
  assert (Hst : forall x, inv_res st t (post_hook (with_db st1 (update h (fun a => set_value a x) (st_db st1))) hk
                                                 (ha_written (h_acts hk)) (h_written hk) (pd1 ++ rsp))).
  { intros x. apply post_hook_inv; [exact K1|apply (store_inv st1 t h x a1 I1 L1 Kv)|].
    apply Forall_app; split; assumption. }
  pose proof (fun o => hook_error_inv st st1 t pd1 op opa h o I1 P1) as Herr.
  destruct res1 as [o1|]; [|split; assumption].
  destruct o1 as [|x| | | | |g1 g2 g3|]; try apply Herr; try apply Hst.
  destruct rsp; [split; assumption|apply Herr].
Qed.

Lemma in_add_sub d l : In d (add_sub d l).
Proof.
  unfold add_sub. destruct (existsb (N.eqb d) l) eqn:E.
  - apply existsb_exists in E as (x & Hx & Hd). apply N.eqb_eq in Hd. subst. exact Hx.
  - apply in_or_app. right. left. reflexivity.
Qed.

Lemma in_add_sub_keep d d' l : In d' l -> In d' (add_sub d l).
Proof. unfold add_sub. destruct (existsb (N.eqb d) l); [auto|]. intros. apply in_or_app. left. assumption. Qed.

Lemma in_remove_sub_keep d d' l : d' <> d -> In d' l -> In d' (remove_sub d l).
Proof.
  intros Hne. induction l as [|x r IH]; cbn; [auto|].
  intros [->|Hin].
  - destruct (d' =? d) eqn:E; [apply N.eqb_eq in E; contradiction|left; reflexivity].
  - destruct (x =? d); [exact Hin|right; apply IH, Hin].
Qed.

Lemma cccd_store_inv st t h newv cfg d a :
  notif_inv st t -> lookup h (st_db st) = Some a -> a_kind a = KCccd ->
  nlen newv = 2 -> un_le16_2 newv = Some cfg -> owner_decl h (st_db st) None = Some d ->
  let st1 := with_db st (update h (fun x => set_value x newv) (st_db st)) in
  notif_inv st1 (sub_set t d cfg) /\ cfg_of (st_db st1) d = Some cfg.
Proof.
  intros (Hsort & Hl & Hi) La Ka Hn Hcfg Ho st1.
  pose proof (proj1 (store_static st h newv)) as S1. fold st1 in S1.
  assert (Hch : cccd_handle (st_db st) d = Some h).
  { destruct (sub_inv_struct _ _ Hi h a La Ka) as (d0 & Ho0 & Hch). congruence. }
  assert (C : forall d', cfg_of (st_db st1) d' = if d =? d' then Some cfg else cfg_of (st_db st) d').
  { intros d'. destruct (N.eqb_spec d d') as [<-|Hne].
    - unfold cfg_of. rewrite <- (cccd_handle_static _ _ d S1), Hch. cbn [st1 st_db with_db].
      rewrite lookup_update, N.eqb_refl, La by reflexivity. exact Hcfg.
    - apply (cfg_of_store _ _ _ _ Hsort). intros c _ _. congruence. }
  split; [|rewrite C, N.eqb_refl; reflexivity].
  split; [rewrite <- (static_sorted _ _ S1); exact Hsort|].
  split; [apply cccd_len_update; [reflexivity|intros; exact Hn|exact Hl]|].
  apply (sub_inv_store st t (sub_set t d cfg) h newv); [|exact Hi].
  intros d' H. rewrite C, sub_get_set. destruct (d =? d'); [reflexivity|exact H].
Qed.

Lemma cbs_inv st t d (n i : attr -> option N) subs' :
  notif_inv st t -> st_connected st = true -> cfg_of (st_db st) d = Some (sub_get t d) ->
  (forall d', d' <> d -> In d' (i_subscribed (st_cur st)) -> In d' subs') ->
  (forall c, cb_set (set_cbs c (n c) (i c)) = true -> In d subs') ->
  notif_inv (with_subs (with_db st (update d (fun c => set_cbs c (n c) (i c)) (st_db st))) subs') t.
Proof.
  intros (Hsort & Hl & Hi) Hc Hcf Hkeep Hnew.
  pose proof (proj1 (cbs_static st d n i)) as S2. cbn [st_db with_db] in S2.
  assert (C : forall d', cfg_of (update d (fun c => set_cbs c (n c) (i c)) (st_db st)) d' = cfg_of (st_db st) d').
  { intros d'. apply (cfg_of_ext _ _ _ Hsort S2). intros hc x Lx _ _.
    rewrite lookup_update, Lx by reflexivity. destruct (hc =? d); reflexivity. }
  split; [cbn [st_db with_db with_subs with_cur]; rewrite <- (static_sorted _ _ S2); exact Hsort|].
  split; [apply cccd_len_update; [reflexivity|intros c Lc K; apply (Hl d c Lc K)|exact Hl]|].
  apply sub_inv_intro; cbn [st_db with_db with_subs with_cur st_connected st_cur i_subscribed].
  - apply (cccd_struct_static _ _ S2), (sub_inv_struct _ _ Hi).
  - rewrite Hc. discriminate.
  - intros d' c' Lc' Hcb. rewrite C. rewrite lookup_update in Lc' by reflexivity.
    destruct (N.eqb_spec d' d) as [->|Hne].
    + split; [|exact Hcf]. destruct (lookup d (st_db st)) as [c|]; [|discriminate]. inversion Lc'; subst. apply (Hnew c Hcb).
    + destruct (si_sub _ _ Hi d' c' Lc' Hcb) as [H1 H2]. split; [apply Hkeep; auto|exact H2].
Qed.

Lemma un_le16_2_some b : nlen b = 2 -> exists c, un_le16_2 b = Some c.
Proof.
  unfold nlen. destruct b as [|x [|y [|z r]]]; cbn; intros H; try lia. eexists. reflexivity.
Qed.

Lemma lookup_zero db lo : sorted_from lo db = true -> lookup 0 db = None.
Proof.
  intros H. destruct (lookup 0 db) as [a|] eqn:L; [|reflexivity].
  apply lookup_in in L as [Hin Hh]. pose proof (sorted_above db lo H a Hin) as Hgt. rewrite Hh in Hgt.
  destruct (N.nlt_0_r _ Hgt).
Qed.

(** the table after the write, in the form [cccd_write] gives it *)
Lemma cccd_effects_inv st t hk h newv out a :
  notif_inv st t -> st_connected st = true ->
  lookup h (st_db st) = Some a -> a_kind a = KCccd -> nlen newv = 2 ->
  Forall (fun p => is_rsp p = true) out ->
  inv_res st (match match un_le16_2 newv, owner_decl h (st_db st) None with
                    | Some cfg, Some d => Some (d, cfg) | _, _ => None end return sub_table with
              | Some (d, cfg) => sub_set t d cfg | None => t end)
          (cccd_effects st hk h newv true out).
Proof.
  intros G Hc La Ka Hn Hout. unfold cccd_effects.
  destruct (un_le16_2_some newv Hn) as (cfg & Hcfg). rewrite Hcfg.
  destruct (si_owner _ _ (proj2 (proj2 G)) h a La Ka) as (d & Ho). rewrite Ho.
  destruct (cccd_store_inv st t h newv cfg d a G La Ka Hn Hcfg Ho) as [I1 C1].
  set (st1 := with_db st (update h (fun a0 => set_value a0 newv) (st_db st))) in *.
  pose proof (rsp_notif_ok st (sub_set t d cfg) out Hout) as Pout.
  assert (R : forall n i subs act o,
    (forall d', d' <> d -> In d' (i_subscribed (st_cur st)) -> In d' subs) ->
    (forall c, cb_set (set_cbs c (n c) (i c)) = true -> In d subs) ->
    inv_res st (sub_set t d cfg)
      (post_hook (with_subs (with_db st1 (update d (fun c => set_cbs c (n c) (i c)) (st_db st1))) subs) hk act o out)).
  { intros n i subs act o Hkeep Hnew. apply post_hook_inv; [reflexivity|apply (cbs_inv st1); auto|exact Pout].
    rewrite C1, sub_get_set, N.eqb_refl. reflexivity. }
  destruct (cfg =? 1); [apply R; [intros; apply in_add_sub_keep; assumption|intros; apply in_add_sub]|].
  destruct (cfg =? 2); [apply R; [intros; apply in_add_sub_keep; assumption|intros; apply in_add_sub]|].
  destruct (cfg =? 0); [apply (R (fun _ => None) (fun _ => None)); [intros; apply in_remove_sub_keep; assumption|discriminate]|].
  (* other configuration values: stored, no callback change *)
  split; [exact I1|exact Pout].
Qed.

Lemma cccd_write_gen st (is_cmd : bool) h val :
  cccd_write st (if is_cmd then WriteCmd h val else Write h val)
  = match lookup h (st_db st) with
    | Some a => match a_kind a with
                | KCccd => if (nlen val <=? 2) && (negb is_cmd || negb (bytes_eqb val (a_value a)))
                           then match un_le16_2 (val ++ skipn (length val) (a_value a)), owner_decl h (st_db st) None with
                                | Some cfg, Some d => Some (d, cfg) | _, _ => None end
                           else None
                | _ => None end
    | None => None end.
Proof. destruct is_cmd; reflexivity. Qed.

Lemma write_gen_inv st t hk (is_cmd : bool) h val :
  notif_inv st t -> st_connected st = true ->
  inv_res st (match cccd_write st (if is_cmd then WriteCmd h val else Write h val) return sub_table with
              | Some (d, cfg) => sub_set t d cfg | None => t end)
          (h_write_gen V_fixed st hk is_cmd h val).
Proof.
  intros G Hc. rewrite cccd_write_gen.
  unfold h_write_gen. cbn [fx_write_default fx_sub_record V_fixed].
  assert (T : forall out, Forall (fun p => is_rsp p = true) out -> inv_res st t (done st out))
    by (intros; apply inv_done; assumption).
  assert (Hrsp : Forall (fun p => is_rsp p = true) (if is_cmd then [] else [PWriteRsp])) by (destruct is_cmd; repeat constructor).
  destruct (h =? 0) eqn:E0.
  { apply N.eqb_eq in E0. subst h. rewrite (lookup_zero _ 0 (proj1 G)). apply T; repeat constructor. }
  destruct (lookup h (st_db st)) as [a|] eqn:El; [|apply T; repeat constructor].
  destruct (a_kind a) eqn:K.
  1-4, 7: destruct is_cmd; apply T; repeat constructor.
  - destruct (write_denied st h E_NOT_FOUND); [apply T; repeat constructor|].
    eapply write_value_inv; eauto.
  - destruct ((nlen val <=? 2) && (negb is_cmd || negb (bytes_eqb val (a_value a)))) eqn:Eb;
      [|apply T; repeat constructor].
    rewrite orb_true_r.
    (* the bytes written are completed by the tail of the old value, which has two bytes *)
    assert (Hn : nlen (val ++ skipn (length val) (a_value a)) = 2).
    { apply andb_true_iff in Eb as [Eb _]. apply N.leb_le in Eb. pose proof (proj1 (proj2 G) h a El K) as Wl.
      rewrite nlen_app. unfold nlen in *. rewrite skipn_length. lia. }
    apply (cccd_effects_inv st t hk h _ _ a G Hc El K Hn Hrsp).
Qed.

Definition quiet (st : state) (r : hres) : Prop :=
  st_db (r_state r) = st_db st /\ st_connected (r_state r) = st_connected st
  /\ i_subscribed (st_cur (r_state r)) = i_subscribed (st_cur st)
  /\ Forall (fun p => is_rsp p = true) (r_out r).

Ltac quiet_done := split; [|split; [|split]]; [reflexivity .. | repeat constructor].

Lemma quiet_inv st t r : notif_inv st t -> quiet st r -> inv_res st t r.
Proof. intros G (Ed & Ec & Es & O). split; [apply (notif_inv_same st _ t Ed Ec Es G)|apply rsp_notif_ok, O]. Qed.

Lemma exec_loop_inv t q : forall st, notif_inv st t ->
  match exec_loop V_fixed st q with
  | inl r => inv_res st t r
  | inr st' => notif_inv st' t
  end.
Proof.
  induction q as [|[h ws] q IH]; intros st G; cbn [exec_loop]; [exact G|].
  cbn [fx_exec_perm V_fixed].
  assert (Hstop : forall st' c, notif_inv st' t -> inv_res st t (err (with_queues st' []) OP_EXEC h c)).
  { intros st' c G'. split; [eapply notif_inv_same; [| | |exact G']; reflexivity|repeat constructor]. }
  destruct (lookup h (st_db st)) as [a|] eqn:El; [|apply Hstop, G].
  destruct (a_kind a) eqn:K.
  1-4, 6-7: apply IH, G.
  destruct (write_denied st h E_INVALID_HANDLE); [apply Hstop, G|].
  assert (G1 : notif_inv (with_db st (fst (apply_writes h ws (st_db st)))) t).
  { destruct (apply_writes_shape h ws (st_db st)) as [->|[x ->]]; [|apply (store_inv st t h x a G El K)].
    eapply notif_inv_same; [| | |exact G]; reflexivity. }
  destruct (apply_writes h ws (st_db st)) as [db' ok]. cbn [fst] in G1.
  destruct ok; [|apply Hstop, G1].
  specialize (IH (with_db st db') G1). destruct (exec_loop V_fixed (with_db st db') q); exact IH.
Qed.

Lemma execute_inv st t f : notif_inv st t -> inv_res st t (h_execute V_fixed st f).
Proof.
  intros G. unfold h_execute. cbn [fx_exec_clear fx_exec_flags V_fixed].
  destruct (f =? 0); [apply (quiet_inv _ _ _ G); quiet_done|].
  destruct (f =? 1); [|apply (quiet_inv _ _ _ G); quiet_done].
  pose proof (exec_loop_inv t (i_queues (st_cur st)) st G) as H.
  destruct (exec_loop V_fixed st (i_queues (st_cur st))) as [r|st']; [exact H|].
  split; [eapply notif_inv_same; [| | |exact H]; reflexivity|repeat constructor].
Qed.

Lemma locked_inv st t' body :
  tx_locked st = false -> inv_res (with_lock st true) t' (body (with_lock st true)) ->
  inv_res st t' (locked V_fixed st body).
Proof.
  intros Hl [I O]. rewrite (locked_fixed st body Hl). cbv zeta. split; [|exact O]. cbn [r_state].
  (* the state of the body, with the lock released unless it blocks for ever *)
  assert (I' : notif_inv (with_lock (r_state (body (with_lock st true))) false) t')
    by (eapply notif_inv_same; [| | |exact I]; reflexivity).
  destruct (r_exc (body (with_lock st true))) as [[]|]; assumption.
Qed.

Lemma handle_inv st t r hk :
  notif_inv st t -> st_connected st = true ->
  inv_res st (ref_step st t (EvReq r hk)) (handle V_fixed st r hk).
Proof.
  intros G Hc. cbn [ref_step]. rewrite Hc. cbn [andb].
  assert (U : forall o, inv_res st t (unparsed st o)).
  { intros o. apply (quiet_inv _ _ _ G). unfold unparsed. destruct (req_opcode o); quiet_done. }
  assert (D : inv_res st t (done st [])) by (split; [exact G|constructor]).
  destruct (tx_locked st) eqn:Hl; cbn [negb].
  { (* locked: only the ATT layer itself answers *)
    destruct r; cbn [handle fx_rbt128 V_fixed]; unfold locked; rewrite ?Hl; try exact D; try apply U.
    destruct hs; [apply U|exact D]. }
  assert (G' : notif_inv (with_lock st true) t) by (eapply notif_inv_same; [| | |exact G]; reflexivity).
  pose proof (fun x => quiet_inv (with_lock st true) t x G') as Q.
  destruct r; cbn [handle fx_rbt128 V_fixed]; try apply (locked_inv st _ _ Hl).
  - apply Q. unfold h_mtu. destruct (23 <=? mtu); quiet_done.
  - apply Q. unfold h_find_info. break; quiet_done.
  - apply Q. unfold h_fbtv. break; quiet_done.
  - apply Q. unfold h_read_by_type. break; quiet_done.
  - apply Q. unfold h_read_by_type. break; quiet_done.
  - apply (read_end_inv _ t hk _ G'), read_req_end.
  - apply (read_end_inv _ t hk _ G'), read_blob_end.
  - destruct hs; [apply U|]. apply (locked_inv st _ _ Hl), Q. quiet_done.
  - apply Q. unfold h_read_by_group. break; quiet_done.
  - apply (write_gen_inv (with_lock st true) t hk false h v G' Hc).
  - apply (write_gen_inv (with_lock st true) t hk true h v G' Hc).
  - exact D.
  - apply Q. unfold h_prepare. destruct (lookup h _) as [a0|]; [destruct (a_kind a0)|]; quiet_done.
  - apply execute_inv, G'.
  - apply Q. quiet_done.
  - exact D.
  - exact D.
  - apply U.
Qed.

(** [on_terminated] removes the callbacks of the recorded subscriptions, which by the invariant are
    all the callbacks there are *)
Lemma disconnect_inv st t : notif_inv st t -> notif_inv (disconnect V_fixed st) [].
Proof.
  intros (Hs & Hl & Hi). unfold disconnect. destruct (st_connected st) eqn:Hc.
  2:{ split; [exact Hs|split; [exact Hl|]]. apply sub_inv_no_cb; [apply (sub_inv_struct _ _ Hi)|apply (si_disc _ _ Hi Hc)]. }
  cbn [fx_disc_term V_fixed].
  set (g := fun a => if existsb (N.eqb (a_handle a)) (i_subscribed (st_cur st)) then set_cbs a None None else a).
  assert (Hg : forall a, static_eq a (g a) /\ a_value (g a) = a_value a).
  { intros a. unfold g. destruct (existsb _ _); split; try reflexivity; [apply set_cbs_static|apply static_eq_refl]. }
  assert (Lg : forall d, lookup d (map g (st_db st)) = option_map g (lookup d (st_db st))).
  { intros d. apply lookup_map. intros a. symmetry. apply (Hg a). }
  pose proof (map_static g (st_db st) (fun a => proj1 (Hg a))) as Sg.
  unfold notif_inv. cbn [st_db terminated with_db with_subs with_cur]. fold g.
  split; [rewrite <- (static_sorted _ _ Sg); exact Hs|]. split.
  - intros d c' L K. rewrite Lg in L. destruct (lookup d (st_db st)) as [c|] eqn:Lc; [|discriminate]. inversion L; subst c'.
    rewrite (proj2 (Hg c)). apply (Hl d c Lc). rewrite <- K. apply (Hg c).
  - apply sub_inv_no_cb; cbn [st_db terminated with_db with_subs with_cur]; fold g.
    + apply (cccd_struct_static _ _ Sg), (sub_inv_struct _ _ Hi).
    + intros d c' L. rewrite Lg in L.
      destruct (lookup d (st_db st)) as [c|] eqn:Lc; [|discriminate]. inversion L; subst c'.
      unfold g. destruct (existsb (N.eqb (a_handle c)) (i_subscribed (st_cur st))) eqn:Ex; [reflexivity|].
      destruct (cb_set c) eqn:Hcb; [|reflexivity].
      destruct (si_sub _ _ Hi d c Lc Hcb) as [Hin _]. apply lookup_in in Lc as [_ Hh].
      rewrite <- Ex. symmetry. apply existsb_exists. exists d. split; [exact Hin|apply N.eqb_eq, Hh].
Qed.

Lemma connect_inv st t : notif_inv st t -> notif_inv (connect st) t.
Proof.
  intros G. unfold connect. destruct (st_connected st) eqn:Hc; [exact G|]. destruct G as (Hs & Hl & Hi).
  split; [exact Hs|split; [exact Hl|]]. apply sub_inv_no_cb; [apply (sub_inv_struct _ _ Hi)|apply (si_disc _ _ Hi Hc)].
Qed.

Lemma step_inv st t ev : notif_inv st t -> inv_res st (ref_step st t ev) (step V_fixed st ev).
Proof.
  intros G. destruct ev; cbn [step].
  - destruct (st_connected st) eqn:Hc; [apply (handle_inv st t r hk G Hc)|].
    cbn [ref_step]. rewrite Hc. apply inv_done; [exact G|constructor].
  - split; [|constructor]. cbn [r_state done ref_step]. destruct (st_connected st) eqn:Hc; [|exact G].
    eapply notif_inv_same; [| | |exact G]; try reflexivity. cbn. congruence.
  - split; [apply (app_db_inv st t decl v _ (app_set_state st decl v hk) G)|apply app_set_notif_ok; apply G].
  - split; [apply (disconnect_inv st t G)|constructor].
  - split; [apply connect_inv, G|constructor].
Qed.

(** every notification / indication of every history is for a characteristic the client has
    subscribed to during the current connection and not unsubscribed since, whatever the inputs *)
Theorem history_notif_ok evs : forall st t, notif_inv st t -> history_ok st t evs.
Proof.
  induction evs as [|ev r IH]; intros st t G; cbn [history_ok]; [exact I|].
  destruct (step_inv st t ev G) as [G' O]. split; [exact O|apply IH, G'].
Qed.

Lemma wf_notif_inv st t : wf_state st = true -> sub_inv st t -> notif_inv st t.
Proof.
  intros Hwf Hi. split; [apply wf_state_sorted, Hwf|split; [|exact Hi]].
  intros h a L K. apply (wf_attr_value a (lookup_wf _ _ _ (wf_state_attrs _ Hwf) L)), K.
Qed.

Lemma notify_only_subscribed evs : forall st t,
  wf_state st = true -> sub_inv st t -> history_inputs_ok st evs -> history_ok st t evs.
Proof. intros st t Hwf Hi _. apply history_notif_ok, wf_notif_inv; assumption. Qed.

Lemma sub_inv_init st : cccd_ok (st_db st) = true -> no_callbacks (st_db st) = true -> sub_inv st [].
Proof.
  intros Hc Hn. apply sub_inv_no_cb.
  - intros h a L K. apply lookup_in in L as [Hin Hh]. unfold cccd_ok in Hc. rewrite forallb_forall in Hc.
    specialize (Hc a Hin). rewrite K in Hc. cbn [kind_eqb negb orb] in Hc. rewrite Hh in Hc.
    destruct (owner_decl h (st_db st) None) as [d|]; [|discriminate]. exists d. split; [reflexivity|].
    destruct (cccd_handle (st_db st) d) as [hc|]; [|discriminate]. apply N.eqb_eq in Hc. congruence.
  - intros d c L. apply lookup_in in L as [Hin _]. unfold no_callbacks in Hn. rewrite forallb_forall in Hn.
    specialize (Hn c Hin). unfold cb_set. destruct (a_ncb c), (a_icb c); try discriminate; reflexivity.
Qed.

(** * Witnesses *)

Lemma demo_states_ok :
  wf_state demo_state = true /\ wf_state demo_state2 = true
  /\ view demo_S demo_state = view demo_S demo_state2.
Proof. vm_compute. auto. Qed.

Lemma demo_secret_ok : secret_ok demo_state demo_S.
Proof.
  intros h Hh. unfold demo_S in Hh. apply N.eqb_eq in Hh. subst h. split; [reflexivity|].
  intros a Ha. vm_compute in Ha. inversion Ha. reflexivity.
Qed.

(** a session probing the secret characteristic (handle 10, write-only) in every way a client can *)
Definition probe_session : session :=
  [ (Read 10, no_hooks); (ReadBlob 10 0, no_hooks); (ReadBlob 10 3, no_hooks); (ReadBlob 10 4, no_hooks);
    (ReadBlob 9 3, no_hooks); (FindByTypeValue 1 65535 10753 [115;101;99], no_hooks);
    (FindByTypeValue 1 65535 10243 [115;101;99], no_hooks); (ReadByType 1 65535 10753, no_hooks);
    (ReadMultiple [10; 4], no_hooks); (PrepareWrite 6 0 [9], no_hooks); (ExecuteWrite 1, no_hooks);
    (Read 6, no_hooks); (Read 4, no_hooks) ].

Lemma probe_session_fixed :
  responses demo_state probe_session =
  [ [PError 10 10 2]; [PError 12 10 2]; [PError 12 10 2]; [PError 12 10 2]; [PReadBlobRsp [1; 42]];
    [PError 6 1 10]; [PError 6 1 10]; [PError 8 1 10]; [PError 14 10 1]; [PPrepareWriteRsp 6 0 [9]];
    [PError 24 6 3]; [PReadRsp [100]]; [PReadRsp [104; 105]] ].
Proof. vm_compute. reflexivity. Qed.

(** the original code: a session (without the request that wedges it) tells the two states apart
    -- blob offset == length, find by type value on the declaration type -- and lets the client
    modify a read-only characteristic *)
Definition leak_session : session :=
  [ (ReadBlob 10 3, no_hooks); (ReadBlob 10 4, no_hooks);
    (FindByTypeValue 1 65535 10243 [115;101;99], no_hooks);
    (PrepareWrite 6 0 [9], no_hooks); (ExecuteWrite 1, no_hooks); (Read 6, no_hooks) ].

(** original code: subscription by Write Request, disconnection, then the application changes the
    value: a notification is still emitted *)
Definition sub_disc_history : list event :=
  [ EvReq (Write 7 [1; 0]) no_hooks; EvAppSet 5 [65] no_hooks; EvDisc; EvAppSet 5 [66] no_hooks ].
