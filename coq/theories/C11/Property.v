(** C11 — the theorems of the property, each a lemma of Proofs.v or a few lines from one. *)
From Coq Require Import List NArith Arith.
From Whad Require Import Lib.Bytes C11.Model C11.Proofs.
Import ListNotations.

(** For any SDU (< 65536 bytes), any MTU >= 2 (hence every MTU >= 23), any channel and
    ANY state the receiver is in, the fragments one stack produces reassemble on the
    peer into exactly one PDU, identical, on the same channel. *)
Theorem C11_reassembly_inverse :
  forall (mtu : nat) (cid : N) (sdu : bytes) (st0 : rx),
    2 <= mtu -> (nlen sdu < 65536)%N -> (cid < 65536)%N ->
    recv_all st0 (send_sdu mtu cid sdu)
    = (deliverable cid sdu, {| fifo := None; expected := length sdu + 4 |}).
Proof. exact reassembly_inverse. Qed.

(** No link-layer payload exceeds MTU + 4 bytes. *)
Theorem C11_payload_bound :
  forall (mtu : nat) (cid : N) (sdu : bytes),
    2 <= mtu -> Forall (fun f : frag => length (snd f) <= mtu + 4) (send_sdu mtu cid sdu).
Proof. exact payload_bound. Qed.

(** Consecutive SDUs never bleed into each other. *)
Theorem C11_no_bleed :
  forall (mtu : nat) (sdus : list (N * bytes)) (st0 : rx),
    2 <= mtu -> Forall wf_sdu sdus -> sdus <> [] ->
    exists e, recv_all st0 (concat (map (fun x => send_sdu mtu (fst x) (snd x)) sdus))
    = (concat (map (fun x => deliverable (fst x) (snd x)) sdus), {| fifo := None; expected := e |}).
Proof. exact no_bleed. Qed.

(** Whatever fragments came before (stray continuations, truncated, oversized, duplicated
    or injected ones), the next well-formed SDUs are delivered intact. The model has no
    raising path: [recv] is total and the Python handler indexes nothing out of range
    (tied by the correspondence on the malformed stream). *)
Theorem C11_robust_after_garbage :
  forall (mtu : nat) (g : list frag) (sdus : list (N * bytes)) (st0 : rx),
    2 <= mtu -> Forall wf_sdu sdus -> sdus <> [] ->
    exists e, recv_all st0 (g ++ concat (map (fun x => send_sdu mtu (fst x) (snd x)) sdus))
    = (fst (recv_all st0 g) ++ concat (map (fun x => deliverable (fst x) (snd x)) sdus),
       {| fifo := None; expected := e |}).
Proof.
  intros mtu g sdus st0 Hm Hwf Hne. rewrite recv_all_app.
  destruct (recv_all st0 g) as [og stg]. cbn [fst].
  destruct (no_bleed mtu sdus stg Hm Hwf Hne) as [e He]. rewrite He. eexists. reflexivity.
Qed.

(** Exactly the first fragment is a start; LLID mapping is faithful. *)
Theorem C11_flags :
  forall mtu cid sdu, 2 <= mtu ->
    exists d ds, send_sdu mtu cid sdu = (false, d) :: map (fun q => (true, q)) ds.
Proof. exact flags. Qed.

Theorem C11_llid_roundtrip : forall f, fragment_of_llid (llid_of_fragment f) = f.
Proof. exact llid_roundtrip. Qed.

(** The same through the link layers of both stacks: data PDUs (LLID, payload) as
    produced by [on_l2cap_send_data] and consumed by [on_data_pdu]; the first PDU has
    LLID 2 (start), the others LLID 1 (continuation). *)
Theorem C11_ll_reassembly_inverse :
  forall (mtu : nat) (cid : N) (sdu : bytes) (st0 : rx),
    2 <= mtu -> (nlen sdu < 65536)%N -> (cid < 65536)%N ->
    recv_all_ll st0 (send_sdu_ll mtu cid sdu)
    = (deliverable cid sdu, {| fifo := None; expected := length sdu + 4 |}).
Proof.
  intros. unfold send_sdu_ll. rewrite recv_all_ll_to_ll. apply reassembly_inverse; assumption.
Qed.

Theorem C11_ll_start_llid :
  forall mtu cid sdu, 2 <= mtu ->
    exists d ds, send_sdu_ll mtu cid sdu = (2%N, d) :: map (fun q => (1%N, q)) ds.
Proof.
  intros mtu cid sdu Hm. destruct (flags mtu cid sdu Hm) as (d & ds & Hs).
  exists d, ds. unfold send_sdu_ll. rewrite Hs. cbn [map]. rewrite map_map. reflexivity.
Qed.

(** MTU bookkeeping: whatever sequence of set_local_mtu / set_remote_mtu calls came before,
    fragmentation follows the peer's (remote) MTU as last announced: the payload bound and
    the inverse hold with respect to it, and a later local update does not change it. *)
Theorem C11_mtu_history_payload_bound :
  forall (ops : list mtu_op) (cid : N) (sdu : bytes),
    2 <= remote_mtu (mtu_run ops) ->
    Forall (fun f : frag => length (snd f) <= remote_mtu (mtu_run ops) + 4) (send_after ops cid sdu).
Proof. intros ops cid sdu. exact (payload_bound _ cid sdu). Qed.

Theorem C11_mtu_history_reassembly :
  forall (ops : list mtu_op) (cid : N) (sdu : bytes) (st0 : rx),
    2 <= remote_mtu (mtu_run ops) -> (nlen sdu < 65536)%N -> (cid < 65536)%N ->
    recv_all st0 (send_after ops cid sdu)
    = (deliverable cid sdu, {| fifo := None; expected := length sdu + 4 |}).
Proof. intros ops cid sdu st0. exact (reassembly_inverse _ cid sdu st0). Qed.

Theorem C11_mtu_last_remote_wins :
  forall ops m, remote_mtu (mtu_run (ops ++ [SetRemote m])) = m
             /\ m <= local_mtu (mtu_run (ops ++ [SetRemote m])).
Proof.
  intros ops m. rewrite mtu_run_app. cbn [mtu_step remote_mtu local_mtu]. split; [reflexivity|].
  destruct (Nat.ltb_spec (local_mtu (mtu_run ops)) m) as [_|H]; [apply le_n|exact H].
Qed.

Theorem C11_mtu_set_local_keeps_remote :
  forall ops m, remote_mtu (mtu_run (ops ++ [SetLocal m])) = remote_mtu (mtu_run ops).
Proof. intros ops m. rewrite mtu_run_app. reflexivity. Qed.

(** Truncated frames deliver nothing; oversized ones are cut to the announced length. *)
Theorem C11_truncated_dropped :
  forall st d, 2 <= length d -> length d < N.to_nat (un_le16 d) + 4 ->
    fst (recv st (false, d)) = [].
Proof.
  intros st d H2 Hlt. rewrite recv_start by (left; reflexivity).
  rewrite (proj2 (Nat.leb_le _ _) H2). cbv zeta. rewrite (proj2 (Nat.leb_gt _ _) Hlt). reflexivity.
Qed.

Theorem C11_oversized_cut :
  forall st d, 2 <= length d -> N.to_nat (un_le16 d) + 4 <= length d ->
    recv st (false, d) = (route (firstn (N.to_nat (un_le16 d) + 4) d),
                          {| fifo := None; expected := N.to_nat (un_le16 d) + 4 |}).
Proof.
  intros st d H2 Hle. rewrite recv_start by (left; reflexivity).
  rewrite (proj2 (Nat.leb_le _ _) H2). cbv zeta. rewrite (proj2 (Nat.leb_le _ _) Hle). reflexivity.
Qed.

(** FULL STATEMENT of the stray-continuation clause (refuted by the faithful model,
    KNOWN-FINDING stray-continuation-taken-as-start). *)
Definition C11_stray_continuation_dropped_statement : Prop :=
  forall st d, fifo st = None -> fst (recv st (true, d)) = [].

Theorem C11_stray_continuation_dropped_refuted :
  exists d, fst (recv rx_init (true, d)) <> [].
Proof. exists [1;0;4;0;127]%N. vm_compute. discriminate. Qed.

(** The part that holds: a stray continuation is delivered only when it is by itself a
    complete frame; and (C11_robust_after_garbage) it never corrupts what follows. *)
Theorem C11_stray_continuation_partial :
  forall st d, fifo st = None -> fst (recv st (true, d)) <> [] ->
    2 <= length d /\ N.to_nat (un_le16 d) + 4 <= length d.
Proof.
  intros st d Hf. rewrite recv_start by (right; exact Hf).
  destruct (Nat.leb_spec 2 (length d)); [cbv zeta|intros []; reflexivity].
  destruct (Nat.leb_spec (N.to_nat (un_le16 d) + 4) (length d)); [split; assumption|intros []; reflexivity].
Qed.

(** Non-vacuity: the hypotheses are met by a concrete 60-byte SDU at MTU 23, which is
    split into three fragments. *)
Example C11_nonvacuous :
  let sdu := repeat 7%N 60 in
  2 <= 23 /\ (nlen sdu < 65536)%N /\ length (send_sdu 23 4 sdu) = 3
  /\ fst (recv_all rx_init (send_sdu 23 4 sdu)) = [(4%N, sdu)].
Proof. cbv zeta. split; [repeat constructor|]. split; [reflexivity|]. split; vm_compute; reflexivity. Qed.
