(** C11 — lemmas about the L2CAP model.

    Sender: [get_fragments] cuts the data into a first piece and non-empty further pieces
    ([get_fragments_shape]).  Receiver: a start fragment and continuations that together
    have the announced length give back the frame, whatever the state was ([recv_frame]).
    [reassembly_inverse] puts the two together. *)
From Coq Require Import List NArith ZArith Arith Bool Lia ZifyBool ZifyN ZifyNat.
From Whad Require Import Lib.Lists Lib.Bytes C11.Model.
Import ListNotations.

Definition piece (k : nat) (data : bytes) (i : nat) : bytes := firstn k (skipn (i * k) data).

Lemma slice_piece k data i : slice (i * k) (S i * k) data = piece k data i.
Proof. unfold slice, piece. replace (S i * k - i * k) with k by (cbn [Nat.mul]; lia). reflexivity. Qed.

Lemma concat_pieces k data n a :
  concat (map (piece k data) (seq a n)) = firstn (n * k) (skipn (a * k) data).
Proof.
  revert a; induction n as [|n IH]; intros a; cbn [seq map concat Nat.mul]; [reflexivity|].
  rewrite IH. rewrite firstn_add. unfold piece. f_equal. f_equal.
  replace (S a * k) with (a * k + k) by (cbn [Nat.mul]; lia). apply skipn_add.
Qed.

Lemma piece_length k data i : length (piece k data i) = Nat.min k (length data - i * k).
Proof. unfold piece. rewrite firstn_length, skipn_length. reflexivity. Qed.

Lemma nb_packets_spec mtu len :
  2 <= mtu -> 0 < len ->
  (nb_packets mtu len - 1) * (mtu - 1) < len <= nb_packets mtu len * (mtu - 1).
Proof.
  intros Hm Hl. unfold nb_packets. cbv zeta.
  remember (mtu - 1) as k eqn:Hk.
  pose proof (Nat.div_mod len k ltac:(lia)) as Hdm.
  pose proof (Nat.mod_upper_bound len k ltac:(lia)) as Hmod.
  remember (len / k) as q eqn:Hq. remember (len mod k) as r eqn:Hr.
  destruct (Nat.ltb_spec (q * k) len); [nia|].
  assert (r = 0) by nia. destruct q; [lia|nia].
Qed.

Lemma get_fragments_shape mtu data :
  2 <= mtu ->
  exists p0 ps, get_fragments mtu data = p0 :: ps
                /\ p0 ++ concat ps = data
                /\ Forall (fun q => q <> []) ps
                /\ length p0 <= mtu
                /\ Forall (fun q => length q <= mtu - 1) ps.
Proof.
  intros Hm. unfold get_fragments.
  destruct (Nat.ltb_spec mtu (length data)) as [E|E].
  2: { exists data, []. cbn [concat]. rewrite app_nil_r. repeat split; auto. }
  destruct (nb_packets_spec mtu (length data) Hm) as [Hlo Hhi]; [lia|].
  remember (nb_packets mtu (length data)) as nb eqn:Hnb. clear Hnb.
  remember (mtu - 1) as k eqn:Hk.
  destruct nb as [|nb]; [lia|]. replace (S nb - 1) with nb in Hlo by lia.
  rewrite (map_ext _ (piece k data)) by (intro i; apply slice_piece).
  exists (piece k data 0), (map (piece k data) (seq 1 nb)).
  split; [reflexivity|]. split; [|split; [|split]].
  - change (concat (map (piece k data) (seq 0 (S nb))) = data).
    rewrite concat_pieces. apply firstn_all2. exact Hhi.
  - apply Forall_map, Forall_forall. intros i Hi%in_seq Hnil.
    apply (f_equal (@length _)) in Hnil. rewrite piece_length in Hnil. cbn [length] in Hnil. nia.
  - rewrite piece_length. lia.
  - apply Forall_map, Forall_forall. intros i _. rewrite piece_length. lia.
Qed.

Lemma payload_bound mtu cid sdu :
  2 <= mtu -> Forall (fun f : frag => length (snd f) <= mtu + 4) (send_sdu mtu cid sdu).
Proof.
  intros Hm. unfold send_sdu.
  destruct (get_fragments_shape mtu sdu Hm) as (p0 & ps & -> & _ & _ & Hp0 & Hps).
  constructor.
  - cbn [snd]. rewrite app_length. cbn [l2cap_hdr le16 app length]. lia.
  - apply Forall_map. revert Hps. apply Forall_impl. cbn [snd]. lia.
Qed.

Lemma flags mtu cid sdu :
  2 <= mtu -> exists d ds, send_sdu mtu cid sdu = (false, d) :: map (fun q => (true, q)) ds.
Proof.
  intros Hm. unfold send_sdu.
  destruct (get_fragments_shape mtu sdu Hm) as (p0 & ps & -> & _). eauto.
Qed.

Lemma llid_roundtrip f : fragment_of_llid (llid_of_fragment f) = f.
Proof. destruct f; reflexivity. Qed.

Lemma of_to_ll f : of_ll (to_ll f) = f.
Proof. destruct f as [b d]. unfold of_ll, to_ll. cbn [fst snd]. rewrite llid_roundtrip. reflexivity. Qed.

Lemma recv_all_ll_to_ll st fs : recv_all_ll st (map to_ll fs) = recv_all st fs.
Proof.
  unfold recv_all_ll. rewrite map_map, (map_ext _ (fun f => f)) by apply of_to_ll.
  rewrite map_id. reflexivity.
Qed.

(** [recv] on a start fragment, or on any fragment while no reassembly is pending (the code
    does not look at the flag then: a stray continuation is taken as a start). *)
Lemma recv_start st f d :
  f = false \/ fifo st = None ->
  recv st (f, d)
  = if 2 <=? length d then
      let exp := N.to_nat (un_le16 d) + 4 in
      if exp <=? length d
      then (route (firstn exp d), {| fifo := None; expected := exp |})
      else ([], {| fifo := Some d; expected := exp |})
    else ([], st).
Proof. intros [->|H]; [|destruct f; [cbn [recv]; rewrite H|]]; reflexivity. Qed.

Lemma short_ignored st f d : fifo st = None -> length d < 2 -> recv st (f, d) = ([], st).
Proof.
  intros Hf Hl. rewrite recv_start by (right; exact Hf).
  destruct (Nat.leb_spec 2 (length d)); [lia|reflexivity].
Qed.

Lemma stray_continuation_is_start st d :
  fifo st = None -> recv st (true, d) = recv st (false, d).
Proof. intros Hf. rewrite !recv_start by auto. reflexivity. Qed.

Lemma concat_nonempty (ps : list bytes) :
  ps <> [] -> Forall (fun q => q <> []) ps -> 0 < length (concat ps).
Proof.
  destruct ps as [|q ps]; [congruence|]. intros _ H. inversion H as [|? ? Hq _]; subst.
  cbn [concat]. rewrite app_length. destruct q; [congruence|cbn; lia].
Qed.

Lemma recv_continuations ps : forall buf exp,
  ps <> [] -> Forall (fun q => q <> []) ps ->
  length buf + length (concat ps) = exp ->
  recv_all {| fifo := Some buf; expected := exp |} (map (fun q => (true, q)) ps)
  = (route (buf ++ concat ps), {| fifo := None; expected := exp |}).
Proof.
  induction ps as [|q ps IH]; intros buf exp Hps Hall Hlen; [congruence|].
  apply Forall_inv_tail in Hall as Hall'.
  cbn [map recv_all recv fifo expected concat] in *.
  rewrite app_length in Hlen. rewrite app_assoc.
  destruct ps as [|q' ps'].
  - (* the last piece completes the frame *)
    cbn [concat length map recv_all] in *.
    rewrite (proj2 (Nat.leb_le _ _)), firstn_all2, !app_nil_r by (rewrite app_length; lia).
    reflexivity.
  - pose proof (concat_nonempty (q' :: ps') ltac:(discriminate) Hall').
    rewrite (proj2 (Nat.leb_gt _ _)) by (rewrite app_length; lia).
    rewrite (IH (buf ++ q) exp) by (try rewrite app_length; (discriminate || assumption || lia)).
    reflexivity.
Qed.

Lemma recv_frame st d0 ps :
  2 <= length d0 -> Forall (fun q => q <> []) ps ->
  length d0 + length (concat ps) = N.to_nat (un_le16 d0) + 4 ->
  recv_all st ((false, d0) :: map (fun q => (true, q)) ps)
  = (route (d0 ++ concat ps), {| fifo := None; expected := N.to_nat (un_le16 d0) + 4 |}).
Proof.
  intros H2 Hne Hlen. cbn [recv_all]. rewrite recv_start by (left; reflexivity).
  rewrite (proj2 (Nat.leb_le _ _) H2). cbv zeta.
  destruct ps as [|q ps].
  - cbn [concat length map recv_all] in *.
    rewrite (proj2 (Nat.leb_le _ _)), firstn_all2, !app_nil_r by lia. reflexivity.
  - pose proof (concat_nonempty (q :: ps) ltac:(discriminate) Hne).
    rewrite (proj2 (Nat.leb_gt _ _)) by lia.
    rewrite recv_continuations by (discriminate || assumption). reflexivity.
Qed.

Lemma route_frame cid sdu len :
  (cid < 65536)%N -> route (l2cap_hdr len cid ++ sdu) = deliverable cid sdu.
Proof.
  intros Hc. unfold route, l2cap_hdr, deliverable.
  change (skipn 4 ((le16 len ++ le16 cid) ++ sdu)) with sdu.
  change (skipn 2 ((le16 len ++ le16 cid) ++ sdu)) with (le16 cid ++ sdu).
  rewrite un_le16_le16 by assumption. reflexivity.
Qed.

Lemma un_le16_hdr len cid rest : (len < 65536)%N -> un_le16 (l2cap_hdr len cid ++ rest) = len.
Proof. intros H. unfold l2cap_hdr. rewrite <- app_assoc. apply un_le16_le16. assumption. Qed.

Lemma reassembly_inverse mtu cid sdu st0 :
  2 <= mtu -> (nlen sdu < 65536)%N -> (cid < 65536)%N ->
  recv_all st0 (send_sdu mtu cid sdu)
  = (deliverable cid sdu, {| fifo := None; expected := length sdu + 4 |}).
Proof.
  intros Hm Hlen Hcid. unfold send_sdu.
  destruct (get_fragments_shape mtu sdu Hm) as (p0 & ps & -> & Hcat & Hne & _).
  apply (f_equal (@length _)) in Hcat as Hl. rewrite app_length in Hl.
  rewrite recv_frame.
  - rewrite un_le16_hdr, <- app_assoc, Hcat, route_frame by assumption.
    unfold nlen. rewrite Nat2N.id. reflexivity.
  - rewrite app_length. cbn [l2cap_hdr le16 app length]. lia.
  - exact Hne.
  - rewrite un_le16_hdr, app_length by assumption. unfold nlen. cbn [l2cap_hdr le16 app length]. lia.
Qed.

Lemma recv_all_app st a b :
  recv_all st (a ++ b) =
  let '(o1, st1) := recv_all st a in let '(o2, st2) := recv_all st1 b in (o1 ++ o2, st2).
Proof.
  revert st; induction a as [|f a IH]; intros st; cbn [app recv_all].
  - destruct (recv_all st b). reflexivity.
  - destruct (recv st f) as [o1 st1]. rewrite IH.
    destruct (recv_all st1 a) as [o2 st2]. destruct (recv_all st2 b) as [o3 st3].
    rewrite app_assoc. reflexivity.
Qed.

Definition wf_sdu (x : N * bytes) : Prop := (fst x < 65536)%N /\ (nlen (snd x) < 65536)%N.

Lemma no_bleed mtu sdus : forall st0,
  2 <= mtu -> Forall wf_sdu sdus -> sdus <> [] ->
  exists e, recv_all st0 (concat (map (fun x => send_sdu mtu (fst x) (snd x)) sdus))
  = (concat (map (fun x => deliverable (fst x) (snd x)) sdus), {| fifo := None; expected := e |}).
Proof.
  induction sdus as [|[cid sdu] sdus IH]; intros st0 Hm Hwf Hne; [congruence|].
  inversion Hwf as [|? ? [Hc Hl] Hwf']; subst. cbn [fst snd] in *.
  cbn [map concat fst snd]. rewrite recv_all_app.
  rewrite (reassembly_inverse mtu cid sdu st0) by assumption.
  destruct sdus as [|x sdus'].
  - cbn [map concat recv_all]. rewrite !app_nil_r. eexists. reflexivity.
  - destruct (IH {| fifo := None; expected := length sdu + 4 |} Hm Hwf' ltac:(congruence)) as [e He].
    rewrite He. eexists. reflexivity.
Qed.

Lemma mtu_run_app ops o : mtu_run (ops ++ [o]) = mtu_step (mtu_run ops) o.
Proof. unfold mtu_run. rewrite fold_left_app. reflexivity. Qed.
