(** C14 stage B — lemmas about the two-party model (Model.v).  The control of well-formed parameters
    lies in the finite list [all_ctls] ([control_of_in]); [chk_ctl] evaluates [chk_result] on all of it;
    [run_facts] is [chk_result] read as propositions, and the theorems are the [f_*] lemmas of Section
    [Facts] applied to [step_facts] (one procedure from any [startable] states). *)
From Coq Require Import List NArith Bool Lia.
From Whad Require Import C14.Base C14.Spec C14.GenTable C14.Sel C14.SelProofs C14.Model.
Import ListNotations.
Local Open Scope N_scope.

Lemma fdr_spec n : forall k a b,
  fdr n k a b = 21 \/ (k <= fdr n k a b < k + N.of_nat n /\ a <> b).
Proof.
  induction n as [|n IH]; intros k a b; cbn [fdr]; [left; reflexivity|].
  destruct (Bool.eqb (N.testbit a (k - 1)) (N.testbit b (k - 1))) eqn:E.
  - destruct (IH (k + 1) a b) as [H | [H1 H2]]; [left; exact H | right; split; [lia | exact H2]].
  - right. split; [lia|]. intros ->. rewrite Bool.eqb_reflx in E. discriminate.
Qed.

Lemma fdr_same n : forall k a, fdr n k a a = 21.
Proof. induction n as [|n IH]; intros k a; cbn [fdr]; [reflexivity|]. rewrite Bool.eqb_reflx. apply IH. Qed.

(* [methods] and [rounds] are [map N.of_nat (seq _ _)] up to conversion *)
Lemma in_N_range lo len x : N.of_nat lo <= x < N.of_nat (lo + len) -> In x (map N.of_nat (seq lo len)).
Proof. intros H. rewrite <- (N2Nat.id x). apply in_map, in_seq. lia. Qed.

Lemma first_diff_round_cases a b :
  (first_diff_round a b = 21) \/ (In (first_diff_round a b) rounds /\ N.eqb a b = false).
Proof.
  unfold first_diff_round. destruct (fdr_spec 20 1 a b) as [H | [H1 H2]]; [left; exact H | right].
  split; [apply (in_N_range 1 20); lia | apply N.eqb_neq; exact H2].
Qed.

Lemma sel_method_spec pi pr si sr :
  sel_of_peer (peer_of_params pi) = Some si -> sel_of_peer (peer_of_params pr) = Some sr ->
  spec_kres si sr = KMethod (sel_method pi pr).
Proof.
  intros Ei Er. unfold sel_method.
  rewrite <- (sel_of_peer_inv _ si Ei), <- (sel_of_peer_inv _ sr Er), method_is_spec.
  destruct (spec_kres_is_method si sr) as [m [-> _]]. reflexivity.
Qed.

Lemma run_method_is_spec pi pr :
  wf_params pi -> wf_params pr ->
  exists si sr, sel_of_peer (peer_of_params pi) = Some si /\ sel_of_peer (peer_of_params pr) = Some sr
                /\ spec_kres si sr = KMethod (sel_method pi pr).
Proof.
  intros Hi Hr. destruct (sel_of_peer_some (peer_of_params pi) Hi) as [si Ei].
  destruct (sel_of_peer_some (peer_of_params pr) Hr) as [sr Er].
  exists si, sr. split; [exact Ei|]. split; [exact Er|]. apply sel_method_spec; assumption.
Qed.

Lemma sel_method_lt pi pr : wf_params pi -> wf_params pr -> sel_method pi pr < 7.
Proof.
  intros Hi Hr. destruct (run_method_is_spec pi pr Hi Hr) as [si [sr [_ [_ H]]]].
  destruct (spec_kres_is_method si sr) as [m [Hm Hlt]]. congruence.
Qed.

Lemma in_methods m : m < 7 -> In m methods.
Proof. intros H. apply (in_N_range 0 7). lia. Qed.

Lemma in_all_ctls m s ei ii si er ir sr bi br :
  In m methods -> In s (scripts_for m) -> In (mk_ctl m s ei ii si er ir sr bi br) all_ctls.
Proof.
  intros Hm Hs. unfold all_ctls.
  apply in_flat_map_intro with m; [exact Hm|]. apply in_flat_map_intro with s; [exact Hs|].
  do 7 (eapply in_flat_map_intro; [apply in_bools|]). apply in_map, in_bools.
Qed.

Lemma control_of_in pi pr sc : wf_params pi -> wf_params pr -> In (control0 pi pr sc) all_ctls.
Proof.
  intros Hi Hr. pose proof (in_methods _ (sel_method_lt pi pr Hi Hr)) as Hm.
  unfold control0. cbv zeta. revert Hm. generalize (sel_method pi pr). intros m Hm.
  apply (in_all_ctls m (_, _, _, _, _)); [exact Hm|].
  simpl in Hm. repeat (destruct Hm as [<- | Hm]); [.. | destruct Hm]; cbn [N.eqb Pos.eqb scripts_for].
  1, 3, 4, 7: simpl; tauto.                                  (* methods 0, 2, 3, 6: a single script *)
  - destruct (N.eqb _ _); simpl; tauto.                      (* 1: the effective pins are equal or not *)
  - destruct (u_nc_i sc), (u_nc_r sc); simpl; tauto.         (* 4: the two answers *)
  - apply in_or_app.                                         (* 5: a first differing round, or none *)
    destruct (first_diff_round_cases (u_typed_i sc) (u_typed_r sc)) as [H | [H1 H2]].
    + right. rewrite H. destruct (N.eqb _ _); simpl; tauto.
    + left. rewrite H2. apply in_map_iff. exists (first_diff_round (u_typed_i sc) (u_typed_r sc)). split; [reflexivity | exact H1].
Qed.

Definition must_fail (c : ctl) : bool := is_oob_method (c_method c) || negb (honest c).

(** [chk_result] on every control of the domain, by evaluation.  The connection handles and what a
    stack carries over from an earlier procedure (passkey counter, registered key, crypto manager,
    encrypted flag) are VARIABLES: the evaluation never inspects them before the procedure has
    overwritten them.  (Start code 0 only: see [sym_run_from_restart].)
    [all_ctls] is 32 (method, script) pairs (1, 2, 1, 1, 4, 22, 1 scripts for the methods 0..6) x 2^8
    distribution and bonding flags = 8192 controls. *)
Section Sweep.
  Variables (cnti cntr hi hr : N) (ki kr li lr : option term) (ei er : bool).

  Local Notation chk c :=
    (chk_result (set_handles hi hr c)
                (sym_run_from (start_state 0 cnti ki li ei) (start_state 0 cntr kr lr er) (set_handles hi hr c))).

  (* 27 pairs must fail: OOB method (2), unequal legacy pins (1), a refused comparison (3), LESC
     passkeys that differ in one of the 20 rounds (20) or only beyond them (1).  Such a run ends before
     any key is distributed and the evaluation reads none of the 8 flags, so they stay variables too:
     one evaluation per pair covers its 2^8 controls. *)
  Lemma chk_must_fail m s e1 i1 s1 e2 i2 s2 b1 b2 :
    In m methods -> In s (scripts_for m) ->
    must_fail (mk_ctl m s e1 i1 s1 e2 i2 s2 b1 b2) = true -> chk (mk_ctl m s e1 i1 s1 e2 i2 s2 b1 b2) = true.
  Proof.
    intros Hm Hs.
    repeat (destruct Hm as [<- | Hm]); [.. | destruct Hm];
      simpl in Hs; repeat (destruct Hs as [<- | Hs]); try destruct Hs.
    (* [must_fail] is false for 5 of them *)
    all: intros E; try (cbv in E; discriminate E).
    all: vm_compute; reflexivity.
  Qed.

  (* The 5 other pairs (methods 0, 1, 3, 4, 5 with the honest script) reach key distribution, which
     reads the flags: 5 * 2^8 evaluations. *)
  Lemma chk_may_succeed : forallb (fun c => chk c) (filter (fun c => negb (must_fail c)) all_ctls) = true.
  Proof. vm_compute. reflexivity. Qed.

  Lemma chk_ctl c : In c all_ctls -> chk c = true.
  Proof.
    intros H. destruct (must_fail c) eqn:E.
    - unfold all_ctls in H.
      apply in_flat_map in H as (m & Hm & H). apply in_flat_map in H as (s & Hs & H).
      do 7 (apply in_flat_map in H as (? & _ & H)). apply in_map_iff in H as (? & <- & _).
      apply chk_must_fail; assumption.
    - apply (proj1 (forallb_forall _ _) chk_may_succeed), filter_In. rewrite E. split; [exact H | reflexivity].
  Qed.
End Sweep.

Lemma all_ctls_length : N.of_nat (length all_ctls) = 8192.
Proof. vm_compute. reflexivity. Qed.

Lemma implb'_elim a b : implb' a b = true -> a = true -> b = true.
Proof. unfold implb'. destruct a, b; simpl; intros; congruence. Qed.

Lemma both_true f r : both f r = true <-> f (r_i r) = true /\ f (r_r r) = true.
Proof. apply andb_true_iff. Qed.

Record run_facts (c : ctl) (r : result) : Prop := {
  rf_quiet : r_quiet r = true;
  rf_steps : (r_steps r <? 250) = true;
  rf_noexc_i : s_exc (r_i r) = false;
  rf_noexc_r : s_exc (r_r r) = false;
  rf_agree : (both success r || both failure r) = true;
  rf_success : both success r = true ->
     keys_ok c r = true /\ session_ok c r = true /\ stored_ok c false (r_i r) (r_r r) = true
     /\ stored_ok c true (r_r r) (r_i r) = true /\ dist_present c false (r_i r) = true /\ dist_present c true (r_r r) = true;
  rf_failure : both failure r = true ->
     s_db (r_i r) = [] /\ s_db (r_r r) = [] /\ s_setenc (r_i r) = [] /\ s_setenc (r_r r) = [];
  rf_oob : is_oob_method (c_method c) = true -> both (fail_is 2) r = true;
  rf_honest : is_oob_method (c_method c) = false -> honest c = true -> both success r = true;
  rf_dishonest : honest c = false -> both failure r = true }.

Lemma chk_result_facts c r : chk_result c r = true -> run_facts c r.
Proof.
  unfold chk_result. cbv zeta.
  intros [[[[[[[[[Q S]%andb_prop E1]%andb_prop E2]%andb_prop Ag]%andb_prop Su]%andb_prop Fa]%andb_prop Ob]%andb_prop Ho]%andb_prop Di]%andb_prop.
  apply negb_true_iff in E1, E2.
  constructor; try assumption.
  - intros Hs. apply (implb'_elim _ _ Su) in Hs.
    apply andb_prop in Hs as [[[[[K1 K2]%andb_prop K3]%andb_prop K4]%andb_prop K5]%andb_prop K6].
    repeat split; assumption.
  - intros Hf. apply (implb'_elim _ _ Fa) in Hf. apply andb_prop in Hf as [H1 H2].
    destruct (s_db (r_i r)), (s_db (r_r r)); try discriminate.
    destruct (s_setenc (r_i r)), (s_setenc (r_r r)); try discriminate. repeat split; reflexivity.
  - exact (implb'_elim _ _ Ob).
  - intros Ho' Hh. apply (implb'_elim _ _ Ho). rewrite Ho', Hh. reflexivity.
  - intros Hh. apply (implb'_elim _ _ Di). rewrite Hh. reflexivity.
Qed.

(* [f] is a variable, so one delivery is unfolded; comparing the two runs of [sym_run_from_restart]
   by [reflexivity] makes the kernel unfold [pump FUEL] on both sides. *)
Lemma pump_resp_congr f c si sr sr' m qi n :
  handle c true sr m = handle c true sr' m ->
  pump (S f) c si sr (m :: qi) [] n = pump (S f) c si sr' (m :: qi) [] n.
Proof. intros H. cbn [pump]. rewrite H. reflexivity. Qed.

(** A procedure forgets the state code it is started in: [initiate_pairing] and
    [on_pairing_request] accept 0 (idle) and 255 (done) alike and begin with [reset]. *)
Lemma sym_run_from_restart c sti str cnti cntr ki kr li lr ei er :
  (sti = 0 \/ sti = 255) -> (str = 0 \/ str = 255) ->
  sym_run_from (start_state sti cnti ki li ei) (start_state str cntr kr lr er) c
  = sym_run_from (start_state 0 cnti ki li ei) (start_state 0 cntr kr lr er) c.
Proof.
  intros Hi Hr. unfold sym_run_from.
  replace (initiate_pairing c (start_state sti cnti ki li ei))
    with (upd_core (reset (start_state 0 cnti ki li ei) None) 2, [MPreq]) by (destruct Hi as [-> | ->]; reflexivity).
  apply pump_resp_congr. destruct Hr as [-> | ->]; reflexivity.
Qed.

Lemma carry_start m s : startable s ->
  exists st cnt k l e, (st = 0 \/ st = 255) /\ carry m s = start_state st cnt k l e.
Proof.
  intros [Hs _]. destruct m; cbn [carry].
  1: exists (s_state s), (s_cnt s), (s_enckey s), (s_llcm s), (s_encrypted s); split; [exact Hs | reflexivity].
  all: exists 0, 1, None, None, false; split; [left|]; reflexivity.
Qed.

Lemma step_facts m pi pr sc si sr :
  wf_params pi -> wf_params pr -> startable si -> startable sr ->
  run_facts (control_of pi pr sc) (sym_run_from (carry m si) (carry m sr) (control_of pi pr sc)).
Proof.
  intros Wi Wr Hi Hr.
  destruct (carry_start m si Hi) as (sti & cnti & ki & li & ei & Hsti & ->).
  destruct (carry_start m sr Hr) as (str & cntr & kr & lr & er & Hstr & ->).
  apply chk_result_facts. rewrite sym_run_from_restart by assumption.
  unfold control_of. apply chk_ctl, control_of_in; assumption.
Qed.

Lemma st_init_startable : startable st_init.
Proof. split; [left; reflexivity | reflexivity]. Qed.

(** a single run is the first procedure of a sequence: [st_init] is [carry NewConn] of anything *)
Lemma run_facts_of pi pr sc :
  wf_params pi -> wf_params pr -> run_facts (control_of pi pr sc) (run pi pr sc).
Proof. intros Hi Hr. exact (step_facts NewConn pi pr sc st_init st_init Hi Hr st_init_startable st_init_startable). Qed.

Lemma success_startable s : success s = true -> startable s.
Proof. intros [[St Ex%negb_true_iff]%andb_prop _]%andb_prop. apply N.eqb_eq in St. split; [right|]; assumption. Qed.

Lemma failure_startable s : failure s = true -> startable s.
Proof. intros [[St Ex%negb_true_iff]%andb_prop _]%andb_prop. apply N.eqb_eq in St. split; [left|]; assumption. Qed.

Lemma bytes_eqb_sound a : forall b, bytes_eqb a b = true -> a = b.
Proof.
  induction a as [|x a IH]; intros [|y b] H; simpl in H; try discriminate; try reflexivity.
  apply andb_prop in H as [H1 H2]. apply N.eqb_eq in H1. apply IH in H2. congruence.
Qed.

(* [term] is nested through [list] in [TFun]: structural recursion on the term, with an inner
   induction on the argument list *)
Lemma term_eqb_sound : forall a b, term_eqb a b = true -> a = b.
Proof.
  fix IH 1. intros [l|a k|s p n|s p|t|t|f args| |s] b H; destruct b; simpl in H; try discriminate.
  - apply bytes_eqb_sound in H. congruence.
  - apply andb_prop in H as [H1 H2]. apply N.eqb_eq in H1, H2. congruence.
  - apply andb_prop in H as [[H1 H2]%andb_prop H3]. apply Bool.eqb_prop in H1. apply N.eqb_eq in H2, H3. congruence.
  - apply andb_prop in H as [H1 H2]. apply Bool.eqb_prop in H1. apply N.eqb_eq in H2. congruence.
  - f_equal. apply IH. exact H.
  - f_equal. apply IH. exact H.
  - apply andb_prop in H as [H1 H2]. apply N.eqb_eq in H1. subst f0. f_equal.
    revert args0 H2. induction args as [|x l IHl]; intros [|y l'] H2; try discriminate; try reflexivity.
    apply andb_prop in H2 as [H3 H4]. f_equal; [apply IH; exact H3 | apply IHl; exact H4].
  - reflexivity.
  - apply Bool.eqb_prop in H. congruence.
Qed.

Section eqb_sound.
  Context {A : Type} (e : A -> A -> bool) (He : forall a b, e a b = true -> a = b).

  Lemma opt_eqb_sound a b : opt_eqb e a b = true -> a = b.
  Proof. destruct a, b; simpl; intros H; try discriminate; [f_equal; apply He; exact H | reflexivity]. Qed.

  Lemma list_eqb_sound a : forall b, list_eqb e a b = true -> a = b.
  Proof.
    induction a as [|x a IH]; intros [|y b] H; simpl in H; try discriminate; [reflexivity|].
    apply andb_prop in H as [H1 H2]. f_equal; [apply He; exact H1 | apply IH; exact H2].
  Qed.
End eqb_sound.

Definition opt_term_eqb_sound := opt_eqb_sound term_eqb term_eqb_sound.
Definition opt_N_eqb_sound := opt_eqb_sound N.eqb (fun a b => proj1 (N.eqb_eq a b)).

Lemma ediv_eqb_sound a b : ediv_eqb a b = true -> a = b.
Proof. destruct a, b; simpl; intros H; try discriminate; try reflexivity. apply Bool.eqb_prop in H. congruence. Qed.

Lemma ltk3m_eqb_sound a b : ltk3m_eqb a b = true -> a = b.
Proof.
  destruct a as [[l1 r1] e1], b as [[l2 r2] e2]. simpl. intros [[H1 H2]%andb_prop H3]%andb_prop.
  apply term_eqb_sound in H1, H2. apply ediv_eqb_sound in H3. congruence.
Qed.

Lemma dbent_eqb_sound a b : dbent_eqb a b = true -> a = b.
Proof.
  destruct a as [a1 a2 a3 a4 a5], b as [b1 b2 b3 b4 b5]. unfold dbent_eqb. cbn [d_addr d_auth d_ltk d_irk d_csrk].
  intros [[[[H1 H2]%andb_prop H3]%andb_prop H4]%andb_prop H5]%andb_prop.
  apply Bool.eqb_prop in H1, H2. apply (opt_eqb_sound _ ltk3m_eqb_sound) in H3. apply opt_term_eqb_sound in H4, H5.
  congruence.
Qed.

Lemma stored_ok_sound c x sx sy :
  stored_ok c x sx sy = true ->
  s_db sx = if own_bond c x
            then [expected_own_entry x sx (spec_auth (c_method c)); expected_peer_entry c (negb x) sy (spec_auth (c_method c))]
            else [].
Proof.
  unfold stored_ok. destruct (own_bond c x); intros H.
  - apply (list_eqb_sound _ dbent_eqb_sound). exact H.
  - destruct (s_db sx); [reflexivity | discriminate].
Qed.

Section Facts.
  Variables (c : ctl) (r : result).
  Hypothesis F : run_facts c r.

  Lemma f_outcomes :
    r_quiet r = true /\ s_exc (r_i r) = false /\ s_exc (r_r r) = false /\
    ((success (r_i r) = true /\ success (r_r r) = true) \/ (failure (r_i r) = true /\ failure (r_r r) = true)).
  Proof.
    destruct F as [Q _ E1 E2 Ag _ _ _ _ _]. repeat split; try assumption.
    apply orb_true_iff in Ag as [H | H]; [left | right]; apply both_true; exact H.
  Qed.

  Lemma f_success : success (r_i r) = true -> success (r_r r) = true -> both success r = true.
  Proof. intros Si Sr. apply both_true. split; assumption. Qed.

  Lemma f_keys :
    success (r_i r) = true -> success (r_r r) = true ->
    s_stk (r_i r) = s_stk (r_r r)
    /\ (3 <= c_method c -> s_ltk (r_i r) = s_ltk (r_r r) /\ s_ltk (r_i r) <> None)
    /\ s_method (r_i r) = Some (c_method c) /\ s_method (r_r r) = Some (c_method c).
  Proof.
    intros Si Sr. destruct (rf_success _ _ F (f_success Si Sr)) as [K _]. unfold keys_ok in K.
    apply andb_prop in K as [[[Stk Ltk]%andb_prop Mi]%andb_prop Mr].
    split; [apply term_eqb_sound; exact Stk|]. split; [|split; apply opt_N_eqb_sound; assumption].
    intros Hm. apply N.leb_le in Hm. apply (implb'_elim _ _ Ltk) in Hm. apply andb_prop in Hm as [H1 H2].
    split; [apply opt_term_eqb_sound; exact H1|]. destruct (s_ltk (r_i r)); discriminate.
  Qed.

  Lemma f_session :
    success (r_i r) = true -> success (r_r r) = true ->
    exists key,
      s_setenc (r_i r) = [(t_e key, key)] /\ s_setenc (r_r r) = [(t_e key, key)]
      /\ (if is_lesc_method (c_method c) then option_map trev (s_ltk (r_i r)) = Some key else s_stk (r_i r) = key)
      /\ s_encrypted (r_i r) = true /\ s_encrypted (r_r r) = true.
  Proof.
    intros Si Sr. destruct (rf_success _ _ F (f_success Si Sr)) as [_ [K _]]. unfold session_ok in K.
    destruct (s_setenc (r_i r)) as [|[k1 key1] [|? ?]]; try discriminate.
    destruct (s_setenc (r_r r)) as [|[k2 key2] [|? ?]]; try discriminate.
    apply andb_prop in K as [[[[[Ek Ekey]%andb_prop Ee]%andb_prop Ekind]%andb_prop Ci]%andb_prop Cr].
    apply term_eqb_sound in Ek, Ekey, Ee. subst k2 key2 k1.
    exists key1. repeat split; try assumption.
    destruct (is_lesc_method (c_method c)); symmetry; [apply opt_term_eqb_sound | apply term_eqb_sound]; exact Ekind.
  Qed.

  Lemma f_stored :
    success (r_i r) = true -> success (r_r r) = true ->
    s_db (r_i r) = (if c_bond_i c
                    then [expected_own_entry false (r_i r) (spec_auth (c_method c));
                          expected_peer_entry c true (r_r r) (spec_auth (c_method c))] else [])
    /\ s_db (r_r r) = (if c_bond_r c
                       then [expected_own_entry true (r_r r) (spec_auth (c_method c));
                             expected_peer_entry c false (r_i r) (spec_auth (c_method c))] else [])
    /\ dist_present c false (r_i r) = true /\ dist_present c true (r_r r) = true.
  Proof.
    intros Si Sr. destruct (rf_success _ _ F (f_success Si Sr)) as [_ [_ [S1 [S2 D]]]].
    apply stored_ok_sound in S1, S2. repeat split; try assumption; apply D.
  Qed.

  Lemma f_failure_clean :
    failure (r_i r) = true -> failure (r_r r) = true ->
    s_db (r_i r) = [] /\ s_db (r_r r) = [] /\ s_setenc (r_i r) = [] /\ s_setenc (r_r r) = [].
  Proof. intros Fi Fr. apply (rf_failure _ _ F), both_true. split; assumption. Qed.

  Lemma f_dishonest : honest c = false -> failure (r_i r) = true /\ failure (r_r r) = true.
  Proof. intros H. apply both_true, (rf_dishonest _ _ F), H. Qed.

  Lemma f_honest : is_oob_method (c_method c) = false -> honest c = true -> success (r_i r) = true /\ success (r_r r) = true.
  Proof. intros Ho H. apply both_true, (rf_honest _ _ F); assumption. Qed.

  Lemma f_oob : is_oob_method (c_method c) = true ->
    failure (r_i r) = true /\ failure (r_r r) = true /\ s_fail (r_i r) = Some 2 /\ s_fail (r_r r) = Some 2.
  Proof.
    intros Ho. destruct (proj1 (both_true _ _) (rf_oob _ _ F Ho)) as [[A1 B1]%andb_prop [A2 B2]%andb_prop].
    repeat split; try assumption; apply opt_N_eqb_sound; assumption.
  Qed.

  Lemma f_startable : startable (r_i r) /\ startable (r_r r).
  Proof.
    destruct f_outcomes as [_ [_ [_ [[S1 S2] | [F1 F2]]]]]; split; auto using success_startable, failure_startable.
  Qed.
End Facts.

Lemma control_method pi pr sc : c_method (control_of pi pr sc) = sel_method pi pr.
Proof. reflexivity. Qed.

Lemma honest_control pi pr sc :
  honest (control_of pi pr sc) =
  if sel_method pi pr =? 1 then N.eqb (eff_pin_i pi pr sc) (eff_pin_r pi pr sc)
  else if sel_method pi pr =? 4 then u_nc_i sc && u_nc_r sc
  else if sel_method pi pr =? 5 then N.eqb (u_typed_i sc) (u_typed_r sc)
  else true.
Proof.
  unfold honest, control_of, set_handles, control0. cbn [c_pin_eq c_nc_i c_nc_r c_fdb c_pk_eq].
  generalize (sel_method pi pr). intros m.
  destruct (N.eqb_spec m 1) as [-> | _]; [cbn [N.eqb Pos.eqb]; rewrite !andb_true_r; reflexivity|].
  destruct (N.eqb_spec m 4) as [-> | _]; [cbn [N.eqb Pos.eqb andb]; rewrite !andb_true_r; reflexivity|].
  destruct (N.eqb_spec m 5) as [-> | _]; [cbn [andb] | reflexivity].
  (* equal passkeys have no differing round; unequal ones make the last conjunct false *)
  destruct (N.eqb_spec (u_typed_i sc) (u_typed_r sc)) as [-> | _]; [|apply andb_false_r].
  unfold first_diff_round. rewrite fdr_same. reflexivity.
Qed.

Lemma outcomes_agree pi pr sc :
  wf_params pi -> wf_params pr ->
  r_quiet (run pi pr sc) = true /\ s_exc (r_i (run pi pr sc)) = false /\ s_exc (r_r (run pi pr sc)) = false /\
  ((success (r_i (run pi pr sc)) = true /\ success (r_r (run pi pr sc)) = true)
   \/ (failure (r_i (run pi pr sc)) = true /\ failure (r_r (run pi pr sc)) = true)).
Proof. intros Hi Hr. exact (f_outcomes _ _ (run_facts_of pi pr sc Hi Hr)). Qed.

Lemma fuel_enough pi pr sc :
  wf_params pi -> wf_params pr -> r_steps (run pi pr sc) < 250 /\ r_quiet (run pi pr sc) = true.
Proof.
  intros Hi Hr. destruct (run_facts_of pi pr sc Hi Hr) as [Q S _ _ _ _ _ _ _ _].
  split; [apply N.ltb_lt; exact S | exact Q].
Qed.

Lemma keys_agree pi pr sc :
  wf_params pi -> wf_params pr ->
  success (r_i (run pi pr sc)) = true -> success (r_r (run pi pr sc)) = true ->
  s_stk (r_i (run pi pr sc)) = s_stk (r_r (run pi pr sc))
  /\ (3 <= sel_method pi pr -> s_ltk (r_i (run pi pr sc)) = s_ltk (r_r (run pi pr sc)) /\ s_ltk (r_i (run pi pr sc)) <> None)
  /\ s_method (r_i (run pi pr sc)) = Some (sel_method pi pr) /\ s_method (r_r (run pi pr sc)) = Some (sel_method pi pr).
Proof. intros Hi Hr. exact (f_keys _ _ (run_facts_of pi pr sc Hi Hr)). Qed.

Lemma session_key_agrees pi pr sc :
  wf_params pi -> wf_params pr ->
  success (r_i (run pi pr sc)) = true -> success (r_r (run pi pr sc)) = true ->
  exists key,
    s_setenc (r_i (run pi pr sc)) = [(t_e key, key)] /\ s_setenc (r_r (run pi pr sc)) = [(t_e key, key)]
    /\ (if is_lesc_method (sel_method pi pr) then option_map trev (s_ltk (r_i (run pi pr sc))) = Some key
        else s_stk (r_i (run pi pr sc)) = key)
    /\ s_encrypted (r_i (run pi pr sc)) = true /\ s_encrypted (r_r (run pi pr sc)) = true.
Proof. intros Hi Hr. exact (f_session _ _ (run_facts_of pi pr sc Hi Hr)). Qed.

Lemma stored_is_distributed pi pr sc :
  wf_params pi -> wf_params pr ->
  success (r_i (run pi pr sc)) = true -> success (r_r (run pi pr sc)) = true ->
  let c := control_of pi pr sc in
  s_db (r_i (run pi pr sc)) = (if a_bond pi
      then [expected_own_entry false (r_i (run pi pr sc)) (spec_auth (sel_method pi pr));
            expected_peer_entry c true (r_r (run pi pr sc)) (spec_auth (sel_method pi pr))] else [])
  /\ s_db (r_r (run pi pr sc)) = (if a_bond pr
      then [expected_own_entry true (r_r (run pi pr sc)) (spec_auth (sel_method pi pr));
            expected_peer_entry c false (r_i (run pi pr sc)) (spec_auth (sel_method pi pr))] else [])
  /\ dist_present c false (r_i (run pi pr sc)) = true /\ dist_present c true (r_r (run pi pr sc)) = true.
Proof. intros Hi Hr. exact (f_stored _ _ (run_facts_of pi pr sc Hi Hr)). Qed.

Lemma wrong_passkey_fails_both pi pr sc :
  wf_params pi -> wf_params pr ->
  (sel_method pi pr = 1 /\ eff_pin_i pi pr sc <> eff_pin_r pi pr sc)
  \/ (sel_method pi pr = 5 /\ u_typed_i sc <> u_typed_r sc)
  \/ (sel_method pi pr = 4 /\ (u_nc_i sc && u_nc_r sc) = false) ->
  failure (r_i (run pi pr sc)) = true /\ failure (r_r (run pi pr sc)) = true.
Proof.
  intros Hi Hr H. apply (f_dishonest _ _ (run_facts_of pi pr sc Hi Hr)). rewrite honest_control.
  destruct H as [[-> Hn] | [[-> Hn] | [-> Hn]]]; cbn [N.eqb Pos.eqb].
  - apply N.eqb_neq. exact Hn.
  - apply N.eqb_neq. exact Hn.
  - exact Hn.
Qed.

Definition wf_step (x : step_t) : Prop := let '(m, pi, pr, sc) := x in wf_params pi /\ wf_params pr.

Lemma seq_facts : forall (l : list step_t) (si sr : sst),
  startable si -> startable sr -> Forall wf_step l ->
  Forall (fun cr => run_facts (fst cr) (snd cr)) (run_seq si sr l).
Proof.
  induction l as [|[[[m pi] pr] sc] l IH]; intros si sr Hi Hr Hl; cbn [run_seq]; [constructor|].
  inversion Hl as [|x l' Hw Hl']; subst. destruct Hw as [Wi Wr].
  pose proof (step_facts m pi pr sc si sr Wi Wr Hi Hr) as F.
  constructor; [exact F|]. destruct (f_startable _ _ F) as [S1 S2]. apply IH; assumption.
Qed.

(** The user follows the SPECIFICATION's Passkey Entry roles:
    [P] is the passkey of the session: the device Table 2.8 makes display generates it, the
    device(s) it makes input get it typed in. *)
Definition follows_roles (ri rr : pk_role) (sc : script) (P : N) : Prop :=
  (match ri with Displays => u_gen_i sc = P | Inputs => u_typed_i sc = P end) /\
  (match rr with Displays => u_gen_r sc = P | Inputs => u_typed_r sc = P end).

Lemma pin_src_eqb_sound a b : pin_src_eqb a b = true -> a = b.
Proof. destruct a, b; simpl; intros H; try discriminate; reflexivity. Qed.

Lemma follows_roles_pins pi pr sc si sr ri rr P :
  sel_of_peer (peer_of_params pi) = Some si -> sel_of_peer (peer_of_params pr) = Some sr ->
  spec_method si sr = (false, Passkey ri rr) ->
  follows_roles ri rr sc P ->
  eff_pin_i pi pr sc = P /\ eff_pin_r pi pr sc = P.
Proof.
  intros Ei Er Hm [Fi Fr].
  pose proof (legacy_passkey_roles si sr) as R. unfold roles_ok in R. rewrite Hm in R.
  apply andb_prop in R as [R1 R2]. apply pin_src_eqb_sound in R1, R2.
  pose proof (f_equal p_iocap (sel_of_peer_inv _ si Ei)) as Ci.
  pose proof (f_equal p_iocap (sel_of_peer_inv _ sr Er)) as Cr.
  cbn [peer_of peer_of_params p_iocap] in Ci, Cr. rewrite Ci, Cr in R1, R2.
  unfold eff_pin_i, eff_pin_r, eff_pin. rewrite R1, R2.
  destruct ri, rr; split; assumption.
Qed.
