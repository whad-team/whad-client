(** C14 stage A — lemmas: the generated selection function equals the specification tables
    on the whole finite domain.  Re-checked on every run against the REGENERATED GenTable. *)
From Coq Require Import List NArith Bool Lia.
From Whad Require Import C14.Base C14.Spec.
From Whad Require Import C14.GenTable.
From Whad Require Import C14.Sel.
Import ListNotations.

Lemma kres_eqb_eq a b : kres_eqb a b = true -> a = b.
Proof.
  destruct a, b; simpl; try discriminate; try reflexivity.
  intros H. apply N.eqb_eq in H. congruence.
Qed.

Lemma in_flat_map_intro {A B} (f : A -> list B) l x y : In x l -> In y (f x) -> In y (flat_map f l).
Proof. intros Hx Hy. apply in_flat_map. exists x. split; assumption. Qed.

Lemma in_bools b : In b [false; true].
Proof. destruct b; simpl; tauto. Qed.

Lemma all_sel_params_complete : forall s : sel_params, In s all_sel_params.
Proof.
  intros [sc oob mitm io]. unfold all_sel_params.
  do 3 (eapply in_flat_map_intro; [apply in_bools|]).
  apply in_map. destruct io; simpl; tauto.
Qed.

Lemma all_sel_pairs_complete : forall i r : sel_params, In (i, r) all_sel_pairs.
Proof.
  intros i r. apply in_flat_map_intro with i; [|apply in_map]; apply all_sel_params_complete.
Qed.

Lemma all_sel_pairs_length : length all_sel_pairs = 1600%nat.
Proof. vm_compute. reflexivity. Qed.

Lemma on_all_sel_pairs (f : sel_params * sel_params -> bool) :
  forallb f all_sel_pairs = true -> forall i r, f (i, r) = true.
Proof. intros H i r. exact (proj1 (forallb_forall f all_sel_pairs) H (i, r) (all_sel_pairs_complete i r)). Qed.

Lemma method_is_spec :
  forall i r : sel_params,
    key_generation_method_selection (peer_of i) (peer_of r) = spec_kres i r.
Proof.
  intros i r. apply kres_eqb_eq. apply (on_all_sel_pairs method_ok). vm_compute. reflexivity.
Qed.

Lemma method_is_spec_on_domain :
  length all_sel_pairs = 1600%nat /\
  forall i r, In (i, r) all_sel_pairs ->
    key_generation_method_selection (peer_of i) (peer_of r) = spec_kres i r.
Proof. exact (conj all_sel_pairs_length (fun i r _ => method_is_spec i r)). Qed.

(** The specification never yields "legacy numeric comparison": every cell has a code. *)
Lemma spec_kres_is_method : forall i r, exists m, spec_kres i r = KMethod m /\ (m < 7)%N.
Proof.
  intros i r.
  assert (H : match spec_kres i r with KMethod m => N.ltb m 7 | _ => false end = true).
  { apply (on_all_sel_pairs (fun ir => match spec_kres (fst ir) (snd ir) with KMethod m => N.ltb m 7 | _ => false end)).
    vm_compute. reflexivity. }
  destruct (spec_kres i r) as [m| |]; try discriminate.
  exists m. split; [reflexivity|]. apply N.ltb_lt. exact H.
Qed.

Lemma iocap_of_code_inv c io : iocap_of_code c = Some io -> iocap_code io = c.
Proof.
  (* the binary numerals of three digits; on anything longer [iocap_of_code] is [None] *)
  destruct c as [|[[[?|?|]|[?|?|]|]|[[?|?|]|[?|?|]|]|]]; intros [= <-]; reflexivity.
Qed.

Lemma sel_of_peer_inv p s : sel_of_peer p = Some s -> peer_of s = p.
Proof.
  destruct p as [l o m io]. unfold sel_of_peer. cbn [p_iocap p_lesc p_oob p_mitm].
  destruct (iocap_of_code io) as [c|] eqn:E; intros [= <-].
  unfold peer_of. cbn [sp_sc sp_oob sp_mitm sp_io]. rewrite (iocap_of_code_inv _ _ E). reflexivity.
Qed.

Lemma sel_of_peer_some p : (p_iocap p < 5)%N -> exists s, sel_of_peer p = Some s.
Proof.
  intros H. unfold sel_of_peer.
  assert (Hio : (p_iocap p = 0 \/ p_iocap p = 1 \/ p_iocap p = 2 \/ p_iocap p = 3 \/ p_iocap p = 4)%N) by lia.
  destruct Hio as [-> | [-> | [-> | [-> | ->]]]]; eexists; reflexivity.
Qed.

Lemma method_is_spec_peers :
  forall p q : peer, (p_iocap p < 5)%N -> (p_iocap q < 5)%N ->
    exists sp sq, sel_of_peer p = Some sp /\ sel_of_peer q = Some sq /\
      key_generation_method_selection p q = spec_kres sp sq.
Proof.
  intros p q Hp Hq.
  destruct (sel_of_peer_some p Hp) as [sp Ep]. destruct (sel_of_peer_some q Hq) as [sq Eq].
  exists sp, sq. split; [exact Ep|]. split; [exact Eq|].
  rewrite <- (sel_of_peer_inv p sp Ep), <- (sel_of_peer_inv q sq Eq). apply method_is_spec.
Qed.

Lemma authenticated_is_spec : forall i r : sel_params, auth_ok (i, r) = true.
Proof. apply on_all_sel_pairs. vm_compute. reflexivity. Qed.

Lemma legacy_passkey_roles : forall i r : sel_params, roles_ok (i, r) = true.
Proof. apply on_all_sel_pairs. vm_compute. reflexivity. Qed.
