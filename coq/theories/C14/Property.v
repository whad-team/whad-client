(** C14 — the property theorems, each a short consequence of the lemmas of SelProofs.v (stage A)
    and Proofs.v (stage B). *)
From Coq Require Import List NArith Bool.
From Whad Require Import C14.Base C14.Spec C14.GenTable C14.Sel C14.SelProofs C14.Model C14.Proofs.
Import ListNotations.
Local Open Scope N_scope.

(** Stage A: the association model. *)

(** The selection function GENERATED from the Python source equals Tables 2.6-2.8 (Spec.v, typed by
    hand) on the whole domain: 40 x 40 = 1600 combinations of (SC, OOB, MITM, IO capability) per side. *)
Theorem C14_method_is_spec :
  length all_sel_pairs = 1600%nat /\
  forall i r, In (i, r) all_sel_pairs ->
    key_generation_method_selection (peer_of i) (peer_of r) = spec_kres i r.
Proof. exact method_is_spec_on_domain. Qed.

Theorem C14_method_domain_complete : forall i r : sel_params, In (i, r) all_sel_pairs.
Proof. exact all_sel_pairs_complete. Qed.

(** Python-level form: for IO capability codes 0..4 the function returns the specification's method
    (never None, never an exception). *)
Theorem C14_method_is_spec_peers :
  forall p q : peer, p_iocap p < 5 -> p_iocap q < 5 ->
    exists sp sq, sel_of_peer p = Some sp /\ sel_of_peer q = Some sq /\
      key_generation_method_selection p q = spec_kres sp sq.
Proof. exact method_is_spec_peers. Qed.

(** AUTHENTICATED_METHODS is the specification's notion (everything but Just Works). *)
Theorem C14_authenticated_is_spec : forall i r : sel_params, auth_ok (i, r) = true.
Proof. exact authenticated_is_spec. Qed.

(** The passkey roles of LE legacy Passkey Entry (who displays, who inputs: Table 2.8) are the
    specification's in EVERY cell: the decision GENERATED from [get_pin_code] gives "typed by the
    user" exactly for the device Table 2.8 makes input and "generated and displayed" exactly for
    the device it makes display.  (Full theorem since the repair "fix: SMP get_pin_code lets a
    KeyboardDisplay device input the legacy passkey where Table 2.8 says it inputs"; on the
    unrepaired function it fails for the five KeyboardDisplay-must-input cells.) *)
Theorem C14_legacy_passkey_roles : forall i r : sel_params, roles_ok (i, r) = true.
Proof. exact legacy_passkey_roles. Qed.

(** Stage B: the two-party run.  [run pi pr sc]: the central with parameters [pi] initiates pairing
    with the peripheral with parameters [pr]; [sc] is the scripted user.  All parameters: [wf_params]
    only asks for an IO capability code 0..4; bonding, key size, distribution flags, passkeys and the
    connection handle of each side ([a_handle], any N, 0 included, the two sides' handles need not be
    equal) are arbitrary. *)

(** The run terminates (both queues empty within the fuel), nothing raises, and both sides are in
    the same outcome: both report success or both report failure. *)
Theorem C14_outcomes_agree :
  forall pi pr sc, wf_params pi -> wf_params pr ->
  r_quiet (run pi pr sc) = true /\ s_exc (r_i (run pi pr sc)) = false /\ s_exc (r_r (run pi pr sc)) = false /\
  ((success (r_i (run pi pr sc)) = true /\ success (r_r (run pi pr sc)) = true)
   \/ (failure (r_i (run pi pr sc)) = true /\ failure (r_r (run pi pr sc)) = true)).
Proof. exact outcomes_agree. Qed.

(** No theorem is true because the fuel ran out. *)
Theorem C14_fuel_enough :
  forall pi pr sc, wf_params pi -> wf_params pr ->
  r_steps (run pi pr sc) < 250 /\ r_quiet (run pi pr sc) = true.
Proof. exact fuel_enough. Qed.

(** On success the STK terms are equal, for LE Secure Connections the LTK terms are equal, and both
    sides used the method selected for the exchanged parameters. *)
Theorem C14_keys_agree :
  forall pi pr sc, wf_params pi -> wf_params pr ->
  success (r_i (run pi pr sc)) = true -> success (r_r (run pi pr sc)) = true ->
  s_stk (r_i (run pi pr sc)) = s_stk (r_r (run pi pr sc))
  /\ (3 <= sel_method pi pr -> s_ltk (r_i (run pi pr sc)) = s_ltk (r_r (run pi pr sc)) /\ s_ltk (r_i (run pi pr sc)) <> None)
  /\ s_method (r_i (run pi pr sc)) = Some (sel_method pi pr) /\ s_method (r_r (run pi pr sc)) = Some (sel_method pi pr).
Proof. exact keys_agree. Qed.

(** Equal terms are equal keys under EVERY interpretation of the toolbox. *)
Theorem C14_keys_agree_interp :
  forall pi pr sc (interp : term -> list N), wf_params pi -> wf_params pr ->
  success (r_i (run pi pr sc)) = true -> success (r_r (run pi pr sc)) = true ->
  interp (s_stk (r_i (run pi pr sc))) = interp (s_stk (r_r (run pi pr sc)))
  /\ (3 <= sel_method pi pr ->
      option_map interp (s_ltk (r_i (run pi pr sc))) = option_map interp (s_ltk (r_r (run pi pr sc)))).
Proof.
  intros pi pr sc interp Hi Hr Si Sr. destruct (keys_agree pi pr sc Hi Hr Si Sr) as [H1 [H2 _]].
  split; [rewrite H1; reflexivity|]. intros Hm. destruct (H2 Hm) as [H3 _]. rewrite H3. reflexivity.
Qed.

(** The method the run uses is the specification's (stage A carried into stage B). *)
Theorem C14_run_method_is_spec :
  forall pi pr, wf_params pi -> wf_params pr ->
  exists si sr, sel_of_peer (peer_of_params pi) = Some si /\ sel_of_peer (peer_of_params pr) = Some sr
                /\ spec_kres si sr = KMethod (sel_method pi pr).
Proof. exact run_method_is_spec. Qed.

(** On success each PHY got exactly one set_encryption, with the same session key e(key, SKD) and
    the same key, which is the STK (legacy) or the LTK (LESC) of this pairing. *)
Theorem C14_session_key_agrees :
  forall pi pr sc, wf_params pi -> wf_params pr ->
  success (r_i (run pi pr sc)) = true -> success (r_r (run pi pr sc)) = true ->
  exists key,
    s_setenc (r_i (run pi pr sc)) = [(t_e key, key)] /\ s_setenc (r_r (run pi pr sc)) = [(t_e key, key)]
    /\ (if is_lesc_method (sel_method pi pr) then option_map trev (s_ltk (r_i (run pi pr sc))) = Some key
        else s_stk (r_i (run pi pr sc)) = key)
    /\ s_encrypted (r_i (run pi pr sc)) = true /\ s_encrypted (r_r (run pi pr sc)) = true.
Proof. exact session_key_agrees. Qed.

(** On success a bonding side has stored exactly: its own keys, and for the peer exactly the keys
    the peer distributed (the peer's own final keys filtered by the peer's distribution flags; the
    LTK always for LESC); a side without bonding stored nothing; every distributed key exists. *)
Theorem C14_stored_is_distributed :
  forall pi pr sc, wf_params pi -> wf_params pr ->
  success (r_i (run pi pr sc)) = true -> success (r_r (run pi pr sc)) = true ->
  let c := control_of pi pr sc in
  s_db (r_i (run pi pr sc)) = (if a_bond pi
      then [expected_own_entry false (r_i (run pi pr sc)) (spec_auth (sel_method pi pr));
            expected_peer_entry c true (r_r (run pi pr sc)) (spec_auth (sel_method pi pr))] else [])
  /\ s_db (r_r (run pi pr sc)) = (if a_bond pr
      then [expected_own_entry true (r_r (run pi pr sc)) (spec_auth (sel_method pi pr));
            expected_peer_entry c false (r_i (run pi pr sc)) (spec_auth (sel_method pi pr))] else [])
  /\ dist_present c false (r_i (run pi pr sc)) = true /\ dist_present c true (r_r (run pi pr sc)) = true.
Proof. exact stored_is_distributed. Qed.

(** On failure nothing is stored and the link is not encrypted, on either side. *)
Theorem C14_failure_leaves_nothing :
  forall pi pr sc, wf_params pi -> wf_params pr ->
  failure (r_i (run pi pr sc)) = true -> failure (r_r (run pi pr sc)) = true ->
  s_db (r_i (run pi pr sc)) = [] /\ s_db (r_r (run pi pr sc)) = []
  /\ s_setenc (r_i (run pi pr sc)) = [] /\ s_setenc (r_r (run pi pr sc)) = [].
Proof. intros pi pr sc Hi Hr. exact (f_failure_clean _ _ (run_facts_of pi pr sc Hi Hr)). Qed.

(** A wrong passkey (legacy: different effective pins; LESC: different typed values) or a refused
    numeric comparison makes BOTH sides fail. *)
Theorem C14_wrong_passkey_fails_both :
  forall pi pr sc, wf_params pi -> wf_params pr ->
  (sel_method pi pr = 1 /\ eff_pin_i pi pr sc <> eff_pin_r pi pr sc)
  \/ (sel_method pi pr = 5 /\ u_typed_i sc <> u_typed_r sc)
  \/ (sel_method pi pr = 4 /\ (u_nc_i sc && u_nc_r sc) = false) ->
  failure (r_i (run pi pr sc)) = true /\ failure (r_r (run pi pr sc)) = true.
Proof. exact wrong_passkey_fails_both. Qed.

(** With a correct passkey / accepted comparison every implemented method succeeds on both sides ... *)
Theorem C14_correct_interaction_succeeds :
  forall pi pr sc, wf_params pi -> wf_params pr ->
  sel_method pi pr <> 2 -> sel_method pi pr <> 6 ->
  (sel_method pi pr = 1 -> eff_pin_i pi pr sc = eff_pin_r pi pr sc) ->
  (sel_method pi pr = 5 -> u_typed_i sc = u_typed_r sc) ->
  (sel_method pi pr = 4 -> u_nc_i sc = true /\ u_nc_r sc = true) ->
  success (r_i (run pi pr sc)) = true /\ success (r_r (run pi pr sc)) = true.
Proof.
  intros pi pr sc Hi Hr H2 H6 P1 P5 P4. apply (f_honest _ _ (run_facts_of pi pr sc Hi Hr)).
  - rewrite control_method. unfold is_oob_method. apply N.eqb_neq in H2, H6. rewrite H2, H6. reflexivity.
  - rewrite honest_control.
    destruct (N.eqb_spec (sel_method pi pr) 1) as [E | _]; [apply N.eqb_eq, P1, E|].
    destruct (N.eqb_spec (sel_method pi pr) 4) as [E | _]; [destruct (P4 E) as [-> ->]; reflexivity|].
    destruct (N.eqb_spec (sel_method pi pr) 5) as [E | _]; [apply N.eqb_eq, P5, E | reflexivity].
Qed.

(** In particular when the user follows the SPECIFICATION's roles: [P] is the session passkey, the
    device Table 2.8 makes display generates it, the device(s) it makes input get it typed in
    (whatever the other scripted values are).  Covers all 12 Passkey Entry cells of Table 2.8,
    including those where a KeyboardDisplay device inputs. *)
Theorem C14_spec_roles_user_succeeds :
  forall pi pr sc si sr ri rr P, wf_params pi -> wf_params pr ->
  sel_of_peer (peer_of_params pi) = Some si -> sel_of_peer (peer_of_params pr) = Some sr ->
  spec_method si sr = (false, Passkey ri rr) ->
  follows_roles ri rr sc P ->
  sel_method pi pr = 1
  /\ success (r_i (run pi pr sc)) = true /\ success (r_r (run pi pr sc)) = true.
Proof.
  intros pi pr sc si sr ri rr P Hi Hr Ei Er Hm Hf.
  pose proof (sel_method_spec pi pr si sr Ei Er) as M. unfold spec_kres in M. rewrite Hm in M. injection M as M.
  destruct (follows_roles_pins pi pr sc si sr ri rr P Ei Er Hm Hf) as [Pi Pr].
  split; [symmetry; exact M|].
  apply C14_correct_interaction_succeeds; try assumption; rewrite <- M; try discriminate. intros _. congruence.
Qed.

(** ... and the two OOB methods (not implemented) fail on both sides with "OOB not available". *)
Theorem C14_oob_fails_both :
  forall pi pr sc, wf_params pi -> wf_params pr ->
  sel_method pi pr = 2 \/ sel_method pi pr = 6 ->
  failure (r_i (run pi pr sc)) = true /\ failure (r_r (run pi pr sc)) = true
  /\ s_fail (r_i (run pi pr sc)) = Some 2 /\ s_fail (r_r (run pi pr sc)) = Some 2.
Proof.
  intros pi pr sc Hi Hr H. apply (f_oob _ _ (run_facts_of pi pr sc Hi Hr)).
  rewrite control_method. unfold is_oob_method. destruct H as [-> | ->]; reflexivity.
Qed.

(** ---- sequences of pairing procedures through the SAME two stacks ----
    [run_seq si sr l]: each step re-pairs the same connection ([SameConn]), pairs on a new
    connection handle of the same stacks ([NewConn]) or on the same handle after a disconnection
    ([Reconnect]); on the same connection what survives [reset_state()] (SMP state code, passkey
    counter, registered link key, the crypto manager of that handle, encrypted flag) is carried
    over, a new or re-opened handle starts with none of it; for lists of ANY length (induction over
    the list, from any startable states).  Every
    procedure of the sequence ends in the same outcome on both sides, and on success each stack got
    one set_encryption whose session key is e(key, SKD) with key = the STK / LTK of THAT procedure:
    nothing of an earlier procedure leaks into a later session key. *)
Theorem C14_sequence_session_key_agrees :
  forall (l : list step_t) (si sr : sst),
  startable si -> startable sr -> Forall wf_step l ->
  Forall (fun cr : ctl * result =>
            let '(c, r) := cr in
            r_quiet r = true /\ s_exc (r_i r) = false /\ s_exc (r_r r) = false /\
            ((failure (r_i r) = true /\ failure (r_r r) = true) \/
             (success (r_i r) = true /\ success (r_r r) = true /\
              exists key,
                s_setenc (r_i r) = [(t_e key, key)] /\ s_setenc (r_r r) = [(t_e key, key)]
                /\ (if is_lesc_method (c_method c) then option_map trev (s_ltk (r_i r)) = Some key
                    else s_stk (r_i r) = key)
                /\ s_stk (r_i r) = s_stk (r_r r))))
         (run_seq si sr l).
Proof.
  intros l si sr Hi Hr Hl. eapply Forall_impl; [|exact (seq_facts l si sr Hi Hr Hl)].
  intros [c r] F. cbn [fst snd] in F.
  destruct (f_outcomes c r F) as [Q [E1 [E2 [[S1 S2] | [F1 F2]]]]]; repeat split; try assumption.
  - right. split; [exact S1|]. split; [exact S2|].
    destruct (f_session c r F S1 S2) as [key [A [B [K _]]]]. destruct (f_keys c r F S1 S2) as [EqStk _].
    exists key. repeat split; assumption.
  - left. split; assumption.
Qed.

(** ... and what each procedure appends to the two security databases is exactly what was
    distributed in that procedure (LTK with ITS Rand and EDIV; [CryptographicDatabase.add]'s
    "rand is None or ediv is None" test is modelled as written, see [mk_ltk]). *)
Theorem C14_sequence_stored_is_distributed :
  forall (l : list step_t) (si sr : sst),
  startable si -> startable sr -> Forall wf_step l ->
  Forall (fun cr : ctl * result =>
            let '(c, r) := cr in
            success (r_i r) = true -> success (r_r r) = true ->
            s_db (r_i r) = (if c_bond_i c
                            then [expected_own_entry false (r_i r) (spec_auth (c_method c));
                                  expected_peer_entry c true (r_r r) (spec_auth (c_method c))] else [])
            /\ s_db (r_r r) = (if c_bond_r c
                               then [expected_own_entry true (r_r r) (spec_auth (c_method c));
                                     expected_peer_entry c false (r_i r) (spec_auth (c_method c))] else []))
         (run_seq si sr l).
Proof.
  intros l si sr Hi Hr Hl. eapply Forall_impl; [|exact (seq_facts l si sr Hi Hr Hl)].
  intros [c r] F. cbn [fst snd] in F. intros S1 S2.
  destruct (f_stored c r F S1 S2) as [A [B _]]. split; assumption.
Qed.

Theorem C14_first_procedure_startable : startable st_init.
Proof. exact st_init_startable. Qed.

(** The finite domain of controls that the evaluation covers (the bound behind the "for all
    parameters" above). *)
Theorem C14_control_domain :
  N.of_nat (length all_ctls) = 8192 /\
  forall pi pr sc, wf_params pi -> wf_params pr ->
    control_of pi pr sc = set_handles (a_handle pi) (a_handle pr) (control0 pi pr sc) /\ In (control0 pi pr sc) all_ctls.
Proof. exact (conj all_ctls_length (fun pi pr sc Hi Hr => conj eq_refl (control_of_in pi pr sc Hi Hr))). Qed.

(** Non-vacuity: a legacy Passkey Entry run (initiator KeyboardOnly + MITM, responder DisplayOnly,
    key sizes 7 and 16, bonding on one side only) meets the hypotheses, succeeds, and its STK is
    s1(TK, Srand, Mrand); the same run with a wrong passkey fails on both sides. *)
Example C14_nonvacuous :
  let pi := {| a_lesc := false; a_oob := false; a_mitm := true; a_bond := true; a_iocap := 2; a_mks := 7; a_kd := 7; a_handle := 0 |} in
  let pr := {| a_lesc := false; a_oob := false; a_mitm := false; a_bond := false; a_iocap := 0; a_mks := 16; a_kd := 5; a_handle := 3839 |} in
  let good := {| u_gen_i := 1; u_gen_r := 123456; u_typed_i := 123456; u_typed_r := 0; u_nc_i := true; u_nc_r := true |} in
  let bad := {| u_gen_i := 1; u_gen_r := 123456; u_typed_i := 123457; u_typed_r := 0; u_nc_i := true; u_nc_r := true |} in
  wf_params pi /\ wf_params pr /\ sel_method pi pr = 1
  /\ success (r_i (run pi pr good)) = true /\ success (r_r (run pi pr good)) = true
  /\ s_stk (r_i (run pi pr good)) = t_s1 (TAtom aTk 0) (TRnd true 0 0) (TRnd false 0 0)
  /\ length (s_db (r_i (run pi pr good))) = 2%nat /\ s_db (r_r (run pi pr good)) = []
  /\ failure (r_i (run pi pr bad)) = true /\ failure (r_r (run pi pr bad)) = true.
Proof. cbv zeta. unfold wf_params. cbn [a_iocap]. repeat split; try (vm_compute; reflexivity). Qed.
