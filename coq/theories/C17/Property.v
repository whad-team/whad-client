(** C17 — Zigbee frame security: the theorems of the property, each a few lines from the lemmas
    of Proofs.v; the refutations that exhibit a concrete frame and the non-vacuity example at the
    end are closed with evaluation.

    Every theorem of the Section is stated for an ARBITRARY block function [E] with 16-byte
    outputs (AES enters only through that hypothesis); the model is the code after the repair
    of [generateAuth] (fix: header taken as a prefix by length). *)
From Coq Require Import String.
From Coq Require Import List NArith Arith.
From Whad Require Import Lib.Bytes Lib.Xor Lib.Aes Lib.Ccm C17.Model C17.CcmStar C17.Proofs.
Import ListNotations.
Local Open Scope N_scope.

Section C17.
  Variable E : bytes -> bytes -> bytes.
  Hypothesis E_length : forall k b, length (E k b) = 16%nat.

  (** Inverse.  For every key, every level 0 (on-air convention), 5, 6, 7, every counter,
      source, header and payload (empty, short, colliding with header bytes or not), in both
      conventions for the input packet (payload+MIC placeholder in [data], or payload in [data]
      and an empty [mic]): encrypt does not raise, and decrypt accepts its result — given as
      the packet object or re-dissected from its bytes — and yields the original payload in an
      otherwise unchanged frame ([m] is the code's recomputed MIC field). *)
  Theorem C17_decrypt_encrypt :
    forall key f, in_scope (f_lvl f) -> f_ext f = true -> length (f_src f) = 8%nat ->
    exists g, encrypt E key f = Ok g
      /\ (exists m, decrypt E key g = Ok (set_mic m (set_data (plaintext_of f) f), true))
      /\ (exists m, decrypt E key (redissect g) = Ok (set_mic m (set_data (plaintext_of f) f), true)).
  Proof. exact (decrypt_encrypt E E_length). Qed.

  (** Acceptance is exactly equality of the received MIC with the CCM* tag recomputed over
      nonce = source ‖ counter ‖ security control, the header, and the decrypted payload. *)
  Theorem C17_accept_iff_tag :
    forall key f, in_scope (f_lvl f) -> nonce_ok f ->
    status_of (decrypt E key f) = true <->
    recv_mic f = ccm_tag E (sp_M (params f)) (Lf f) key (gen_nonce (patch f)) (hdr_raw (patch f))
                         (ccm_keystream_xor E (Lf f) key (gen_nonce (patch f)) (recv_ct f)).
  Proof. exact (accept_iff_tag E). Qed.

  (** decrypt never raises on these levels, and what it delivers is the CTR decryption *)
  Theorem C17_decrypt_total :
    forall key f, in_scope (f_lvl f) -> nonce_ok f -> exists r b, decrypt E key f = Ok (r, b).
  Proof.
    intros key f Hs Hn. rewrite (decrypt_eq E key f Hs Hn). destruct (ccm_decrypt _ _ _ _ _ _ _ _); eauto.
  Qed.

  Theorem C17_accepted_payload :
    forall key f r, in_scope (f_lvl f) -> nonce_ok f -> decrypt E key f = Ok (r, true) ->
    f_data r = ccm_keystream_xor E (Lf f) key (gen_nonce (patch f)) (recv_ct f).
  Proof. exact (accepted_payload E). Qed.

  (** Any change of the integrity code alone is rejected, unconditionally. *)
  Theorem C17_mic_change_rejected :
    forall key f f', in_scope (f_lvl f) -> in_scope (f_lvl f') -> nonce_ok f ->
    sp_M (params f) = sp_M (params f') -> gen_nonce (patch f) = gen_nonce (patch f') ->
    hdr_raw (patch f) = hdr_raw (patch f') -> recv_ct f = recv_ct f' -> recv_mic f <> recv_mic f' ->
    status_of (decrypt E key f) = true -> status_of (decrypt E key f') = false.
  Proof.
    (* were both accepted, both MICs would be the tag of the same nonce, header and ciphertext *)
    intros key f f' Hs Hs' Hok HM Hn Hh Hc Hm Ha.
    apply Bool.not_true_is_false. intros Ha'. apply Hm.
    apply (accept_iff_tag E key f Hs Hok) in Ha.
    apply (accept_iff_tag E key f' Hs') in Ha'; [|unfold nonce_ok; rewrite <- Hn; exact Hok].
    rewrite Ha, Ha'. unfold Lf. fold (patch f) (patch f'). rewrite HM, Hn, Hh, Hc. reflexivity.
  Qed.

  Theorem C17_ext_mic_only_short_mic_rejected :
    forall key f, mic_scope (f_lvl f) -> (7 <= length (gen_nonce f))%nat ->
    length (recv_mic_only f) <> sp_M (params f) -> status_of (decrypt E key f) = false.
  Proof.
    intros key f Hs Hn Hl. apply Bool.not_true_is_false. intros Ha. apply Hl.
    apply (accept_iff_tag_mic E key f Hs Hn) in Ha. rewrite Ha.
    apply (ccm_tag_length E E_length). apply (mic_scope_params f Hs).
  Qed.

  (** The nonce is source ‖ counter ‖ security control when the 8-byte source is present
      (extended-nonce flag set); then the CCM length field has L = 2 bytes and AES.new accepts
      the nonce. *)
  Theorem C17_nonce_layout :
    forall f, f_ext f = true -> length (f_src f) = 8%nat -> gen_nonce f = f_src f ++ le32 (f_fc f) ++ [ctrl_byte f].
  Proof. exact gen_nonce_src. Qed.

  Theorem C17_nonce_ok_with_source :
    forall f, f_ext f = true -> length (f_src f) = 8%nat -> nonce_ok f /\ Lf f = 2%nat.
  Proof. exact nonce_ok_ext. Qed.

  (** The authenticated data of an encrypting level is the header, whatever the payload and
      MIC bytes are (this is what the repair established). *)
  Theorem C17_auth_is_header :
    forall sp f, sp_enc sp = true -> gen_auth sp f = hdr_raw f.
  Proof. exact gen_auth_enc. Qed.

  (** Injective formatting: the CBC-MAC input determines source, counter bytes, security
      control, header and payload. *)
  Theorem C17_formatting_injective :
    forall M f f' pt pt',
    length (f_src f) = 8%nat -> length (f_src f') = 8%nat ->
    N.of_nat (length pt) < 65536 -> N.of_nat (length pt') < 65536 ->
    N.of_nat (length (hdr_raw f)) < 65536 -> N.of_nat (length (hdr_raw f')) < 65536 ->
    ccm_auth_blocks M 2 (nonce_of f) (hdr_raw f) pt = ccm_auth_blocks M 2 (nonce_of f') (hdr_raw f') pt' ->
    f_src f = f_src f' /\ le32 (f_fc f) = le32 (f_fc f') /\ ctrl_byte f = ctrl_byte f'
    /\ hdr_raw f = hdr_raw f' /\ pt = pt'.
  Proof using E E_length. exact formatting_injective. Qed.

  (** Wrong key / modified header or payload: a frame accepted under [key'] that carries the
      MIC of a frame encrypted under [key] exhibits two equal CCM* tags (for another key, or
      for CBC-MAC inputs that differ by the theorem above).  Unforgeability of the MAC itself
      is not a theorem for an arbitrary [E]. *)
  Theorem C17_forgery_is_tag_collision :
    forall key key' f g f',
    in_scope (f_lvl f) -> nonce_ok f -> encrypt E key f = Ok g ->
    in_scope (f_lvl f') -> nonce_ok f' -> sp_M (params f') = sp_M (params f) -> recv_mic f' = f_mic g ->
    status_of (decrypt E key' f') = true ->
    ccm_tag E (sp_M (params f)) (Lf f') key' (gen_nonce (patch f')) (hdr_raw (patch f'))
            (ccm_keystream_xor E (Lf f') key' (gen_nonce (patch f')) (recv_ct f'))
    = ccm_tag E (sp_M (params f)) (Lf f) key (gen_nonce (patch f)) (hdr_raw (patch f)) (plaintext_of f).
  Proof.
    intros key key' f g f' Hs Hok Hg Hs' Hok' HM Hmic Ha.
    apply (accept_iff_tag E key' f' Hs' Hok') in Ha. rewrite HM in Ha. rewrite <- Ha, Hmic.
    rewrite (encrypt_eq E key f Hs Hok) in Hg. injection Hg as <-.
    unfold restore. destruct (sp_patched (params f)); reflexivity.
  Qed.

  (** Network layer, all histories of PDUs (replays, reorderings, forged, unsecured ...):
      a secured frame reaches the data / management service only if NetworkLayerCryptoManager
      accepted it under a registered key with the announced sequence number; an unsecured one
      only if nwkSecureAllFrames is off (or it carries an application-layer security header). *)
  Theorem C17_nwk_no_unauthenticated_up :
    forall st ps, Forall2 (authentic_up E st) ps (fst (nwk_run E st ps)).
  Proof. exact (no_unauthenticated_up E). Qed.

  Theorem C17_nwk_up_has_valid_tag :
    forall st ps,
    Forall2 (fun p o => forall svc f', o = UpSecured svc f' ->
               exists f key, p = Secured f /\ In (f_kseq f, key) (keys_of st) /\
                 (in_scope (f_lvl f) -> nonce_ok f ->
                  recv_mic f = ccm_tag E (sp_M (params f)) (Lf f) key (gen_nonce (patch f)) (hdr_raw (patch f))
                                       (ccm_keystream_xor E (Lf f) key (gen_nonce (patch f)) (recv_ct f))
                  /\ f_data f' = ccm_keystream_xor E (Lf f) key (gen_nonce (patch f)) (recv_ct f)))
            ps (fst (nwk_run E st ps)).
  Proof.
    intros st ps. eapply Forall2_imp; [|apply no_unauthenticated_up].
    intros p o Ha svc f' ->. destruct Ha as (f & key & -> & _ & Hin & Hd & _).
    exists f, key. split; [reflexivity|]. split; [exact Hin|]. intros Hs Hn. split.
    - apply (accept_iff_tag E key f Hs Hn). rewrite Hd. reflexivity.
    - exact (accepted_payload E key f f' Hs Hn Hd).
  Qed.

  (** Freshness over histories of PDUs AND management operations (add_key of a new key, of an
      already provisioned key — ignored, whatever sequence number it announces —, switching
      nwkActiveKeySeqNumber, removing and re-adding a key), interleaved with frames, replays and
      reorderings.  With nwkAllFresh set and distinct keys in the material set: for every key K
      that the history never removes, the counters of the secured frames passed up under K for
      one sender strictly increase.  ([haccepted] lists (key of the selected material, sender,
      counter) of the frames passed up; induction over the history with the counter table of
      (K, sender) as invariant.) *)
  Theorem C17_nwk_strictly_fresh :
    forall hs items K,
    n_all_fresh (fst hs) = true -> NoDup (map m_key (n_mats (fst hs))) -> never_removes K items ->
    forall i j a c c', (i < j)%nat ->
    let evs := filter (fun ev => bytes_eqb (fst (fst ev)) K) (haccepted E hs items) in
    nth_error evs i = Some (K, a, c) -> nth_error evs j = Some (K, a, c') -> c < c'.
  Proof.
    intros hs items K Hf Hnd Hnr i j a c c' Hij evs Hi Hj.
    eapply (fresh_hist_k_strict (stored_k (fst hs))); try eassumption.
    apply haccepted_fresh; try assumption. reflexivity.
  Qed.

  (** the freshness table of a (key, sender) pair survives every management operation that does
      not remove that key; and the key set stays duplicate-free *)
  Theorem C17_nwk_mgmt_preserves_table :
    forall hs m K a, (forall K', m = RemoveKey K' -> K' <> K) -> m <> ClearKeys ->
    stored_k (fst (apply_mgmt hs m)) K a = stored_k (fst hs) K a.
  Proof. exact mgmt_preserves_table. Qed.

  Theorem C17_nwk_mgmt_preserves_nodup :
    forall hs m, NoDup (map m_key (n_mats (fst hs))) -> NoDup (map m_key (n_mats (fst (apply_mgmt hs m)))).
  Proof. exact mgmt_preserves_nodup. Qed.

  (** authentication over the same histories: whatever goes up was accepted under a key
      provisioned at that moment *)
  Theorem C17_nwk_no_unauthenticated_up_mgmt :
    forall items hs,
    Forall (fun x => match x with
                     | (HPdu p, pre, Some o) => authentic_up E (fst pre) p o
                     | _ => True
                     end) (htrace E hs items).
  Proof. exact (htrace_authentic E). Qed.

  (** frames-only histories, events keyed by the key sequence number *)
  Theorem C17_nwk_strictly_fresh_frames_only :
    forall st ps i j k a c c',
    n_all_fresh st = true -> (i < j)%nat ->
    nth_error (accepted E st ps) i = Some (k, a, c) ->
    nth_error (accepted E st ps) j = Some (k, a, c') -> c < c'.
  Proof. exact (nwk_strictly_fresh E). Qed.

  Theorem C17_nwk_fresh_wrt_stored :
    forall st ps k a c c0,
    n_all_fresh st = true -> In (k, a, c) (accepted E st ps) -> stored st k a = Some c0 -> c0 <= c.
  Proof.
    intros st ps k a c c0 Hf Hin Hs.
    eapply (fresh_hist_lower (stored st)); try eassumption.
    apply accepted_fresh_hist; [exact Hf|reflexivity].
  Qed.

  (** [accepted] is by definition the list of secured frames that [nwk_run] passes up. *)
  Theorem C17_accepted_spec :
    forall st ps, accepted E st ps = events_of (combine ps (fst (nwk_run E st ps))).
  Proof. exact (accepted_spec E). Qed.

  (** One manager INSTANCE used for a whole sequence of frames (mixed on-air level 0 and
      explicit levels, encrypt and decrypt): the attributes that persist between calls
      (patched, M, integrity, encryption, nonce, auth) are threaded explicitly in
      [encrypt_st]/[decrypt_st].  A call's result, and the state it leaves, do not depend on the
      state it finds; so in every history, from any initial state, call i returns exactly what a
      fresh instance returns for it — and every theorem above applies to each call. *)
  Theorem C17_instance_state_independent :
    forall key s s' c, do_call E key s c = do_call E key s' c.
  Proof.
    intros key s s' [f|f]; cbn [do_call];
      [rewrite (encrypt_st_indep E key s s')|rewrite (decrypt_st_indep E key s s')]; reflexivity.
  Qed.

  Theorem C17_instance_calls_stateless :
    forall key cs s, fst (run_calls E key s cs) = map (fresh_call E key) cs.
  Proof. exact (run_calls_stateless E). Qed.

  (** Truncation.  The MIC comparison has a length condition: acceptance forces the received MIC to
      have exactly M bytes, so a frame with fewer than M bytes after the security header — in
      particular none at all (no payload, no MIC) — is rejected under every key. *)
  Theorem C17_accepted_mic_length :
    forall key f, in_scope (f_lvl f) -> nonce_ok f ->
    status_of (decrypt E key f) = true -> length (recv_mic f) = sp_M (params f).
  Proof.
    intros key f Hs Hn Ha. apply (accept_iff_tag E key f Hs Hn) in Ha. rewrite Ha.
    apply (ccm_tag_length E E_length). apply (scope_params f Hs).
  Qed.

  Theorem C17_truncated_rejected :
    forall key f, in_scope (f_lvl f) -> nonce_ok f ->
    (length (f_data f) + length (f_mic f) < sp_M (params f))%nat -> status_of (decrypt E key f) = false.
  Proof.
    intros key f Hs Hn Hl. apply Bool.not_true_is_false. intros Ha.
    apply (C17_accepted_mic_length key f Hs Hn) in Ha.
    pose proof (recv_mic_le_trailer f Hs) as Hle. rewrite Ha in Hle.
    exact (Nat.lt_irrefl _ (Nat.le_lt_trans _ _ _ Hle Hl)).
  Qed.

  (** The network layer's receive step authenticates with the key of the material that the
      CURRENT nwkSecurityMaterialSet selects for the frame's sequence number (no key survives a
      replacement of the material: with C17_nwk_no_unauthenticated_up_mgmt over histories that
      replace the material under the same sequence number). *)
  Theorem C17_nwk_accepts_under_current_key :
    forall st f svc f' st',
    nwk_step E st (Secured f) = (UpSecured svc f', st') ->
    exists k m, kseq_of f = Some k /\ select k (n_mats st) = Some m /\ decrypt E (m_key m) f = Ok (f', true).
  Proof.
    intros st f svc f' st' H.
    destruct (nwk_step_cases E _ _ _ _ H) as [(g & g' & m & Hp & Ho & Hkt & Hsel & _ & Hd & _)|[_ []]].
    injection Hp as <-. injection Ho as _ <-. exists (f_kseq f), m.
    unfold kseq_of. rewrite Hkt. split; [reflexivity|]. split; assumption.
  Qed.

  (** A REJECTED decryption leaves the packet object as it was (every level, every key), so one
      frame object can be tried under a ring of keys (ZigbeeDecryptor, the candidate keys of
      APSManager.decrypt): a wrong key tried first does not change what the right key yields. *)
  Theorem C17_decrypt_reject_unchanged :
    forall key f g, decrypt E key f = Ok (g, false) -> g = f.
  Proof. exact (decrypt_reject_unchanged E). Qed.

  Theorem C17_ring_decrypt_object_independent :
    forall keys f, ring_decrypt E keys f = ring_decrypt_pure E keys f.
  Proof. exact (ring_decrypt_pure_eq E). Qed.

  Theorem C17_ring_wrong_key_first :
    forall wrong key f g,
    status_of (decrypt E wrong f) = false -> (exists r b, decrypt E wrong f = Ok (r, b)) ->
    decrypt E key f = Ok (g, true) -> ring_decrypt E [wrong; key] f = Ok (Some g).
  Proof.
    intros wrong key f g Hs (r & b & Hd) Hk. rewrite (ring_decrypt_pure_eq E). cbn [ring_decrypt_pure].
    rewrite Hd in *. cbn [status_of] in Hs. subst b. rewrite Hk. reflexivity.
  Qed.

  (** ------------------------------------------------------------------------------------
      EXTENSIONS of the model beyond the property's quantifier ("security levels 5..7 and the
      on-air level-0 convention").  Not obligations of C17; kept apart and prefixed [C17_ext_].
      ------------------------------------------------------------------------------------ *)

  (** Levels 1-3 (MIC-32/64/128, payload in clear) — the code after the repair of these
      levels.  Inverse: encrypt leaves the payload in clear, and decrypt accepts the result
      (packet object = re-dissected bytes) and returns the frame with its payload. *)
  Theorem C17_ext_mic_only_decrypt_encrypt :
    forall key f, mic_scope (f_lvl f) -> f_ext f = true -> length (f_src f) = 8%nat ->
    exists g, encrypt E key f = Ok g /\ f_data g = f_data f
      /\ (exists m, decrypt E key g = Ok (set_mic m f, true))
      /\ redissect g = g.
  Proof. exact (decrypt_encrypt_mic E E_length). Qed.

  (** accepted iff the last M bytes of the frame are the CCM tag of header ‖ payload with an
      empty message (the message moved into the authenticated data, as CCM* specifies) *)
  Theorem C17_ext_mic_only_accept_iff_tag :
    forall key f, mic_scope (f_lvl f) -> (7 <= length (gen_nonce f))%nat ->
    status_of (decrypt E key f) = true <->
    recv_mic_only f = ccm_tag E (sp_M (params f)) (15 - length (gen_nonce f)) key (gen_nonce f) (hdr_raw f ++ f_data f) [].
  Proof. exact (accept_iff_tag_mic E). Qed.

  Theorem C17_ext_mic_only_is_ccmstar :
    forall key f, mic_scope (f_lvl f) -> (7 <= length (gen_nonce f))%nat ->
    status_of (decrypt E key f) = true <->
    ccmstar_unprotect E false (sp_M (params f)) (15 - length (gen_nonce f)) key (gen_nonce f)
                      (hdr_raw f) (f_data f) (recv_mic_only f) = Some (f_data f).
  Proof.
    intros key f Hs Hn. rewrite (accept_iff_tag_mic E key f Hs Hn), ccmstar_mic_only_iff_tag. tauto.
  Qed.

  (** CCM* itself (CcmStar.v), every level: inverse; MIC-only characterisation *)
  Theorem C17_ext_ccmstar_inverse :
    forall enc M L key nonce a m,
    ccmstar_unprotect E enc M L key nonce a (fst (ccmstar_protect E enc M L key nonce a m))
                      (snd (ccmstar_protect E enc M L key nonce a m)) = Some m.
  Proof. exact (ccmstar_unprotect_protect E E_length). Qed.

  Theorem C17_ext_ccmstar_mic_only_iff_tag :
    forall M L key nonce a c t m,
    ccmstar_unprotect E false M L key nonce a c t = Some m <->
    (m = c /\ t = ccm_tag E M L key nonce (a ++ c) []).
  Proof. exact (ccmstar_mic_only_iff_tag E). Qed.

  (** Level 4 (encryption only) of CCM* is NOT authenticated: every ciphertext, under any
      header and with any MIC field, is accepted; and it is malleable.  (That is why the
      property restricts itself to integrity-providing levels.) *)
  Theorem C17_ext_ccmstar_level4_not_authenticated :
    forall L key nonce a a' c t t',
    ccmstar_unprotect E true 0 L key nonce a c t = Some (ccm_keystream_xor E L key nonce c)
    /\ ccmstar_unprotect E true 0 L key nonce a c t = ccmstar_unprotect E true 0 L key nonce a' c t'.
  Proof. exact (ccmstar_level4_not_authenticated E). Qed.

  Theorem C17_ext_ccmstar_level4_malleable :
    forall L key nonce a c d t, length d = length c ->
    ccmstar_unprotect E true 0 L key nonce a (xor_bytes c d) t
    = option_map (fun p => xor_bytes p d) (ccmstar_unprotect E true 0 L key nonce a c t).
  Proof using E E_length. exact (ccmstar_level4_malleable E). Qed.

  (** What the CODE does at level 4: it does not implement it — AES.new(mac_len=0) raises
      ValueError in encrypt and in decrypt for every key and frame (so nothing unauthenticated
      is ever accepted at that level, and no inverse exists). *)
  Theorem C17_ext_level4_unsupported :
    forall key f, f_lvl f = 4 ->
    encrypt E key f = Raise "ValueError"%string /\ decrypt E key f = Raise "ValueError"%string.
  Proof. exact (level4_unsupported E). Qed.

  (** Frames WITHOUT the extended-nonce flag: generateNonce takes raw(security header)[5:13],
      i.e. key sequence number (if present), payload and MIC bytes, as the "source". *)
  Theorem C17_ext_nonce_without_extended_source :
    forall f, f_ext f = false ->
    gen_nonce f = firstn 8 ((if f_kt f =? 1 then [f_kseq f] else []) ++ f_data f ++ f_mic f)
                  ++ le32 (f_fc f) ++ [ctrl_byte f].
  Proof. exact gen_nonce_no_ext. Qed.

  (** APSManager.decrypt / on_nlde_data: a secured APS frame goes up only if
      ApplicationSubLayerCryptoManager accepted it under a key of apsDeviceKeyPairSet
      (hash_key input chosen by the key identifier) ... *)
  Theorem C17_ext_aps_up_authentic :
    forall st p svc f', aps_step E st p = AUpSecured svc f' ->
    exists f kp inp, p = ApsSecured f /\ In kp (a_kps st) /\ aps_input (f_kt f) = Some inp
                     /\ decrypt E (aps_key E (kp_key kp) inp) f = Ok (f', true).
  Proof. exact (aps_up_authentic E). Qed.

  (** ... and OBSERVATION: the APS receive path keeps no counter (incoming_frame_counter of the
      key pairs is never read or written), so after any history a frame that is accepted is
      accepted again, with the same result, when replayed.  Not a finding: the freshness
      sentence of the property is about the network layer. *)
  Theorem C17_ext_aps_no_freshness :
    forall st before f o, aps_step E st (ApsSecured f) = o ->
    aps_run E st (before ++ [ApsSecured f; ApsSecured f]) = aps_run E st before ++ [o; o].
  Proof. intros st before f o <-. unfold aps_run. rewrite map_app. reflexivity. Qed.
End C17.

(** KNOWN FINDING aps-data-request-secured-raises.  FULL STATEMENT for the application-layer
    data request (refuted by the faithful model): the stack's secured APSDE-DATA request
    yields an encrypted frame. *)
Definition C17_aps_data_request_secured_statement : Prop :=
  forall E key fc src asdu, exists g, aps_data_request_secured E key fc src asdu = Ok g.

Theorem C17_aps_data_request_secured_refuted :
  forall E, exists key fc src asdu, aps_data_request_secured E key fc src asdu = Raise "IndexError"%string.
Proof. intros E. exists [], 0, [], []. apply aps_data_request_secured_always_raises. Qed.

(** The part that holds: for every packet that HAS the manager's base layer below the
    security header (everything the network layer and transport_key build, and every
    dissected frame) the call is [encrypt], to which C17_decrypt_encrypt applies. *)
Theorem C17_encrypt_packet_partial :
  forall E key f, encrypt_packet E true key f = encrypt E key f.
Proof. reflexivity. Qed.

(** The defect that was repaired (kept as a statement about the pre-repair transcription
    [gen_auth_replace]): with E = AES-128 the code rejected a frame it had just encrypted. *)
Theorem C17_pre_repair_round_trip_refuted :
  exists key f, f_lvl f = 5 /\ f_ext f = true /\ length (f_src f) = 8%nat /\
    exists g, encrypt_old aes128_enc key f = Ok g /\
              status_of (decrypt_old aes128_enc key (redissect g)) = false.
Proof.
  exists witness_key, (witness_frame 5 true [0x00]). repeat (split; [reflexivity|]).
  eexists. split; [vm_compute; reflexivity|]. vm_compute. reflexivity.
Qed.

(** EXTENSION, second repair (integrity-only levels): before it, the level-1 payload 11 left
    encrypt as ciphertext and the frame was rejected by decrypt. *)
Theorem C17_ext_pre_repair_mic_only_refuted :
  exists key f, f_lvl f = 1 /\ f_ext f = true /\ length (f_src f) = 8%nat /\
    exists g, encrypt_v1 aes128_enc key f = Ok g /\ f_data g <> f_data f /\
              status_of (decrypt_v1 aes128_enc key (redissect g)) = false.
Proof.
  exists witness_key, (witness_frame 1 true [0x11]). repeat (split; [reflexivity|]).
  eexists. split; [vm_compute; reflexivity|]. split; vm_compute; [discriminate|reflexivity].
Qed.

(** EXTENSION, KNOWN FINDING no-extended-nonce-source-from-payload.  FULL STATEMENT of the
    inverse without the extended-nonce hypothesis (refuted by the faithful model; the part that
    holds is C17_decrypt_encrypt, whose hypothesis [f_ext f = true] is exactly the complement). *)
Definition C17_ext_decrypt_encrypt_any_nonce_statement : Prop :=
  forall E key f, in_scope (f_lvl f) ->
  exists g, encrypt E key f = Ok g /\ status_of (decrypt E key (redissect g)) = true.

Theorem C17_ext_no_extended_nonce_round_trip_refuted :
  exists key f, f_lvl f = 5 /\ f_ext f = false /\
    exists g, encrypt aes128_enc key f = Ok g /\
              status_of (decrypt aes128_enc key (redissect g)) = false.
Proof.
  exists witness_key, (witness_frame 5 false [0x00;0x11;0x22;0x33;0x44;0x55;0x66;0x77]).
  repeat (split; [reflexivity|]). eexists. split; [vm_compute; reflexivity|]. vm_compute. reflexivity.
Qed.

(** Non-vacuity (E = AES-128): the same witness round-trips with the repaired code, a one-bit
    change of its header is rejected, and a replay is dropped by the network layer. *)
Example C17_nonvacuous :
  in_scope 5 /\ mic_scope 1 /\ length (f_src (witness_frame 5 true [0x00])) = 8%nat /\
  (exists g1, encrypt aes128_enc witness_key (witness_frame 1 true [0x11]) = Ok g1 /\ f_data g1 = [0x11] /\
     status_of (decrypt aes128_enc witness_key (redissect g1)) = true) /\
  exists g, encrypt aes128_enc witness_key (witness_frame 5 true [0x00]) = Ok g /\
    status_of (decrypt aes128_enc witness_key (redissect g)) = true /\
    status_of (decrypt aes128_enc witness_key (set_lvl 5 (mkFrame [0x48;0x02;0x00;0x00;0x8a;0x5c;0x1e;0x5c] 0 1 5 0xe1 true
                 (f_src g) 1 (f_data g) (f_mic g)))) = false /\
    map (fun o => match o with UpSecured _ _ => true | _ => false end)
        (fst (nwk_run aes128_enc nv_state [Secured g; Secured g])) = [true; false] /\
    accepted aes128_enc nv_state [Secured g; Secured g] = [(1, f_src g, 0xe1)].
Proof.
  split; [right; left; reflexivity|]. split; [left; reflexivity|]. split; [reflexivity|].
  (* The witnesses meet the hypotheses of the two round-trip theorems, which give the accepted
     decryptions; evaluated with AES are only the level-5 ciphertext [g] (the conjuncts after it evaluate
     [select], [stale] and the events on [g]'s fields, so [g] has to be a literal frame) and the
     frame with the changed header. *)
  split.
  - destruct (C17_ext_mic_only_decrypt_encrypt aes128_enc aes128_enc_length witness_key (witness_frame 1 true [0x11]))
      as (g1 & Hg & Hdata & [m Hd] & Hre); [left; reflexivity|reflexivity|reflexivity|].
    exists g1. rewrite Hre, Hd. split; [exact Hg|]. split; [exact Hdata|reflexivity].
  - destruct (C17_decrypt_encrypt aes128_enc aes128_enc_length witness_key (witness_frame 5 true [0x00]))
      as (g & Hg & [m0 Hd0] & [m Hd]); [right; left; reflexivity|reflexivity|reflexivity|].
    eassert (Hlit : encrypt aes128_enc witness_key (witness_frame 5 true [0x00]) = Ok _) by (vm_compute; reflexivity).
    rewrite Hlit in Hg. injection Hg as <-.
    eexists. split; [exact Hlit|]. split; [rewrite Hd; reflexivity|].
    split; [vm_compute; reflexivity|].
    (* the network layer: the first copy decrypts ([Hd0]), the second meets the counter it stored *)
    cbn [nwk_run accepted].
    erewrite nwk_step_accept; [|reflexivity..|exact Hd0]. cbv beta iota.
    erewrite nwk_step_stale; [|reflexivity..].
    split; reflexivity.
Qed.
