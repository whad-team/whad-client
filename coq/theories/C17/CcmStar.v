(** C17 — CCM* (IEEE 802.15.4 Annex B / Zigbee security levels) on top of Lib/Ccm.

    CCM* extends CCM by two families of levels:
    - integrity only (MIC-32/64/128, Zigbee levels 1-3): the message is moved into the
      authenticated data, nothing is encrypted, the output is the message in clear and the tag
      of [a ++ m] with an empty CCM message;
    - encryption only (ENC, Zigbee level 4): CTR-mode encryption, no tag at all.
    The other levels (ENC-MIC-32/64/128, Zigbee 5-7) are plain CCM.

    This file is an EXTENSION of the C17 model beyond the property's quantifier (levels 5..7 and
    the on-air level 0): specification-level definitions and their theorems, for an arbitrary
    block function [E] with 16-byte outputs.  No axioms. *)
From Coq Require Import List NArith Arith Bool.
From Whad Require Import Lib.Bytes Lib.Xor Lib.Ccm.
Import ListNotations.

Lemma xor_bytes_swap a : forall b c, xor_bytes (xor_bytes a b) c = xor_bytes (xor_bytes a c) b.
Proof.
  induction a as [|x a IH]; intros [|y b] [|z c]; cbn [xor_bytes]; try reflexivity.
  f_equal; [|apply IH]. rewrite !N.lxor_assoc. f_equal. apply N.lxor_comm.
Qed.

Section CCMStar.
  Variable E : bytes -> bytes -> bytes.
  Hypothesis E_length : forall k b, length (E k b) = 16.

  (** [enc] = the level encrypts, [M] = MIC length (0 = no MIC).
      Result: (what replaces the message on the wire, MIC) *)
  Definition ccmstar_protect (enc : bool) (M L : nat) (key nonce a m : bytes) : bytes * bytes :=
    if enc then
      match M with
      | O => (ccm_keystream_xor E L key nonce m, [])
      | _ => ccm_encrypt E M L key nonce a m
      end
    else (m, ccm_tag E M L key nonce (a ++ m) []).

  (** [None] = rejected *)
  Definition ccmstar_unprotect (enc : bool) (M L : nat) (key nonce a c t : bytes) : option bytes :=
    if enc then
      match M with
      | O => Some (ccm_keystream_xor E L key nonce c)
      | _ => ccm_decrypt E M L key nonce a c t
      end
    else if bytes_eqb t (ccm_tag E M L key nonce (a ++ c) []) then Some c else None.

  Lemma ccm_keystream_xor_nil L key nonce : ccm_keystream_xor E L key nonce [] = [].
  Proof. reflexivity. Qed.

  Lemma ccmstar_mic_only_is_ccm M L key nonce a m :
    snd (ccmstar_protect false M L key nonce a m) = snd (ccm_encrypt E M L key nonce (a ++ m) []).
  Proof. reflexivity. Qed.

  Lemma ccmstar_mic_only_unprotect_is_ccm M L key nonce a c t :
    ccmstar_unprotect false M L key nonce a c t
    = match ccm_decrypt E M L key nonce (a ++ c) [] t with Some _ => Some c | None => None end.
  Proof.
    unfold ccmstar_unprotect, ccm_decrypt. rewrite ccm_keystream_xor_nil.
    destruct (bytes_eqb t _); reflexivity.
  Qed.

  Theorem ccmstar_unprotect_protect : forall enc M L key nonce a m,
    ccmstar_unprotect enc M L key nonce a (fst (ccmstar_protect enc M L key nonce a m))
                      (snd (ccmstar_protect enc M L key nonce a m)) = Some m.
  Proof.
    intros enc M L key nonce a m. unfold ccmstar_protect, ccmstar_unprotect.
    destruct enc.
    - destruct M as [|M'].
      + cbn [fst snd]. rewrite (ccm_keystream_xor_involutive E E_length). reflexivity.
      + apply (ccm_decrypt_encrypt_gen E E_length).
    - cbn [fst snd]. rewrite bytes_eqb_refl. reflexivity.
  Qed.

  Theorem ccmstar_mic_only_iff_tag : forall M L key nonce a c t m,
    ccmstar_unprotect false M L key nonce a c t = Some m <->
    (m = c /\ t = ccm_tag E M L key nonce (a ++ c) []).
  Proof.
    intros. unfold ccmstar_unprotect. rewrite <- (bytes_eqb_eq t).
    destruct (bytes_eqb t _).
    - split.
      + intros H. injection H as <-. split; reflexivity.
      + intros [-> _]. reflexivity.
    - split; [discriminate|]. intros [_ H]. discriminate H.
  Qed.

  Theorem ccmstar_enc_mic_iff_tag : forall M L key nonce a c t m,
    ccmstar_unprotect true (S M) L key nonce a c t = Some m <->
    (m = ccm_keystream_xor E L key nonce c /\ t = ccm_tag E (S M) L key nonce a m).
  Proof. intros. apply ccm_decrypt_iff_tag. Qed.

  (** encryption-only level: NOT authenticated — every ciphertext, with any (ignored) MIC
      field and any header, is accepted *)
  Theorem ccmstar_level4_not_authenticated : forall L key nonce a a' c t t',
    ccmstar_unprotect true 0 L key nonce a c t = Some (ccm_keystream_xor E L key nonce c)
    /\ ccmstar_unprotect true 0 L key nonce a c t = ccmstar_unprotect true 0 L key nonce a' c t'.
  Proof. intros. split; reflexivity. Qed.

  (** ... and it is malleable: flipping ciphertext bits flips the same plaintext bits.  The
      keystream depends on the ciphertext through its length only, and xor-ing with two strings
      can be done in either order. *)
  Theorem ccmstar_level4_malleable : forall L key nonce a c d t,
    length d = length c ->
    ccmstar_unprotect true 0 L key nonce a (xor_bytes c d) t
    = option_map (fun p => xor_bytes p d) (ccmstar_unprotect true 0 L key nonce a c t).
  Proof.
    intros L key nonce a c d t Hl. unfold ccmstar_unprotect. cbn [option_map]. f_equal.
    unfold ccm_keystream_xor. rewrite xor_bytes_length, Hl, Nat.min_id. apply xor_bytes_swap.
  Qed.
End CCMStar.
