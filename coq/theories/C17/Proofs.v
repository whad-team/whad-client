(** C17 — lemmas about the model (Model.v); the theorems of the property are listed in Property.v. *)
From Coq Require Import String.
From Coq Require Import List NArith Arith Bool Lia.
From Whad Require Import Lib.Lists Lib.Bytes Lib.PyOps Lib.Xor Lib.Ccm C17.Model C17.CcmStar.
Import ListNotations.
Local Open Scope N_scope.

Lemma py_drop_last_app (a b : bytes) n : length b = n -> n <> 0%nat -> py_drop_last n (a ++ b) = a.
Proof.
  intros <- H. unfold py_drop_last. destruct (length b) eqn:Eb; [contradiction|].
  rewrite app_length, Eb, Nat.add_sub. apply firstn_app_exact. reflexivity.
Qed.

Lemma py_take_last_app (a b : bytes) n : length b = n -> n <> 0%nat -> py_take_last n (a ++ b) = b.
Proof.
  intros <- H. unfold py_take_last. destruct (length b) eqn:Eb; [contradiction|].
  rewrite app_length, Eb, Nat.add_sub. apply skipn_app_exact. reflexivity.
Qed.

Lemma py_take_last_length n (l : bytes) : (length (py_take_last n l) <= length l)%nat.
Proof. unfold py_take_last. destruct n; [lia|]. rewrite skipn_length. lia. Qed.

Lemma raw_base_split f : raw_base f = hdr_raw f ++ f_data f ++ f_mic f.
Proof. unfold raw_base, hdr_raw, sec_raw. rewrite !app_assoc. reflexivity. Qed.

Lemma gen_auth_mic_only sp f : sp_enc sp = false -> gen_auth sp f = hdr_raw f ++ f_data f.
Proof.
  intros H. unfold gen_auth. rewrite H, raw_base_split, app_assoc, app_length, Nat.add_sub.
  apply firstn_app_exact. reflexivity.
Qed.

Lemma gen_auth_enc sp f : sp_enc sp = true -> gen_auth sp f = hdr_raw f.
Proof.
  intros H. unfold gen_auth. rewrite H, raw_base_split, !app_length, <- Nat.sub_add_distr, Nat.add_sub.
  apply firstn_app_exact. reflexivity.
Qed.

Lemma gen_nonce_src f : f_ext f = true -> length (f_src f) = 8%nat -> gen_nonce f = nonce_of f.
Proof.
  intros He H. unfold gen_nonce, nonce_of. f_equal.
  unfold slice, sec_raw, sec_fixed, le32. rewrite He. cbn [app skipn Nat.sub].
  rewrite <- !app_assoc. rewrite <- H. apply firstn_app_exact. reflexivity.
Qed.

(** WITHOUT the extended-nonce flag the "source" part of the nonce is whatever follows the
    frame counter: key sequence number (if any), then payload and MIC bytes *)
Lemma gen_nonce_no_ext f : f_ext f = false ->
  gen_nonce f = firstn 8 ((if f_kt f =? 1 then [f_kseq f] else []) ++ f_data f ++ f_mic f)
                ++ le32 (f_fc f) ++ [ctrl_byte f].
Proof.
  intros He. unfold gen_nonce. f_equal.
  unfold slice, sec_raw, sec_fixed, le32. rewrite He. cbn [app skipn Nat.sub].
  rewrite <- ?app_assoc. reflexivity.
Qed.

Lemma nonce_of_length f : length (f_src f) = 8%nat -> length (nonce_of f) = 13%nat.
Proof. intros H. unfold nonce_of. rewrite !app_length, H. reflexivity. Qed.

Lemma gen_nonce_set c t f : f_ext f = true -> length (f_src f) = 8%nat ->
  gen_nonce (set_mic t (set_data c f)) = gen_nonce f.
Proof. intros He Hs. rewrite !gen_nonce_src by assumption. reflexivity. Qed.

Lemma le32_inj n n' : n < 4294967296 -> n' < 4294967296 -> le32 n = le32 n' -> n = n'.
Proof. apply PyOps.le32_inj. Qed.

Lemma ctrl_byte_inj f f' :
  f_lvl f < 8 -> f_kt f < 4 -> f_res f < 4 -> f_lvl f' < 8 -> f_kt f' < 4 -> f_res f' < 4 ->
  ctrl_byte f = ctrl_byte f' -> f_lvl f = f_lvl f' /\ f_kt f = f_kt f' /\ f_res f = f_res f' /\ f_ext f = f_ext f'.
Proof. unfold ctrl_byte. destruct (f_ext f), (f_ext f'); intros; repeat split; try reflexivity; lia. Qed.

Lemma formatting_injective M f f' pt pt' :
  length (f_src f) = 8%nat -> length (f_src f') = 8%nat ->
  N.of_nat (length pt) < 65536 -> N.of_nat (length pt') < 65536 ->
  N.of_nat (length (hdr_raw f)) < 65536 -> N.of_nat (length (hdr_raw f')) < 65536 ->
  ccm_auth_blocks M 2 (nonce_of f) (hdr_raw f) pt = ccm_auth_blocks M 2 (nonce_of f') (hdr_raw f') pt' ->
  f_src f = f_src f' /\ le32 (f_fc f) = le32 (f_fc f') /\ ctrl_byte f = ctrl_byte f'
  /\ hdr_raw f = hdr_raw f' /\ pt = pt'.
Proof.
  intros Hs Hs' Hp Hp' Hh Hh' H.
  apply ccm_auth_blocks_injective in H; try assumption; try lia.
  - destruct H as (Hn & Ha & Hm). unfold nonce_of in Hn.
    apply app_inj_length in Hn; [|lia]. destruct Hn as [H1 H2].
    apply app_inj_length in H2; [|reflexivity]. destruct H2 as [H2 H3].
    injection H3 as H3. repeat split; assumption.
  - rewrite !nonce_of_length by assumption. reflexivity.
Qed.

Lemma csl_eq f : check_security_level f = (patch f, params f).
Proof. unfold patch, params. destruct (check_security_level f). reflexivity. Qed.

Lemma scope_params f : in_scope (f_lvl f) ->
  sp_enc (params f) = true /\ (exists m, sp_M (params f) = S m) /\ (sp_M (params f) <= 16)%nat
  /\ sp_patched (params f) = (f_lvl f =? 0)
  /\ patch f = (if f_lvl f =? 0 then set_lvl 5 f else f)
  /\ sp_M (params f) = (if f_lvl f =? 0 then 4%nat else level_M (f_lvl f)).
Proof.
  unfold params, patch, check_security_level.
  intros [H|[H|[H|H]]]; rewrite H; cbn; repeat split; eauto; lia.
Qed.

Lemma mic_scope_params f : mic_scope (f_lvl f) ->
  sp_enc (params f) = false /\ (exists m, sp_M (params f) = S m) /\ (sp_M (params f) <= 16)%nat
  /\ sp_patched (params f) = false /\ patch f = f /\ sp_M (params f) = level_M (f_lvl f).
Proof.
  unfold params, patch, check_security_level.
  intros [H|[H|H]]; rewrite H; cbn; repeat split; eauto; lia.
Qed.

Lemma patch_src f : f_src (patch f) = f_src f.
Proof. unfold patch, check_security_level. destruct (f_lvl f =? 0); reflexivity. Qed.

Lemma patch_ext f : f_ext (patch f) = f_ext f.
Proof. unfold patch, check_security_level. destruct (f_lvl f =? 0); reflexivity. Qed.

Lemma params_set_mic t f : params (set_mic t f) = params f.
Proof. unfold params, check_security_level. cbn [f_lvl set_mic]. destruct (f_lvl f =? 0); reflexivity. Qed.

Lemma restore_patch f : restore (params f) (patch f) = f.
Proof.
  unfold params, patch, check_security_level, restore.
  destruct (N.eqb_spec (f_lvl f) 0) as [H0|H0]; cbn [fst snd sp_patched]; [|reflexivity].
  destruct f; cbn in *; subst; reflexivity.
Qed.

(** AES.new accepts the nonce (7..13 bytes) *)
Definition nonce_ok (f : frame) : Prop := (7 <= length (gen_nonce (patch f)))%nat.

Lemma nonce_length_ext f : f_ext f = true -> length (f_src f) = 8%nat ->
  length (gen_nonce (patch f)) = 13%nat.
Proof.
  intros He Hs. rewrite gen_nonce_src, nonce_of_length; rewrite ?patch_ext, ?patch_src; auto.
Qed.

Lemma nonce_ok_ext f : f_ext f = true -> length (f_src f) = 8%nat -> nonce_ok f /\ Lf f = 2%nat.
Proof.
  intros He Hs. unfold nonce_ok, Lf. fold (patch f). rewrite (nonce_length_ext f He Hs).
  split; [lia|reflexivity].
Qed.

(** the plaintext that encrypt takes from the patched frame *)
Lemma plaintext_of_patch f :
  (if mic_absent_patched (params f) (patch f) then py_drop_last (sp_M (params f)) (f_data (patch f))
   else f_data (patch f)) = plaintext_of f.
Proof.
  unfold plaintext_of, mic_absent_patched, params, patch, check_security_level.
  destruct (f_lvl f =? 0); cbn [fst snd sp_patched sp_M andb f_data f_mic set_lvl];
    rewrite ?andb_true_r, ?andb_false_r; reflexivity.
Qed.

Section Crypt.
  Variable E : bytes -> bytes -> bytes.

  Lemma encrypt_eq key f : in_scope (f_lvl f) -> nonce_ok f ->
    encrypt E key f =
    Ok (restore (params f)
          (set_mic (ccm_tag E (sp_M (params f)) (Lf f) key (gen_nonce (patch f)) (hdr_raw (patch f)) (plaintext_of f))
             (set_data (ccm_keystream_xor E (Lf f) key (gen_nonce (patch f)) (plaintext_of f)) (patch f)))).
  Proof.
    intros Hs Hn. destruct (scope_params f Hs) as (Henc & [m Hm] & _).
    unfold encrypt, encrypt_with. rewrite csl_eq, (gen_auth_enc _ _ Henc).
    rewrite <- (plaintext_of_patch f), Hm, (proj2 (Nat.ltb_ge _ _) Hn), Henc. reflexivity.
  Qed.

  Lemma decrypt_eq key f : in_scope (f_lvl f) -> nonce_ok f ->
    decrypt E key f =
    match ccm_decrypt E (sp_M (params f)) (Lf f) key (gen_nonce (patch f)) (hdr_raw (patch f)) (recv_ct f) (recv_mic f) with
    | Some pt => Ok (restore (params f)
                       (set_mic (generate_mic E gen_auth (params f) key (gen_nonce (patch f)) (set_data pt (patch f)))
                                (set_data pt (patch f))), true)
    | None => Ok (f, false)
    end.
  Proof.
    intros Hs Hn. destruct (scope_params f Hs) as (Henc & [m Hm] & _).
    unfold decrypt, decrypt_with, recv_ct, recv_mic. rewrite csl_eq, (gen_auth_enc _ _ Henc).
    destruct (extract (params f) (patch f)) as [ct mic].
    rewrite Hm, (proj2 (Nat.ltb_ge _ _) Hn), Henc, restore_patch. reflexivity.
  Qed.

  Lemma accept_iff_tag key f : in_scope (f_lvl f) -> nonce_ok f ->
    status_of (decrypt E key f) = true <->
    recv_mic f = ccm_tag E (sp_M (params f)) (Lf f) key (gen_nonce (patch f)) (hdr_raw (patch f))
                         (ccm_keystream_xor E (Lf f) key (gen_nonce (patch f)) (recv_ct f)).
  Proof.
    intros Hs Hn. rewrite (decrypt_eq key f Hs Hn).
    destruct (ccm_decrypt E _ _ key _ _ (recv_ct f) (recv_mic f)) as [pt|] eqn:Ed.
    - apply ccm_decrypt_iff_tag in Ed. destruct Ed as [-> Ht]. cbn [status_of]. split; [intros _; exact Ht|reflexivity].
    - apply ccm_decrypt_none_iff in Ed. cbn [status_of]. split; [discriminate|intros H; contradiction].
  Qed.

  Lemma accepted_payload key f r : in_scope (f_lvl f) -> nonce_ok f ->
    decrypt E key f = Ok (r, true) ->
    f_data r = ccm_keystream_xor E (Lf f) key (gen_nonce (patch f)) (recv_ct f).
  Proof.
    intros Hs Hn. rewrite (decrypt_eq key f Hs Hn).
    destruct (ccm_decrypt E _ _ key _ _ (recv_ct f) (recv_mic f)) as [pt|] eqn:Ed; [|discriminate].
    apply ccm_decrypt_iff_tag in Ed. destruct Ed as [-> _].
    intros H. injection H as <-. unfold restore. destruct (sp_patched (params f)); reflexivity.
  Qed.

  Lemma recv_mic_le_trailer f : in_scope (f_lvl f) ->
    (length (recv_mic f) <= length (f_data f) + length (f_mic f))%nat.
  Proof.
    intros Hs. destruct (scope_params f Hs) as (Henc & _ & _ & _ & Hp & _).
    unfold recv_mic, extract. rewrite Henc, Hp.
    pose proof (py_take_last_length (sp_M (params f)) (f_data f)).
    destruct (f_lvl f =? 0), (mic_absent_patched _ _); cbn [snd f_data f_mic set_lvl]; lia.
  Qed.

  (** ** EXTENSION: level 4 (encryption only).  The code does not implement it: AES.new(mac_len=0)
      raises ValueError in encrypt and in decrypt, for every frame and key.  (The CCM* level-4
      transform itself and its lack of authentication are in CcmStar.v.) *)
  Lemma level4_unsupported key f : f_lvl f = 4 ->
    encrypt E key f = Raise "ValueError"%string /\ decrypt E key f = Raise "ValueError"%string.
  Proof.
    intros H. unfold encrypt, decrypt, encrypt_with, decrypt_with, check_security_level.
    rewrite H. cbn [N.eqb Pos.eqb level_int negb andb sp_M]. split; [reflexivity|].
    destruct (extract _ _). reflexivity.
  Qed.

  Lemma csl_restore f t c :
    check_security_level (restore (params f) (set_mic t (set_data c (patch f))))
    = (set_mic t (set_data c (patch f)), params f).
  Proof.
    destruct f as [pre res kt lvl fc ext src kseq data mic].
    unfold params, patch, restore, check_security_level. cbn [f_lvl].
    destruct (N.eqb_spec lvl 0) as [->|H0]; cbn; [reflexivity|].
    rewrite (proj2 (N.eqb_neq _ _) H0). reflexivity.
  Qed.

  Lemma restore_result f t c m p :
    restore (params f) (set_mic m (set_data p (set_mic t (set_data c (patch f))))) = set_mic m (set_data p f).
  Proof.
    destruct f as [pre res kt lvl fc ext src kseq data mic].
    unfold params, patch, restore, check_security_level. cbn [f_lvl].
    destruct (N.eqb_spec lvl 0) as [->|H0]; reflexivity.
  Qed.

  Lemma redissect_id f : length (f_mic f) = level_M (f_lvl f) -> level_M (f_lvl f) <> 0%nat -> redissect f = f.
  Proof.
    intros Hl Hne. unfold redissect. destruct (level_M (f_lvl f)); [contradiction|].
    rewrite (py_drop_last_app _ _ _ Hl Hne), (py_take_last_app _ _ _ Hl Hne). destruct f; reflexivity.
  Qed.

  (** what scapy's dissection of the bytes of an encrypted frame looks like *)
  Lemma redissect_encrypted f t c : in_scope (f_lvl f) -> length t = sp_M (params f) ->
    redissect (restore (params f) (set_mic t (set_data c (patch f)))) =
    if f_lvl f =? 0 then restore (params f) (set_mic [] (set_data (c ++ t) (patch f)))
    else restore (params f) (set_mic t (set_data c (patch f))).
  Proof.
    intros Hs Ht. destruct (scope_params f Hs) as (_ & [m Hm] & _ & Hpat & Hp & HM).
    unfold restore. rewrite Hpat, Hp. destruct (N.eqb_spec (f_lvl f) 0) as [H0|H0].
    - unfold redissect. cbn [f_lvl set_lvl set_mic set_data level_M N.eqb orb f_data f_mic]. reflexivity.
    - apply redissect_id; cbn [f_mic f_lvl set_mic set_data]; rewrite <- HM; [exact Ht|rewrite Hm; discriminate].
  Qed.

  Hypothesis E_length : forall k b, length (E k b) = 16%nat.

  (** [c], [t]: the data and mic fields, in whichever of the two conventions; with the source on
      the wire, nonce and header are those of the encrypt side *)
  Lemma decrypt_of_encrypted key f c t : in_scope (f_lvl f) -> f_ext f = true -> length (f_src f) = 8%nat ->
    extract (params f) (set_mic t (set_data c (patch f)))
    = ccm_encrypt E (sp_M (params f)) 2 key (gen_nonce (patch f)) (hdr_raw (patch f)) (plaintext_of f) ->
    exists m, decrypt E key (restore (params f) (set_mic t (set_data c (patch f))))
              = Ok (set_mic m (set_data (plaintext_of f) f), true).
  Proof.
    intros Hs Hext Hsrc Hx. destruct (scope_params f Hs) as (Henc & [m0 Hm] & _).
    unfold decrypt, decrypt_with. rewrite (csl_restore f t c), (gen_auth_enc _ _ Henc), Hx.
    rewrite gen_nonce_set by (rewrite ?patch_ext, ?patch_src; assumption).
    change (hdr_raw (set_mic t (set_data c (patch f)))) with (hdr_raw (patch f)).
    rewrite (nonce_length_ext f Hext Hsrc), Hm, <- Hm, Henc.
    cbn [ccm_encrypt Nat.ltb Nat.leb Nat.sub orb].
    pose proof (ccm_decrypt_encrypt_gen E E_length (sp_M (params f)) 2 key (gen_nonce (patch f))
                                        (hdr_raw (patch f)) (plaintext_of f)) as Hd.
    cbn [ccm_encrypt fst snd] in Hd. rewrite Hd.
    eexists. rewrite (restore_result f t c). reflexivity.
  Qed.

  (** decrypting the packet object returned by encrypt, and the bytes of that frame as a receiver
      dissects them: at level 0 on the air ciphertext and MIC both end up in [data] *)
  Lemma decrypt_encrypt key f : in_scope (f_lvl f) -> f_ext f = true -> length (f_src f) = 8%nat ->
    exists g, encrypt E key f = Ok g
      /\ (exists m, decrypt E key g = Ok (set_mic m (set_data (plaintext_of f) f), true))
      /\ (exists m, decrypt E key (redissect g) = Ok (set_mic m (set_data (plaintext_of f) f), true)).
  Proof.
    intros Hs Hext Hsrc. destruct (nonce_ok_ext f Hext Hsrc) as [Hok HL].
    rewrite (encrypt_eq key f Hs Hok), HL. eexists. split; [reflexivity|].
    set (ct := ccm_keystream_xor E 2 key (gen_nonce (patch f)) (plaintext_of f)).
    set (tag := ccm_tag E (sp_M (params f)) 2 key (gen_nonce (patch f)) (hdr_raw (patch f)) (plaintext_of f)).
    destruct (scope_params f Hs) as (Henc & [m0 Hm] & Hle & Hpat & _).
    assert (Htl : length tag = sp_M (params f)) by (apply ccm_tag_length; assumption).
    assert (Hne : sp_M (params f) <> 0%nat) by (rewrite Hm; discriminate).
    assert (Hobj : exists m, decrypt E key (restore (params f) (set_mic tag (set_data ct (patch f))))
                             = Ok (set_mic m (set_data (plaintext_of f) f), true)).
    { apply decrypt_of_encrypted; try assumption.
      unfold extract, mic_absent_patched. cbn [f_mic set_mic].
      rewrite Henc, Htl, (proj2 (Nat.eqb_neq _ _) Hne). reflexivity. }
    split; [exact Hobj|].
    rewrite (redissect_encrypted f tag ct Hs Htl). destruct (f_lvl f =? 0); [|exact Hobj].
    apply decrypt_of_encrypted; try assumption.
    unfold extract, mic_absent_patched. cbn [f_mic f_data set_mic set_data length Nat.eqb].
    rewrite Henc, Hpat, (py_drop_last_app _ _ _ Htl Hne), (py_take_last_app _ _ _ Htl Hne). reflexivity.
  Qed.

  (** ** EXTENSION: integrity-only levels 1-3 (after the repair of these levels) *)
  Lemma csl_mic f : mic_scope (f_lvl f) -> check_security_level f = (f, params f).
  Proof. intros Hs. rewrite csl_eq. destruct (mic_scope_params f Hs) as (_ & _ & _ & _ & -> & _). reflexivity. Qed.

  Lemma encrypt_eq_mic key f : mic_scope (f_lvl f) -> (7 <= length (gen_nonce f))%nat ->
    encrypt E key f =
    Ok (set_mic (ccm_tag E (sp_M (params f)) (15 - length (gen_nonce f)) key (gen_nonce f) (hdr_raw f ++ f_data f) []) f).
  Proof.
    intros Hs Hn. destruct (mic_scope_params f Hs) as (Henc & [m Hm] & _ & Hpat & _).
    unfold encrypt, encrypt_with. rewrite (csl_mic f Hs), (gen_auth_mic_only _ _ Henc).
    rewrite Hm, (proj2 (Nat.ltb_ge _ _) Hn), Henc. unfold restore. rewrite Hpat. reflexivity.
  Qed.

  (** the MIC decrypt compares: the last M bytes of the frame *)
  Definition recv_mic_only (f : frame) : bytes := py_take_last (sp_M (params f)) (raw_base f).

  Lemma decrypt_eq_mic key f : mic_scope (f_lvl f) -> (7 <= length (gen_nonce f))%nat ->
    decrypt E key f =
    if bytes_eqb (recv_mic_only f)
                 (ccm_tag E (sp_M (params f)) (15 - length (gen_nonce f)) key (gen_nonce f) (hdr_raw f ++ f_data f) [])
    then Ok (set_mic (generate_mic E gen_auth (params f) key (gen_nonce f) f) f, true)
    else Ok (f, false).
  Proof.
    intros Hs Hn. destruct (mic_scope_params f Hs) as (Henc & [m Hm] & _ & Hpat & _).
    unfold decrypt, decrypt_with, recv_mic_only. rewrite (csl_mic f Hs), (gen_auth_mic_only _ _ Henc).
    unfold extract. rewrite Henc, Hm, (proj2 (Nat.ltb_ge _ _) Hn). unfold ccm_decrypt, restore. rewrite Hpat.
    destruct (bytes_eqb _ _); reflexivity.
  Qed.

  (** this is [ccmstar_unprotect false] of CcmStar.v *)
  Lemma accept_iff_tag_mic key f : mic_scope (f_lvl f) -> (7 <= length (gen_nonce f))%nat ->
    status_of (decrypt E key f) = true <->
    recv_mic_only f = ccm_tag E (sp_M (params f)) (15 - length (gen_nonce f)) key (gen_nonce f) (hdr_raw f ++ f_data f) [].
  Proof.
    intros Hs Hn. rewrite (decrypt_eq_mic key f Hs Hn), <- bytes_eqb_eq.
    destruct (bytes_eqb _ _); cbn [status_of]; reflexivity.
  Qed.

  Lemma decrypt_encrypt_mic key f : mic_scope (f_lvl f) -> f_ext f = true -> length (f_src f) = 8%nat ->
    exists g, encrypt E key f = Ok g /\ f_data g = f_data f
      /\ (exists m, decrypt E key g = Ok (set_mic m f, true))
      /\ redissect g = g.
  Proof.
    intros Hs Hext Hsrc.
    assert (Hok : (7 <= length (gen_nonce f))%nat)
      by (rewrite gen_nonce_src, nonce_of_length by assumption; lia).
    rewrite (encrypt_eq_mic key f Hs Hok). eexists. split; [reflexivity|].
    set (tag := ccm_tag E (sp_M (params f)) (15 - length (gen_nonce f)) key (gen_nonce f) (hdr_raw f ++ f_data f) []).
    destruct (mic_scope_params f Hs) as (_ & [m0 Hm] & Hle & _ & _ & HM).
    assert (Htl : length tag = sp_M (params f)) by (apply ccm_tag_length; assumption).
    assert (Hne : sp_M (params f) <> 0%nat) by (rewrite Hm; discriminate).
    split; [reflexivity|]. split.
    - (* the frame with the tag in its MIC field has the level, nonce and header of [f] *)
      assert (Hn' : gen_nonce (set_mic tag f) = gen_nonce f) by (apply (gen_nonce_set (f_data f)); assumption).
      rewrite (decrypt_eq_mic key (set_mic tag f) Hs) by (rewrite Hn'; exact Hok).
      unfold recv_mic_only. rewrite Hn', params_set_mic, raw_base_split. cbn [f_mic f_data set_mic].
      change (hdr_raw (set_mic tag f)) with (hdr_raw f).
      rewrite app_assoc, (py_take_last_app _ _ _ Htl Hne). fold tag. rewrite bytes_eqb_refl.
      eexists. reflexivity.
    - apply redissect_id; cbn [f_lvl f_mic set_mic]; rewrite <- HM; assumption.
  Qed.
End Crypt.

Section Reject.
  Variable E : bytes -> bytes -> bytes.

  Lemma decrypt_reject_unchanged key f g : decrypt E key f = Ok (g, false) -> g = f.
  Proof.
    unfold decrypt, decrypt_with. rewrite csl_eq.
    destruct (extract (params f) (patch f)) as [ct mic]. destruct (sp_M (params f)); [discriminate|].
    destruct (Nat.ltb _ 7); [discriminate|].
    destruct (ccm_decrypt _ _ _ _ _ _ _ _); [discriminate|].
    intros H. injection H as <-. apply restore_patch.
  Qed.

  (** trying a ring of keys on the object returned by the previous (failed) attempt is the same
      as trying every key on the original frame: a wrong key tried first changes nothing *)
  Lemma ring_decrypt_pure_eq keys : forall f, ring_decrypt E keys f = ring_decrypt_pure E keys f.
  Proof.
    induction keys as [|k r IH]; intros f; cbn [ring_decrypt ring_decrypt_pure]; [reflexivity|].
    destruct (decrypt E k f) as [[g b]|cls] eqn:Ed; [|reflexivity].
    destruct b; [reflexivity|]. apply decrypt_reject_unchanged in Ed. subst g. apply IH.
  Qed.
End Reject.

(** * the manager instance: each call depends only on its own frame *)
Section Instance.
  Variable E : bytes -> bytes -> bytes.

  Lemma csl_st_params s f :
    fst (csl_st s f) = fst (check_security_level f)
    /\ self_params (snd (csl_st s f)) = snd (check_security_level f).
  Proof.
    unfold csl_st, check_security_level. destruct (f_lvl f =? 0); split; reflexivity.
  Qed.

  (** the result AND the state left behind do not depend on the state found *)
  Lemma encrypt_st_indep key s s' f : encrypt_st E key s f = encrypt_st E key s' f.
  Proof.
    unfold encrypt_st, csl_st. destruct (f_lvl f =? 0); reflexivity.
  Qed.

  Lemma decrypt_st_indep key s s' f : decrypt_st E key s f = decrypt_st E key s' f.
  Proof.
    unfold decrypt_st, csl_st. destruct (f_lvl f =? 0); reflexivity.
  Qed.

  Lemma encrypt_st_fresh key s f : fst (encrypt_st E key s f) = encrypt E key f.
  Proof.
    unfold encrypt_st, encrypt, encrypt_with, csl_st, check_security_level.
    destruct (f_lvl f =? 0); cbn [fst snd self_params set_auth set_nonce set_enc set_int set_M set_patched
                                   ms_M ms_nonce ms_auth ms_enc ms_patched ms_int sp_M sp_enc].
    - cbn [orb]. destruct (Nat.ltb _ 7); reflexivity.
    - rewrite orb_false_r.
      destruct (if level_int (f_lvl f) then level_M (f_lvl f) else 0%nat); [reflexivity|].
      destruct (Nat.ltb _ 7); reflexivity.
  Qed.

  Lemma decrypt_st_fresh key s f : fst (decrypt_st E key s f) = decrypt E key f.
  Proof.
    unfold decrypt_st, decrypt, decrypt_with, csl_st, check_security_level.
    destruct (f_lvl f =? 0); cbn [fst snd self_params set_auth set_nonce set_enc set_int set_M set_patched
                                   ms_M ms_nonce ms_auth ms_enc ms_patched ms_int sp_M sp_enc].
    - destruct (extract _ _) as [ct mic]. cbn [orb]. destruct (Nat.ltb _ 7); [reflexivity|].
      destruct (ccm_decrypt _ _ _ _ _ _ _ _); reflexivity.
    - destruct (extract _ _) as [ct mic]. rewrite orb_false_r.
      destruct (if level_int (f_lvl f) then level_M (f_lvl f) else 0%nat); [reflexivity|].
      destruct (Nat.ltb _ 7); [reflexivity|].
      destruct (ccm_decrypt _ _ _ _ _ _ _ _); reflexivity.
  Qed.

  Lemma do_call_fresh key s c : fst (do_call E key s c) = fresh_call E key c.
  Proof.
    destruct c as [f|f]; cbn [do_call fresh_call].
    - rewrite <- (encrypt_st_fresh key s f). destruct (encrypt_st E key s f). reflexivity.
    - rewrite <- (decrypt_st_fresh key s f). destruct (decrypt_st E key s f). reflexivity.
  Qed.

  Lemma run_calls_stateless key cs : forall s, fst (run_calls E key s cs) = map (fresh_call E key) cs.
  Proof.
    induction cs as [|c r IH]; intros s; cbn [run_calls map]; [reflexivity|].
    pose proof (do_call_fresh key s c) as Hc.
    destruct (do_call E key s c) as [o s1]. specialize (IH s1).
    destruct (run_calls E key s1 r) as [os s2]. cbn [fst] in *. rewrite Hc, IH. reflexivity.
  Qed.

  Lemma run_calls_last key before c s :
    fst (run_calls E key s (before ++ [c])) = map (fresh_call E key) before ++ [fresh_call E key c].
  Proof. rewrite run_calls_stateless, map_app. reflexivity. Qed.
End Instance.

Lemma bytes_eqb_false a b : bytes_eqb a b = false <-> a <> b.
Proof. rewrite <- not_true_iff_false, bytes_eqb_eq. reflexivity. Qed.

Lemma bytes_eqb_spec a b : reflect (a = b) (bytes_eqb a b).
Proof. apply iff_reflect. symmetry. apply bytes_eqb_eq. Qed.

Lemma lookup_update a' a v t :
  lookup a' (update a v t) = if bytes_eqb a' a then Some v else lookup a' t.
Proof.
  induction t as [|[b c] r IH]; cbn [update lookup]; [reflexivity|].
  destruct (bytes_eqb_spec a b) as [<-|Hab]; cbn [lookup].
  - destruct (bytes_eqb a' a); reflexivity.
  - rewrite IH. destruct (bytes_eqb_spec a' b) as [->|]; [|reflexivity].
    rewrite (proj2 (bytes_eqb_false b a)) by congruence. reflexivity.
Qed.

Lemma select_seq k ms m : select k ms = Some m -> m_seq m = k /\ In m ms.
Proof.
  induction ms as [|x r IH]; cbn [select]; [discriminate|].
  destruct (N.eqb_spec (m_seq x) k) as [He|He].
  - intros H. injection H as <-. split; [exact He|left; reflexivity].
  - intros H. destruct (IH H). split; [assumption|right; assumption].
Qed.

Lemma select_store k' k a v ms :
  select k' (store k a v ms) =
  if k' =? k then match select k ms with
                  | Some m => Some (mkMat (m_seq m) (m_key m) (update a v (m_in m)))
                  | None => None
                  end
  else select k' ms.
Proof.
  induction ms as [|x r IH]; cbn [store select].
  - destruct (k' =? k); reflexivity.
  - destruct (N.eqb_spec (m_seq x) k) as [He|He]; cbn [select m_seq].
    + destruct (N.eqb_spec k' k) as [Hk|Hk].
      * subst k'. rewrite He, N.eqb_refl. reflexivity.
      * destruct (N.eqb_spec (m_seq x) k') as [Hx|Hx]; [congruence|reflexivity].
    + rewrite IH. destruct (N.eqb_spec k' k) as [Hk|Hk].
      * subst k'. destruct (N.eqb_spec (m_seq x) k); [contradiction|reflexivity].
      * reflexivity.
Qed.

(** [store] only touches a counter table: whatever does not read the tables is unchanged *)
Lemma store_map {B} (g : material -> B) k a v ms :
  (forall m t, g (mkMat (m_seq m) (m_key m) t) = g m) -> map g (store k a v ms) = map g ms.
Proof.
  intros Hg. induction ms as [|x r IH]; cbn [store map]; [reflexivity|].
  destruct (m_seq x =? k); cbn [map]; [rewrite Hg|rewrite IH]; reflexivity.
Qed.

Lemma Forall2_imp {A B} (P Q : A -> B -> Prop) l l' :
  (forall a b, P a b -> Q a b) -> Forall2 P l l' -> Forall2 Q l l'.
Proof. intros H F. induction F; constructor; auto. Qed.

Section Nwk.
  Variable E : bytes -> bytes -> bytes.

  Lemma nwk_decrypt_ok st f f' st' : nwk_decrypt E st f = DecOk f' st' ->
    exists m, f_kt f = 1 /\ select (f_kseq f) (n_mats st) = Some m /\ stale st m f = false
              /\ decrypt E (m_key m) f = Ok (f', true)
              /\ st' = with_mats st (store (f_kseq f) (sender_of f) (f_fc f + 1) (n_mats st)).
  Proof.
    unfold nwk_decrypt, kseq_of. destruct (n_level st =? 0); [discriminate|].
    destruct (N.eqb_spec (f_kt f) 1) as [Hkt|]; [|discriminate].
    destruct (select _ _) as [m|] eqn:Es; [|discriminate].
    destruct (stale st m f) eqn:Est; [discriminate|].
    destruct (decrypt E (m_key m) f) as [[r []]|cls] eqn:Ed; try discriminate.
    intros H. injection H as <- <-. exists m. repeat split; assumption.
  Qed.

  (** one step of the receive path: either a secured frame was accepted under the selected
      material, whose counter table alone changes, or the state is as it was and nothing
      secured goes up *)
  Lemma nwk_step_cases st p o st1 : nwk_step E st p = (o, st1) ->
    (exists f f' m, p = Secured f /\ o = UpSecured (svc_of (frametype_of f')) f' /\ f_kt f = 1
        /\ select (f_kseq f) (n_mats st) = Some m /\ stale st m f = false
        /\ decrypt E (m_key m) f = Ok (f', true)
        /\ st1 = with_mats st (store (f_kseq f) (sender_of f) (f_fc f + 1) (n_mats st)))
    \/ (st1 = st /\ match o with
                    | UpSecured _ _ => False
                    | UpPlain svc raw => exists ft os, p = Unsecured ft os raw /\ svc = svc_of ft
                                                        /\ (n_secure_all st = false \/ os = true)
                    | Dropped | Raised _ => True
                    end).
  Proof.
    destruct p as [f|ft os raw]; cbn [nwk_step].
    - destruct (nwk_decrypt E st f) as [f' st'| |cls] eqn:Ed; intros H; injection H as <- <-;
        [left|right; split; [reflexivity|exact I]..].
      apply nwk_decrypt_ok in Ed. destruct Ed as (m & Hkt & Hsel & Hst & Hd & ->).
      exists f, f', m. repeat split; assumption.
    - destruct (negb os && n_secure_all st) eqn:Eb; intros H; injection H as <- <-;
        (right; split; [reflexivity|]); [exact I|].
      exists ft, os. repeat split. destruct os; [right; reflexivity|left; exact Eb].
  Qed.

  Lemma nwk_step_stale st f m : (n_level st =? 0) = false -> f_kt f = 1 ->
    select (f_kseq f) (n_mats st) = Some m -> stale st m f = true ->
    nwk_step E st (Secured f) = (Dropped, st).
  Proof.
    intros Hl Hkt Hsel Hst. cbn [nwk_step]. unfold nwk_decrypt, kseq_of.
    rewrite Hl, Hkt, N.eqb_refl, Hsel, Hst. reflexivity.
  Qed.

  Lemma nwk_step_accept st f f' m : (n_level st =? 0) = false -> f_kt f = 1 ->
    select (f_kseq f) (n_mats st) = Some m -> stale st m f = false ->
    decrypt E (m_key m) f = Ok (f', true) ->
    nwk_step E st (Secured f)
    = (UpSecured (svc_of (frametype_of f')) f', with_mats st (store (f_kseq f) (sender_of f) (f_fc f + 1) (n_mats st))).
  Proof.
    intros Hl Hkt Hsel Hst Hd. cbn [nwk_step]. unfold nwk_decrypt, kseq_of.
    rewrite Hl, Hkt, N.eqb_refl, Hsel, Hst, Hd. reflexivity.
  Qed.

  Lemma nwk_step_flags st p o st1 : nwk_step E st p = (o, st1) ->
    n_all_fresh st1 = n_all_fresh st /\ n_secure_all st1 = n_secure_all st /\ keys_of st1 = keys_of st.
  Proof.
    intros H. destruct (nwk_step_cases _ _ _ _ H) as [(f & f' & m & _ & _ & _ & _ & _ & _ & ->)|[-> _]].
    - unfold keys_of. cbn [with_mats n_all_fresh n_secure_all n_mats].
      rewrite store_map by reflexivity. repeat split; reflexivity.
    - repeat split; reflexivity.
  Qed.

  Lemma nwk_step_authentic st p o st1 : nwk_step E st p = (o, st1) -> authentic_up E st p o.
  Proof.
    intros H. destruct (nwk_step_cases _ _ _ _ H) as [(f & f' & m & -> & -> & Hkt & Hsel & _ & Hd & _)|[_ Ho]].
    - apply select_seq in Hsel. destruct Hsel as [Hseq Hin].
      exists f, (m_key m). repeat split; try assumption.
      unfold keys_of. rewrite <- Hseq. apply (in_map (fun m => (m_seq m, m_key m))). exact Hin.
    - destruct o; cbn [authentic_up]; [contradiction|exact Ho|exact I|exact I].
  Qed.

  Lemma no_unauthenticated_up st ps : Forall2 (authentic_up E st) ps (fst (nwk_run E st ps)).
  Proof.
    revert st. induction ps as [|p r IH]; intros st; cbn [nwk_run]; [constructor|].
    destruct (nwk_step E st p) as [o st1] eqn:Es.
    destruct (nwk_run E st1 r) as [os st2] eqn:Er. cbn [fst].
    constructor.
    - eapply nwk_step_authentic; eassumption.
    - specialize (IH st1). rewrite Er in IH. cbn [fst] in IH.
      destruct (nwk_step_flags _ _ _ _ Es) as (_ & Hsa & Hk).
      eapply Forall2_imp; [|exact IH].
      intros p' o'. unfold authentic_up. rewrite Hk, Hsa. exact (fun x => x).
  Qed.

  Lemma htrace_authentic items : forall hs,
    Forall (fun x => match x with
                     | (HPdu p, pre, Some o) => authentic_up E (fst pre) p o
                     | _ => True
                     end) (htrace E hs items).
  Proof.
    induction items as [|it r IH]; intros hs; cbn [htrace]; [constructor|].
    destruct (hstep E hs it) as [o hs1] eqn:Es. constructor; [|apply IH].
    destruct it as [p|m]; cbn [hstep] in Es.
    - destruct (nwk_step E (fst hs) p) as [o' st1] eqn:En. injection Es as <- <-.
      eapply nwk_step_authentic. exact En.
    - injection Es as <- <-. exact I.
  Qed.
End Nwk.

(** ** freshness of a list of accepted events w.r.t. a table of stored counters
    (stored = last accepted + 1).  [fresh_hist] / [bump] (events keyed by the key sequence number)
    and [fresh_hist_k] / [bump_k] (keyed by the key itself) are the two instances of this section,
    which uses nothing but their unfolding equations. *)
Section Fresh.
  Variables (K : Type) (eqb : K -> K -> bool).
  Hypothesis eqb_spec : forall x y, reflect (x = y) (eqb x y).
  Let table : Type := K -> bytes -> option N.
  Variable bump : table -> K -> bytes -> N -> table.
  Variable fresh : table -> list (K * bytes * N) -> Prop.
  Hypothesis bump_eq : forall T k a c k' a',
    bump T k a c k' a' = if eqb k' k && bytes_eqb a' a then Some (c + 1) else T k' a'.
  Hypothesis fresh_cons : forall T k a c r,
    fresh T ((k, a, c) :: r) <-> (forall c0, T k a = Some c0 -> c0 <= c) /\ fresh (bump T k a c) r.

  Lemma fresh_lower T evs : fresh T evs ->
    forall k a c, In (k, a, c) evs -> forall c0, T k a = Some c0 -> c0 <= c.
  Proof.
    revert T. induction evs as [|[[k1 a1] c1] r IH]; intros T Hf k a c Hin c0 HT; [destruct Hin|].
    apply fresh_cons in Hf. destruct Hf as [H1 H2]. destruct Hin as [Heq|Hin].
    - injection Heq as -> -> ->. apply H1. exact HT.
    - specialize (IH _ H2 k a c Hin). rewrite bump_eq in IH.
      destruct (eqb_spec k k1) as [->|]; [destruct (bytes_eqb_spec a a1) as [->|]|]; cbn [andb] in IH.
      + specialize (H1 _ HT). specialize (IH _ eq_refl). lia.
      + apply IH. exact HT.
      + apply IH. exact HT.
  Qed.

  (** the later event is in the tail, which is fresh w.r.t. the table bumped by the earlier one *)
  Lemma fresh_strict T evs : fresh T evs ->
    forall i j k a c c', (i < j)%nat ->
      nth_error evs i = Some (k, a, c) -> nth_error evs j = Some (k, a, c') -> c < c'.
  Proof.
    revert T. induction evs as [|[[k1 a1] c1] r IH]; intros T Hf i j k a c c' Hij Hi Hj;
      [destruct i; discriminate|].
    apply fresh_cons in Hf. destruct Hf as [_ H2].
    destruct j as [|j]; [lia|]. cbn [nth_error] in Hj.
    destruct i as [|i]; cbn [nth_error] in Hi.
    - injection Hi as -> -> ->. apply nth_error_In in Hj.
      pose proof (fresh_lower _ _ H2 k a c' Hj (c + 1)) as Hl. rewrite bump_eq in Hl.
      destruct (eqb_spec k k); [|contradiction]. rewrite bytes_eqb_refl in Hl.
      specialize (Hl eq_refl). lia.
    - eapply (IH _ H2 i j); try eassumption. lia.
  Qed.
End Fresh.

Lemma fresh_hist_lower T evs : fresh_hist T evs ->
  forall k a c, In (k, a, c) evs -> forall c0, T k a = Some c0 -> c0 <= c.
Proof. apply (fresh_lower N N.eqb N.eqb_spec bump fresh_hist); intros; reflexivity. Qed.

Lemma fresh_hist_strict T evs : fresh_hist T evs ->
  forall i j k a c c', (i < j)%nat ->
    nth_error evs i = Some (k, a, c) -> nth_error evs j = Some (k, a, c') -> c < c'.
Proof. apply (fresh_strict N N.eqb N.eqb_spec bump fresh_hist); intros; reflexivity. Qed.

Lemma fresh_hist_k_strict T evs : fresh_hist_k T evs ->
  forall i j k a c c', (i < j)%nat ->
    nth_error evs i = Some (k, a, c) -> nth_error evs j = Some (k, a, c') -> c < c'.
Proof. apply (fresh_strict bytes bytes_eqb bytes_eqb_spec bump_k fresh_hist_k); intros; reflexivity. Qed.

Lemma fresh_hist_ext T T' evs : (forall k a, T k a = T' k a) -> fresh_hist T evs -> fresh_hist T' evs.
Proof.
  revert T T'. induction evs as [|[[k a] c] r IH]; intros T T' He; cbn [fresh_hist]; [auto|].
  intros [H1 H2]. split.
  - intros c0. rewrite <- He. apply H1.
  - eapply IH; [|exact H2]. intros k' a'. unfold bump. rewrite He. reflexivity.
Qed.

Section NwkFresh.
  Variable E : bytes -> bytes -> bytes.

  Lemma stale_false st m f c0 : n_all_fresh st = true -> stale st m f = false ->
    lookup (sender_of f) (m_in m) = Some c0 -> c0 <= f_fc f.
  Proof.
    unfold stale. intros Hf Hst Hl. rewrite Hl, Hf, andb_true_r in Hst. apply N.ltb_ge. exact Hst.
  Qed.

  Lemma stored_after_store st k a v k' a' m :
    select k (n_mats st) = Some m ->
    stored (with_mats st (store k a v (n_mats st))) k' a' =
    if (k' =? k) && bytes_eqb a' a then Some v else stored st k' a'.
  Proof.
    intros Hs. unfold stored. cbn [with_mats n_mats]. rewrite select_store.
    destruct (N.eqb_spec k' k) as [->|Hk]; cbn [andb]; [|reflexivity].
    rewrite Hs. cbn [m_in]. apply lookup_update.
  Qed.

  (** invariant of the induction over the history: the table is the stored counters *)
  Lemma accepted_fresh_hist ps : forall st T, n_all_fresh st = true ->
    (forall k a, T k a = stored st k a) -> fresh_hist T (accepted E st ps).
  Proof.
    induction ps as [|p r IH]; intros st T Hf HT; cbn [accepted]; [exact I|].
    destruct (nwk_step E st p) as [o st1] eqn:Es.
    pose proof (nwk_step_flags E _ _ _ _ Es) as (Hf1 & _). rewrite Hf in Hf1.
    destruct (nwk_step_cases E _ _ _ _ Es) as [(f & f' & m & -> & -> & _ & Hsel & Hst & _ & ->)|[-> Ho]].
    - cbn [fresh_hist]. split.
      + intros c0. rewrite HT. unfold stored. rewrite Hsel. exact (stale_false st m f c0 Hf Hst).
      + apply IH; [exact Hf1|]. intros k' a'.
        rewrite (stored_after_store st _ _ _ k' a' m Hsel). unfold bump. rewrite HT. reflexivity.
    - destruct p as [f|]; [destruct o; try contradiction|]; apply IH; assumption.
  Qed.

  Lemma nwk_strictly_fresh st ps i j k a c c' :
    n_all_fresh st = true -> (i < j)%nat ->
    nth_error (accepted E st ps) i = Some (k, a, c) ->
    nth_error (accepted E st ps) j = Some (k, a, c') -> c < c'.
  Proof.
    intros Hf Hij Hi Hj.
    eapply (fresh_hist_strict (stored st)); try eassumption.
    apply accepted_fresh_hist; [exact Hf|reflexivity].
  Qed.

  Lemma accepted_spec st ps : accepted E st ps = events_of (combine ps (fst (nwk_run E st ps))).
  Proof.
    revert st. induction ps as [|p r IH]; intros st; cbn [accepted nwk_run]; [reflexivity|].
    destruct (nwk_step E st p) as [o st1] eqn:Es.
    specialize (IH st1). destruct (nwk_run E st1 r) as [os st2]. cbn [fst] in *. cbn [combine events_of].
    destruct p as [f|ft osec raw]; [destruct o|]; rewrite IH; reflexivity.
  Qed.
End NwkFresh.

(** * NWK histories with management operations: the counter tables seen through the keys *)
Definition keys_nodup (st : nwk) : Prop := NoDup (map m_key (n_mats st)).

Lemma find_key_in K ms m : find_key K ms = Some m -> In m ms /\ m_key m = K.
Proof.
  induction ms as [|x r IH]; cbn [find_key]; [discriminate|].
  destruct (bytes_eqb_spec (m_key x) K) as [Eb|].
  - intros H. injection H as <-. split; [left; reflexivity|exact Eb].
  - intros H. destruct (IH H). split; [right; assumption|assumption].
Qed.

Lemma find_key_nodup ms m : NoDup (map m_key ms) -> In m ms -> find_key (m_key m) ms = Some m.
Proof.
  induction ms as [|x r IH]; cbn [map find_key]; intros Hnd Hin; [destruct Hin|].
  inversion Hnd as [|? ? Hnotin Hnd']; subst.
  destruct Hin as [->|Hin]; [rewrite bytes_eqb_refl; reflexivity|].
  destruct (bytes_eqb_spec (m_key x) (m_key m)) as [Eb|]; [|apply IH; assumption].
  exfalso. apply Hnotin. rewrite Eb. apply in_map. exact Hin.
Qed.

Lemma find_key_store K' k a v ms m :
  select k ms = Some m -> NoDup (map m_key ms) ->
  find_key K' (store k a v ms) =
  if bytes_eqb (m_key m) K' then Some (mkMat (m_seq m) (m_key m) (update a v (m_in m))) else find_key K' ms.
Proof.
  induction ms as [|x r IH]; cbn [select store find_key map]; [discriminate|].
  intros Hs Hnd. inversion Hnd as [|? ? Hnotin Hnd']; subst.
  destruct (N.eqb_spec (m_seq x) k) as [He|He].
  - injection Hs as <-. cbn [find_key m_key]. destruct (bytes_eqb (m_key x) K'); reflexivity.
  - cbn [find_key]. destruct (bytes_eqb_spec (m_key x) K') as [<-|]; [|apply IH; assumption].
    destruct (bytes_eqb_spec (m_key m) (m_key x)) as [Em|]; [|reflexivity].
    exfalso. apply Hnotin. rewrite <- Em. apply in_map. apply (select_seq _ _ _ Hs).
Qed.

Lemma has_key_find K ms : has_key K ms = false -> find_key K ms = None.
Proof.
  induction ms as [|x r IH]; cbn [has_key find_key]; [reflexivity|].
  destruct (bytes_eqb (m_key x) K); cbn [orb]; [discriminate|exact IH].
Qed.

Lemma has_key_in K ms : has_key K ms = false -> ~ In K (map m_key ms).
Proof.
  induction ms as [|x r IH]; cbn [has_key map In]; [tauto|].
  destruct (bytes_eqb_spec (m_key x) K); cbn [orb]; [discriminate|]. intros H [Heq|Hin]; [contradiction|exact (IH H Hin)].
Qed.

Lemma find_key_snoc K ms m2 : has_key (m_key m2) ms = false ->
  find_key K (ms ++ [m2]) = if bytes_eqb (m_key m2) K then Some m2 else find_key K ms.
Proof.
  induction ms as [|x r IH]; cbn [app find_key has_key]; [reflexivity|].
  destruct (bytes_eqb_spec (m_key x) (m_key m2)) as [|Hx]; cbn [orb]; [discriminate|]. intros Hh.
  rewrite (IH Hh). destruct (bytes_eqb_spec (m_key x) K) as [<-|]; [|reflexivity].
  rewrite (proj2 (bytes_eqb_false (m_key m2) (m_key x))) by congruence. reflexivity.
Qed.

Lemma find_key_remove K K2 ms : K <> K2 -> find_key K (remove_key K2 ms) = find_key K ms.
Proof.
  intros Hne. induction ms as [|x r IH]; cbn [remove_key find_key]; [reflexivity|].
  destruct (bytes_eqb_spec (m_key x) K2) as [E2|].
  - destruct (bytes_eqb_spec (m_key x) K); [congruence|reflexivity].
  - cbn [find_key]. destruct (bytes_eqb (m_key x) K); [reflexivity|exact IH].
Qed.

Lemma remove_key_in K ms x : In x (map m_key (remove_key K ms)) -> In x (map m_key ms).
Proof.
  induction ms as [|y r IH]; cbn [remove_key map In]; [tauto|].
  destruct (bytes_eqb (m_key y) K); [tauto|]. cbn [map In]. tauto.
Qed.

Lemma remove_key_nodup K ms : NoDup (map m_key ms) -> NoDup (map m_key (remove_key K ms)).
Proof.
  induction ms as [|x r IH]; cbn [remove_key map]; [auto|].
  intros Hnd. inversion Hnd as [|? ? Hnotin Hnd']; subst.
  destruct (bytes_eqb (m_key x) K); [exact Hnd'|].
  cbn [map]. constructor; [|apply IH; exact Hnd'].
  intros Hin. apply Hnotin. eapply remove_key_in. exact Hin.
Qed.

Section NwkMgmt.
  Variable E : bytes -> bytes -> bytes.

  Lemma mgmt_preserves_table hs m K a :
    (forall K', m = RemoveKey K' -> K' <> K) -> m <> ClearKeys ->
    stored_k (fst (apply_mgmt hs m)) K a = stored_k (fst hs) K a.
  Proof.
    destruct hs as [st act]. intros Hm Hc.
    destruct m as [key seq|seq|key|]; cbn [apply_mgmt fst]; [| | |contradiction].
    - destruct (has_key key (n_mats st)) eqn:Eh; [reflexivity|].
      unfold stored_k. cbn [with_mats n_mats fst]. rewrite find_key_snoc by exact Eh. cbn [m_key].
      destruct (bytes_eqb_spec key K) as [->|]; [|reflexivity].
      rewrite (has_key_find _ _ Eh). reflexivity.
    - reflexivity.
    - unfold stored_k. cbn [with_mats n_mats fst]. rewrite find_key_remove; [reflexivity|].
      intros Heq. subst key. exact (Hm K eq_refl eq_refl).
  Qed.

  Lemma mgmt_preserves_nodup hs m : keys_nodup (fst hs) -> keys_nodup (fst (apply_mgmt hs m)).
  Proof.
    destruct hs as [st act]. unfold keys_nodup. intros Hnd.
    destruct m as [key seq|seq|key|]; cbn [apply_mgmt fst]; [| | |constructor].
    - destruct (has_key key (n_mats st)) eqn:Eh; [exact Hnd|].
      cbn [with_mats n_mats fst]. rewrite map_app. cbn [map m_key].
      apply (NoDup_Add (Add_app key _ [])). rewrite app_nil_r.
      split; [exact Hnd|apply has_key_in; exact Eh].
    - exact Hnd.
    - cbn [with_mats n_mats fst]. apply remove_key_nodup. exact Hnd.
  Qed.

  Lemma mgmt_flags hs m : n_all_fresh (fst (apply_mgmt hs m)) = n_all_fresh (fst hs).
  Proof.
    destruct hs as [st act]. destruct m as [key seq|seq|key|]; cbn [apply_mgmt fst]; try reflexivity.
    destruct (has_key key (n_mats st)); reflexivity.
  Qed.

  (** with distinct keys, the table of the selected material is the one stored under its key,
      and it is the only one an accepted frame changes *)
  Lemma stored_k_after_store st k a v m K' a' : select k (n_mats st) = Some m -> keys_nodup st ->
    stored_k (with_mats st (store k a v (n_mats st))) K' a' =
    if bytes_eqb K' (m_key m) && bytes_eqb a' a then Some v else stored_k st K' a'.
  Proof.
    intros Hsel Hnd. unfold stored_k. cbn [with_mats n_mats].
    rewrite (find_key_store K' k a v _ m Hsel Hnd).
    destruct (bytes_eqb_spec (m_key m) K') as [<-|Hne].
    - rewrite bytes_eqb_refl, (find_key_nodup _ m Hnd (proj2 (select_seq _ _ _ Hsel))).
      cbn [andb m_in]. apply lookup_update.
    - rewrite (proj2 (bytes_eqb_false K' (m_key m))) by congruence. reflexivity.
  Qed.

  (** invariant of the induction over the history: the table at [K] is the stored counters of the
      material holding [K] *)
  Lemma haccepted_fresh K items : forall hs T, n_all_fresh (fst hs) = true -> keys_nodup (fst hs) ->
    never_removes K items -> (forall a, T K a = stored_k (fst hs) K a) ->
    fresh_hist_k T (filter (fun ev => bytes_eqb (fst (fst ev)) K) (haccepted E hs items)).
  Proof.
    induction items as [|it r IH]; intros hs T Hf Hnd Hnr HT; cbn [haccepted filter]; [exact I|].
    inversion Hnr as [|? ? Hit Hnr']; subst.
    destruct it as [p|m]; cbn [hstep].
    - destruct (nwk_step E (fst hs) p) as [o st1] eqn:Es.
      pose proof (nwk_step_flags E _ _ _ _ Es) as (Hf1 & _). rewrite Hf in Hf1.
      destruct (nwk_step_cases E _ _ _ _ Es) as [(f & f' & m & -> & -> & Hkt & Hsel & Hst & _ & ->)|[-> Ho]].
      + assert (Hnd1 : keys_nodup (with_mats (fst hs) (store (f_kseq f) (sender_of f) (f_fc f + 1) (n_mats (fst hs)))))
          by (unfold keys_nodup; cbn [with_mats n_mats]; rewrite store_map by reflexivity; exact Hnd).
        unfold sel_key, kseq_of. rewrite Hkt. cbn [N.eqb Pos.eqb]. rewrite Hsel. cbn [filter fst].
        destruct (bytes_eqb_spec (m_key m) K) as [<-|Hne].
        * cbn [fresh_hist_k]. split.
          -- intros c0. rewrite HT. unfold stored_k.
             rewrite (find_key_nodup _ m Hnd (proj2 (select_seq _ _ _ Hsel))).
             exact (stale_false _ m f c0 Hf Hst).
          -- apply IH; cbn [fst]; try assumption. intros a.
             rewrite (stored_k_after_store _ _ _ _ m _ _ Hsel Hnd). unfold bump_k. rewrite HT. reflexivity.
        * apply IH; cbn [fst]; try assumption. intros a.
          rewrite HT, (stored_k_after_store _ _ _ _ m _ _ Hsel Hnd).
          rewrite (proj2 (bytes_eqb_false K (m_key m))) by congruence. reflexivity.
      + destruct p as [f|]; [destruct o; try contradiction|]; apply IH; assumption.
    - apply IH.
      + rewrite mgmt_flags. exact Hf.
      + apply mgmt_preserves_nodup. exact Hnd.
      + exact Hnr'.
      + intros a. rewrite HT. symmetry. apply mgmt_preserves_table.
        * intros K' ->. exact Hit.
        * intros ->. exact Hit.
  Qed.
End NwkMgmt.

(** * Application support sub-layer: the receive path is a function of the NSDU alone *)
Section Aps.
  Variable E : bytes -> bytes -> bytes.

  Lemma aps_try_authentic cands f f' : aps_try E cands f = ADecOk f' ->
    exists kp inp, In kp cands /\ aps_input (f_kt f) = Some inp
                   /\ decrypt E (aps_key E (kp_key kp) inp) f = Ok (f', true).
  Proof.
    induction cands as [|kp r IH]; cbn [aps_try]; [discriminate|].
    destruct (aps_input (f_kt f)) as [inp|] eqn:Ei; [|discriminate].
    destruct (decrypt E (aps_key E (kp_key kp) inp) f) as [[g b]|cls] eqn:Ed; [|discriminate].
    destruct b.
    - intros H. injection H as <-. exists kp, inp. repeat split; [left; reflexivity|exact Ed].
    - intros H. destruct (IH H) as (kp' & inp' & Hin & Hi & Hd). exists kp', inp'. repeat split; [right; exact Hin|exact Hi|exact Hd].
  Qed.

  Lemma aps_select_sub short kps kp : In kp (aps_select short kps) -> In kp kps.
  Proof.
    unfold aps_select. destruct (filter _ kps) eqn:Ef.
    - intros H. apply filter_In in H. tauto.
    - intros H. rewrite <- Ef in H. apply filter_In in H. tauto.
  Qed.

  Lemma aps_up_authentic st p svc f' : aps_step E st p = AUpSecured svc f' ->
    exists f kp inp, p = ApsSecured f /\ In kp (a_kps st) /\ aps_input (f_kt f) = Some inp
                     /\ decrypt E (aps_key E (kp_key kp) inp) f = Ok (f', true).
  Proof.
    destruct p as [f|ft raw]; cbn [aps_step].
    - destruct (aps_decrypt E st f) as [g| |cls] eqn:Ed; try discriminate.
      unfold aps_route_secured. intros H.
      assert (g = f') as -> by (destruct (frametype_of g =? 0); [|destruct (frametype_of g =? 1)]; congruence).
      unfold aps_decrypt in Ed. apply aps_try_authentic in Ed. destruct Ed as (kp & inp & Hin & Hi & Hd).
      exists f, kp, inp. repeat split; try assumption. eapply aps_select_sub; exact Hin.
    - destruct (ft =? 0); [discriminate|]. destruct (ft =? 1); discriminate.
  Qed.
End Aps.

(** * known finding: the secured APS data request raises *)
Lemma aps_data_request_secured_always_raises E key fc src asdu :
  aps_data_request_secured E key fc src asdu = Raise "IndexError"%string.
Proof. reflexivity. Qed.

(** * witnesses (key and header of the first frame of tests/domain/zigbee/test_zigbee_crypto.py) *)
Definition witness_key : bytes :=
  [0xad;0x8e;0xbb;0xc4;0xf9;0x6a;0xe7;0x00;0x05;0x06;0xd3;0xfc;0xd1;0x62;0x7f;0xb8].
Definition witness_frame (lvl : N) (ext : bool) (payload : bytes) : frame :=
  mkFrame [0x48;0x02;0x00;0x00;0x8a;0x5c;0x1e;0x5d] 0 1 lvl 0xe1 ext
          [0x01;0x3c;0xe8;0x01;0x00;0x8d;0x15;0x00] 1 payload [].
Definition nv_state : nwk := mkNwk 5 true false [mkMat 1 witness_key []].
