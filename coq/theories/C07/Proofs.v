(** C07 — proofs about the GATT server model (Model.v).  The centre is [served]: what a handler body
    leaves behind (procedure locks, its one response, sizes).  Each handler is shown [served] once;
    [never_wedges], [one_response] and [fits_mtu] are read off [handle_served]. *)
From Coq Require Import List NArith ZArith Arith Bool Lia ZifyBool ZifyN ZifyNat.
From Whad Require Import Lib.Bytes C07.Model.
Import ListNotations.
Open Scope N_scope.

(** * Generic tactics *)

(** destruct every [match]/[if] scrutinee of the goal *)
Ltac break_step :=
  match goal with
  | |- context [match ?x with _ => _ end] =>
      match type of x with
      | sumbool _ _ => destruct x
      | _ => destruct x eqn:?
      end
  | |- context [if ?x then _ else _] => destruct x eqn:?
  end.
Ltac break := repeat (break_step; cbn [r_state r_out r_exc done raise err] in * ).

Ltac andb_destr H := repeat (let H' := fresh H in apply andb_true_iff in H as [H H']).
Ltac andb_split := repeat (apply andb_true_iff; split).

(** * Basic facts *)

Lemma nlen_app (a b : bytes) : nlen (a ++ b) = nlen a + nlen b.
Proof. unfold nlen. rewrite app_length. lia. Qed.

Lemma nlen_cons (x : N) (a : bytes) : nlen (x :: a) = 1 + nlen a.
Proof. unfold nlen. cbn [length]. lia. Qed.

Lemma nlen_nil : nlen [] = 0.
Proof. reflexivity. Qed.

Lemma nlen_le16 n : nlen (le16 n) = 2.
Proof. reflexivity. Qed.

Lemma nlen_trunc n v : nlen (trunc n v) <= n.
Proof. unfold nlen, trunc. rewrite firstn_length. lia. Qed.

Lemma nlen_bslice off n v : nlen (bslice off n v) <= n.
Proof. unfold nlen, bslice. rewrite firstn_length. lia. Qed.

Ltac nl := repeat (rewrite ?nlen_app, ?nlen_cons, ?nlen_nil, ?nlen_le16).

Lemma size_read v : att_size (PReadRsp v) = 1 + nlen v.
Proof. unfold att_size, encode. nl. lia. Qed.

Lemma size_blob v : att_size (PReadBlobRsp v) = 1 + nlen v.
Proof. unfold att_size, encode. nl. lia. Qed.

Lemma size_notif h x : att_size (PNotification h x) = 3 + nlen x.
Proof. unfold att_size, encode. nl. lia. Qed.

Lemma size_indic h x : att_size (PIndication h x) = 3 + nlen x.
Proof. unfold att_size, encode. nl. lia. Qed.

Lemma nlen_concat_map {A} (enc : A -> bytes) (isz : N) (items : list A) :
  (forall it, In it items -> nlen (enc it) = isz) ->
  nlen (concat (map enc items)) = N.of_nat (length items) * isz.
Proof.
  induction items as [|x r IH]; intros H; cbn [map concat length]; [reflexivity|].
  rewrite nlen_app, IH, (H x) by (intros; try apply H; cbn; auto). lia.
Qed.

Lemma filter_len_le {A} (f : A -> bool) (l : list A) : (length (filter f l) <= length l)%nat.
Proof. induction l as [|x r IH]; cbn; [lia|]. destruct (f x); cbn; lia. Qed.

Lemma take_while_len_le {A} (f : A -> bool) (l : list A) : (length (take_while f l) <= length l)%nat.
Proof. induction l as [|x r IH]; cbn; [lia|]. destruct (f x); cbn; lia. Qed.

Lemma take_while_in {A} (f : A -> bool) (l : list A) x : In x (take_while f l) -> In x l /\ f x = true.
Proof.
  induction l as [|y r IH]; cbn; [intros []|]. destruct (f y) eqn:E; [|intros []].
  intros [<-|H]; [auto|]. destruct (IH H). auto.
Qed.

Lemma lookup_in h db a : lookup h db = Some a -> In a db /\ a_handle a = h.
Proof.
  induction db as [|x r IH]; cbn [lookup]; [discriminate|].
  destruct (a_handle x =? h) eqn:E; intros H.
  - inversion H; subst. apply N.eqb_eq in E. split; [left; reflexivity|exact E].
  - destruct (IH H). split; [right|]; assumption.
Qed.

Lemma wf_in db a : forallb wf_attr db = true -> In a db -> wf_attr a = true.
Proof. intros H. rewrite forallb_forall in H. apply H. Qed.

Lemma lookup_wf db h a : forallb wf_attr db = true -> lookup h db = Some a -> wf_attr a = true.
Proof. intros Hf Hl. apply (wf_in db _ Hf), (lookup_in h), Hl. Qed.

Lemma uuid_len_cases b : uuid_len_ok b = true -> nlen b = 2 \/ nlen b = 16.
Proof. unfold uuid_len_ok. intros H. apply orb_true_iff in H as [H|H]; apply N.eqb_eq in H; auto. Qed.

Lemma wf_attr_type a : wf_attr a = true -> uuid_len_ok (a_type a) = true.
Proof. unfold wf_attr. intros H. andb_destr H. exact H. Qed.

Lemma wf_attr_uuid a : wf_attr a = true ->
  match a_kind a with KPrimary | KSecondary | KInclude | KDecl => uuid_len_ok (a_uuid a) = true | _ => True end.
Proof.
  unfold wf_attr. intros H. apply andb_true_iff in H as [_ H].
  destruct (a_kind a); trivial; andb_destr H; assumption.
Qed.

(** * Static part of the database, well-formedness is preserved *)

Definition static_eq (a b : attr) : Prop :=
  a_handle a = a_handle b /\ a_kind a = a_kind b /\ a_type a = a_type b /\ a_uuid a = a_uuid b
  /\ a_end a = a_end b /\ a_props a = a_props b /\ a_sec a = a_sec b
  /\ a_istart a = a_istart b /\ a_iend a = a_iend b.
Definition attr_ext (a b : attr) : Prop := static_eq a b /\ (wf_attr a = true -> wf_attr b = true).
Definition db_ext (d1 d2 : db_t) : Prop := Forall2 attr_ext d1 d2.

Lemma static_eq_refl a : static_eq a a.
Proof. unfold static_eq. tauto. Qed.
Lemma static_eq_trans a b c : static_eq a b -> static_eq b c -> static_eq a c.
Proof. unfold static_eq. intuition congruence. Qed.
Lemma attr_ext_refl a : attr_ext a a.
Proof. split; [apply static_eq_refl|auto]. Qed.
Lemma attr_ext_trans a b c : attr_ext a b -> attr_ext b c -> attr_ext a c.
Proof. intros [S1 W1] [S2 W2]. split; [eapply static_eq_trans; eauto|auto]. Qed.
Lemma db_ext_refl d : db_ext d d.
Proof. induction d; constructor; [apply attr_ext_refl|assumption]. Qed.
Lemma db_ext_trans d1 d2 d3 : db_ext d1 d2 -> db_ext d2 d3 -> db_ext d1 d3.
Proof.
  intros H. revert d3. induction H; intros d3 H3; inversion H3; subst; constructor.
  - eapply attr_ext_trans; eauto.
  - apply IHForall2. assumption.
Qed.

Lemma db_ext_sorted d1 d2 : db_ext d1 d2 -> forall lo, sorted_from lo d1 = sorted_from lo d2.
Proof.
  induction 1 as [|a b r1 r2 [S _] _ IH]; intros lo; cbn [sorted_from]; [reflexivity|].
  destruct S as (Hh & _). rewrite Hh, IH. reflexivity.
Qed.

Definition pend_eq (p q : option attr) : Prop :=
  match p, q with None, None => True | Some a, Some b => static_eq a b | _, _ => False end.

Lemma db_ext_struct d1 d2 : db_ext d1 d2 -> forall p q b c, pend_eq p q ->
  wf_struct d1 p b c = wf_struct d2 q b c.
Proof.
  induction 1 as [|a a' r1 r2 [S _] _ IH]; intros p q b c Hp; cbn [wf_struct].
  - destruct p, q; cbn in Hp; try contradiction; reflexivity.
  - pose proof S as (Hh & Hk & Ht & Hu & _).
    destruct p as [d|], q as [d'|]; cbn in Hp; try contradiction.
    + destruct Hp as (Hdh & _ & _ & Hdu & _). rewrite Hk, Hh, Ht, Hdh, Hdu.
      rewrite (IH None None true false I). reflexivity.
    + rewrite Hk. destruct (a_kind a'); try reflexivity; try (rewrite (IH None None _ _ I); reflexivity).
      apply IH, S.
Qed.

Lemma db_ext_attrs d1 d2 : db_ext d1 d2 -> forallb wf_attr d1 = true -> forallb wf_attr d2 = true.
Proof.
  induction 1 as [|a b r1 r2 [_ W] _ IH]; cbn [forallb]; [auto|].
  intros H. apply andb_true_iff in H as [H1 H2]. apply andb_true_iff. auto.
Qed.

Lemma db_ext_wf d1 d2 : db_ext d1 d2 -> wf_db d1 = true -> wf_db d2 = true.
Proof.
  intros E. unfold wf_db. intros H. apply andb_true_iff in H as [H H3]. apply andb_true_iff in H as [H1 H2].
  rewrite <- (db_ext_sorted _ _ E), H1, (db_ext_attrs _ _ E H2), <- (db_ext_struct _ _ E None None false false I), H3.
  reflexivity.
Qed.

Lemma lookup_ext d1 d2 h : db_ext d1 d2 ->
  match lookup h d1, lookup h d2 with
  | Some a, Some b => attr_ext a b
  | None, None => True
  | _, _ => False
  end.
Proof.
  induction 1 as [|a b r1 r2 E _ IH]; cbn [lookup]; [exact I|].
  destruct E as [S W]. pose proof S as (Hh & _). rewrite <- Hh.
  destruct (a_handle a =? h); [split; assumption|exact IH].
Qed.

Lemma update_ext h f db :
  (forall a, lookup h db = Some a -> attr_ext a (f a)) -> db_ext db (update h f db).
Proof.
  induction db as [|x r IH]; intros H; cbn [update]; [constructor|].
  cbn [lookup] in H. destruct (a_handle x =? h).
  - constructor; [apply H; reflexivity|apply db_ext_refl].
  - constructor; [apply attr_ext_refl|apply IH, H].
Qed.

Lemma set_value_ext a x :
  wf_bytes x = true -> (a_kind a = KCccd -> nlen x = 2) -> attr_ext a (set_value a x).
Proof.
  intros Hx Hc. split; [unfold static_eq; cbn; tauto|].
  unfold wf_attr. cbn [set_value a_handle a_kind a_type a_uuid a_value a_end a_props a_sec a_istart a_iend].
  intros H. apply andb_true_iff in H as [H K]. andb_destr H. apply andb_true_iff. split; [andb_split; assumption|].
  (* only a CCCD constrains its value *)
  destruct (a_kind a) eqn:E; try exact K. apply andb_true_iff in K as [K _]. rewrite K. apply N.eqb_eq, Hc. reflexivity.
Qed.

Lemma set_cbs_ext a n i : attr_ext a (set_cbs a n i).
Proof. split; [unfold static_eq; cbn; tauto|]. unfold wf_attr. cbn. auto. Qed.

Lemma queue_ok_ext d1 d2 q : db_ext d1 d2 ->
  forallb (queue_entry_ok d1) q = true -> forallb (queue_entry_ok d2) q = true.
Proof.
  intros E H. rewrite forallb_forall in *. intros x Hin. specialize (H x Hin).
  unfold queue_entry_ok in *. apply andb_true_iff in H as [H1 H2]. rewrite H2, andb_true_r.
  pose proof (lookup_ext _ _ (fst x) E) as L.
  destruct (lookup (fst x) d1); [|discriminate]. destruct (lookup (fst x) d2); [reflexivity|contradiction].
Qed.

Lemma wf_state_inv st : wf_state st = true ->
  wf_db (st_db st) = true /\ 23 <= mtu_of st /\ mtu_of st <= 65535 /\ queue_ok st = true.
Proof.
  unfold wf_state. intros H. apply andb_true_iff in H as [H H4]. apply andb_true_iff in H as [H H3].
  apply andb_true_iff in H as [H1 H2]. apply N.leb_le in H2, H3. auto.
Qed.

Lemma wf_state_intro st : wf_db (st_db st) = true -> 23 <= mtu_of st -> mtu_of st <= 65535 ->
  queue_ok st = true -> wf_state st = true.
Proof.
  intros H1 H2 H3 H4. unfold wf_state. rewrite H1, H4. apply N.leb_le in H2, H3. rewrite H2, H3. reflexivity.
Qed.

Lemma wf_state_mtu st : wf_state st = true -> 23 <= mtu_of st.
Proof. intros H. apply wf_state_inv in H. tauto. Qed.

Lemma size_small st p : wf_state st = true ->
  match p with PWriteRsp | PExecuteWriteRsp | PConfirmation | PMtuRsp _ | PError _ _ _ => True | _ => False end ->
  att_size p <= mtu_of st.
Proof.
  intros Hwf H. apply wf_state_mtu in Hwf. destruct p; try contradiction; unfold att_size, encode; nl; lia.
Qed.

Lemma wf_request_size m r : wf_request m r = true -> req_size r <= m.
Proof. unfold wf_request. intros H. apply andb_true_iff in H as [H _]. apply N.leb_le, H. Qed.

Lemma wf_state_with_db st db' : wf_state st = true -> db_ext (st_db st) db' -> wf_state (with_db st db') = true.
Proof.
  intros H E. apply wf_state_inv in H as (H1 & H2 & H3 & H4).
  apply wf_state_intro; try assumption.
  - eapply db_ext_wf; eauto.
  - unfold queue_ok in *. cbn. eapply queue_ok_ext; eauto.
Qed.

Lemma wf_state_with_lock st b : wf_state st = true -> wf_state (with_lock st b) = true.
Proof. intros H. exact H. Qed.
Lemma wf_state_with_lock_inv st b : wf_state (with_lock st b) = true -> wf_state st = true.
Proof. intros H. exact H. Qed.
Lemma wf_state_with_subs st l : wf_state st = true -> wf_state (with_subs st l) = true.
Proof. intros H. exact H. Qed.

Lemma wf_state_with_queues st q : wf_state st = true ->
  forallb (queue_entry_ok (st_db st)) q = true -> wf_state (with_queues st q) = true.
Proof.
  intros H Hq. apply wf_state_inv in H as (H1 & H2 & H3 & H4). apply wf_state_intro; assumption.
Qed.

Lemma wf_outcome_override o x : wf_outcome o = true -> o = HOverride x -> wf_bytes x = true.
Proof. intros H ->. exact H. Qed.

Lemma wf_hooks_inv hk : wf_hooks hk = true ->
  wf_outcome (h_read hk) = true /\ wf_outcome (h_write hk) = true /\ wf_outcome (h_written hk) = true
  /\ wf_outcome (h_written2 hk) = true /\ wf_acts (h_acts hk) = true.
Proof.
  unfold wf_hooks. intros H. andb_destr H. auto.
Qed.

Lemma wf_acts_inv a : wf_acts a = true ->
  wf_act (ha_read a) = true /\ wf_act (ha_write a) = true /\ wf_act (ha_written a) = true
  /\ wf_act (ha_written2 a) = true /\ wf_act (ha_sub a) = true /\ wf_act (ha_unsub a) = true.
Proof. unfold wf_acts. intros H. andb_destr H. repeat split; assumption. Qed.

Lemma update_wf st h f :
  wf_state st = true -> (forall a, lookup h (st_db st) = Some a -> attr_ext a (f a)) ->
  wf_state (with_db st (update h f (st_db st))) = true.
Proof. intros Hwf Hf. apply wf_state_with_db; [exact Hwf|apply update_ext, Hf]. Qed.

Lemma store_value_wf st h a x :
  wf_state st = true -> lookup h (st_db st) = Some a -> a_kind a <> KCccd -> wf_bytes x = true ->
  wf_state (with_db st (update h (fun a => set_value a x) (st_db st))) = true.
Proof.
  intros Hwf Hl Hk Hx. apply update_wf; [exact Hwf|]. intros a' Ha'. rewrite Hl in Ha'. inversion Ha'; subst.
  apply set_value_ext; [exact Hx|]. intros K. contradiction.
Qed.

Lemma wf_attr_value a : wf_attr a = true -> wf_bytes (a_value a) = true /\ (a_kind a = KCccd -> nlen (a_value a) = 2).
Proof.
  unfold wf_attr. intros H. apply andb_true_iff in H as [H K]. andb_destr H.
  split; [assumption|]. intros E. rewrite E in K. apply andb_true_iff in K as [_ K]. apply N.eqb_eq, K.
Qed.

Lemma wf_state_attrs st : wf_state st = true -> forallb wf_attr (st_db st) = true.
Proof.
  intros H. apply wf_state_inv in H as (H & _). unfold wf_db in H.
  apply andb_true_iff in H as [H _]. apply andb_true_iff in H as [_ H]. exact H.
Qed.

Lemma wf_state_sorted st : wf_state st = true -> sorted_from 0 (st_db st) = true.
Proof.
  intros H. apply wf_state_inv in H as (H & _). unfold wf_db in H.
  apply andb_true_iff in H as [H _]. apply andb_true_iff in H as [H _]. exact H.
Qed.

(** * Characteristic updates made by the application or by a hook *)

(** [st'] is a state inside the handler body, or the update, that started in [st] *)
Definition within (st st' : state) : Prop :=
  proc_free st' = proc_free st /\ mtu_of st' = mtu_of st /\ inst_mtus st' = inst_mtus st.

Lemma within_refl st : within st st.
Proof. repeat split. Qed.
Lemma within_trans a b c : within a b -> within b c -> within a c.
Proof. intros (P1 & M1 & S1) (P2 & M2 & S2). repeat split; congruence. Qed.

Lemma find_inst_id st id i : find_inst st id = Some i -> i_id i = id /\ (i_id (st_cur st) = id -> i = st_cur st).
Proof.
  unfold find_inst. destruct (i_id (st_cur st) =? id) eqn:E; intros H.
  - inversion H; subst. apply N.eqb_eq in E. auto.
  - apply find_some in H as [_ H]. apply N.eqb_eq in H. split; [exact H|]. apply N.eqb_neq in E. intros; contradiction.
Qed.

Lemma find_inst_in st id i : find_inst st id = Some i -> In i (st_cur st :: st_dead st).
Proof.
  unfold find_inst. destruct (i_id (st_cur st) =? id); intros H.
  - inversion H. left. reflexivity.
  - apply find_some in H as [H _]. right. exact H.
Qed.

Lemma proc_free_in st i : proc_free st = true -> In i (st_cur st :: st_dead st) -> i_proc_locked i = false.
Proof.
  unfold proc_free. intros H Hin. apply andb_true_iff in H as [H1 H2].
  destruct Hin as [<-|Hin]; [apply negb_true_iff, H1|].
  rewrite forallb_forall in H2. apply negb_true_iff, H2, Hin.
Qed.

(** PDUs sent from inside an update: never a response, within the MTU of the sending instance *)
Definition act_out_ok (st : state) (pd : list att_pdu) : Prop :=
  Forall (fun p => is_rsp p = false /\ pdu_fits st p = true) pd.

Lemma act_out_ok_within st st' pd : within st st' -> act_out_ok st' pd -> act_out_ok st pd.
Proof.
  intros (_ & F1 & F2) H. unfold act_out_ok in *. eapply Forall_impl; [|exact H]. intros p [H1 H2]. split; [exact H1|].
  unfold pdu_fits in *. rewrite <- F1, <- F2. exact H2.
Qed.

Lemma notify_via_state st id o mk vh val : r_state (notify_via st id o mk vh val) = st.
Proof.
  unfold notify_via. destruct (find_inst st id) as [i|]; [|reflexivity].
  destruct (i_proc_locked i); [reflexivity|]. destruct o; reflexivity.
Qed.

Lemma notify_via_out st id o (mk : N -> bytes -> att_pdu) vh val :
  (forall h x, is_rsp (mk h x) = false) -> (forall h x, att_size (mk h x) = 3 + nlen x) ->
  act_out_ok st (r_out (notify_via st id o mk vh val)).
Proof.
  intros Hr Hs. unfold notify_via. destruct (find_inst st id) as [i|] eqn:Hf; [|constructor].
  destruct (i_proc_locked i); [constructor|].
  assert (Hin : In (i_mtu i) (inst_mtus st)) by (unfold inst_mtus; apply in_map, (find_inst_in _ _ _ Hf)).
  assert (Hfit : forall x, pdu_fits st (mk vh (trunc (i_mtu i - 3) x)) = true).
  { intros x. unfold pdu_fits. rewrite Hr. apply orb_true_iff. right. cbn [negb andb].
    apply existsb_exists. exists (i_mtu i). split; [exact Hin|].
    rewrite Hs. pose proof (nlen_trunc (i_mtu i - 3) x). apply N.leb_le. lia. }
  destruct o as [|x| | | | |g1 g2 g3|]; cbn [r_out done raise]; repeat constructor; auto.
Qed.

(** the only way [notify] blocks is a procedure lock that is already held; the exception of the
    notification hook reaches the caller, the lock is released (finally) *)
Lemma notify_via_exc st id o mk vh val :
  match r_exc (notify_via st id o mk vh val) with
  | None => True
  | Some ExDeadlock => proc_free st = false
  | Some (ExHook o') => forall x, o' <> HOverride x
  | Some _ => False
  end.
Proof.
  unfold notify_via. destruct (find_inst st id) as [i|] eqn:Hf; [|exact I].
  destruct (i_proc_locked i) eqn:Hp.
  - cbn. destruct (proc_free st) eqn:Hpf; [|reflexivity].
    rewrite (proc_free_in st i Hpf (find_inst_in _ _ _ Hf)) in Hp. discriminate.
  - destruct o as [|x| | | | |g1 g2 g3|]; cbn; auto; intros; discriminate.
Qed.

(** shape of [Characteristic.value = v] *)
Definition app_db (st : state) (d : N) (v : bytes) (st1 : state) : Prop :=
  st1 = st \/ exists a, lookup (d + 1) (st_db st) = Some a /\ a_kind a = KValue
                        /\ st1 = with_db st (update (d + 1) (fun x => set_value x v) (st_db st)).

Inductive app_shape (st : state) (d : N) (v : bytes) (hk : hook_oracle) : hres -> Prop :=
| AS_none st1 : app_db st d v st1 -> app_shape st d v hk (done st1 [])
| AS_notif st1 id : app_db st d v st1 -> app_shape st d v hk (notify_via st1 id (h_notif hk) PNotification (d + 1) v)
| AS_indic st1 id : app_db st d v st1 -> app_shape st d v hk (notify_via st1 id (h_indic hk) PIndication (d + 1) v).

Lemma app_set_shape st d v hk : app_shape st d v hk (app_set st d v hk).
Proof.
  unfold app_set. destruct (lookup d (st_db st)) as [c|]; [|apply AS_none; left; reflexivity].
  destruct (a_kind c); try (apply AS_none; left; reflexivity).
  cbv zeta. set (db1 := match lookup (d + 1) (st_db st) with Some _ => _ | None => _ end).
  assert (Hdb : app_db st d v (with_db st db1)).
  { unfold db1. destruct (lookup (d + 1) (st_db st)) as [x|] eqn:E; [|left; destruct st; reflexivity].
    destruct (kind_eqb (a_kind x) KValue) eqn:K; [|left; destruct st; reflexivity].
    right. exists x. split; [exact E|]. split; [destruct (a_kind x); try discriminate; reflexivity|reflexivity]. }
  destruct (_ && _ && _); [destruct (a_ncb c); [apply AS_notif|apply AS_none]; exact Hdb|].
  destruct (_ && _ && _); [destruct (a_icb c); [apply AS_indic|apply AS_none]; exact Hdb|apply AS_none, Hdb].
Qed.

Lemma app_db_within st d v st1 : app_db st d v st1 -> within st st1.
Proof. intros [->|(a & _ & _ & ->)]; repeat split. Qed.

Lemma app_db_wf st d v st1 : app_db st d v st1 -> wf_state st = true -> wf_bytes v = true -> wf_state st1 = true.
Proof.
  intros [->|(a & Ha & Hk & ->)] Hwf Hv; [exact Hwf|].
  apply (store_value_wf st (d + 1) a v Hwf Ha); [rewrite Hk; discriminate|exact Hv].
Qed.

Lemma app_set_state st d v hk : app_db st d v (r_state (app_set st d v hk)).
Proof.
  destruct (app_set_shape st d v hk) as [st1 H|st1 id H|st1 id H]; cbn [r_state done];
    rewrite ?notify_via_state; exact H.
Qed.

Lemma app_set_within st d v hk : within st (r_state (app_set st d v hk)).
Proof. apply (app_db_within st d v), app_set_state. Qed.

Lemma app_set_wf st d v hk : wf_state st = true -> wf_bytes v = true -> wf_state (r_state (app_set st d v hk)) = true.
Proof. apply (app_db_wf st d v), app_set_state. Qed.

Lemma app_set_out st d v hk : act_out_ok st (r_out (app_set st d v hk)).
Proof.
  destruct (app_set_shape st d v hk) as [st1 H|st1 id H|st1 id H]; cbn [r_out done]; [constructor| |];
    apply (act_out_ok_within st st1 _ (app_db_within _ _ _ _ H));
    apply notify_via_out; auto using size_notif, size_indic.
Qed.

Lemma app_set_exc st d v hk :
  match r_exc (app_set st d v hk) with
  | None => True
  | Some ExDeadlock => proc_free st = false
  | Some (ExHook o') => forall x, o' <> HOverride x
  | Some _ => False
  end.
Proof.
  destruct (app_set_shape st d v hk) as [st1 H|st1 id H|st1 id H]; [exact I| |];
    rewrite <- (proj1 (app_db_within _ _ _ _ H)); apply notify_via_exc.
Qed.

Definition kinds_same (st st' : state) : Prop :=
  forall h, option_map a_kind (lookup h (st_db st')) = option_map a_kind (lookup h (st_db st)).

Lemma kinds_same_refl st : kinds_same st st.
Proof. intros h. reflexivity. Qed.
Lemma kinds_same_trans a b c : kinds_same a b -> kinds_same b c -> kinds_same a c.
Proof. intros H1 H2 h. rewrite H2, H1. reflexivity. Qed.

Lemma lookup_update h h0 f db : (forall a, a_handle (f a) = a_handle a) ->
  lookup h (update h0 f db) = if h =? h0 then option_map f (lookup h db) else lookup h db.
Proof.
  intros Hf. induction db as [|x r IH]; cbn [update lookup]; [destruct (h =? h0); reflexivity|].
  destruct (N.eqb_spec (a_handle x) h0) as [E0|E0]; cbn [lookup]; rewrite ?Hf, ?IH;
    destruct (N.eqb_spec (a_handle x) h), (N.eqb_spec h h0); try reflexivity; congruence.
Qed.

Lemma kinds_same_store st h0 x : kinds_same st (with_db st (update h0 (fun a => set_value a x) (st_db st))).
Proof.
  intros h. cbn [st_db with_db]. rewrite lookup_update by reflexivity.
  destruct (h =? h0), (lookup h (st_db st)); reflexivity.
Qed.

Lemma app_set_kinds st d v hk : kinds_same st (r_state (app_set st d v hk)).
Proof.
  destruct (app_set_state st d v hk) as [->|(a & _ & _ & ->)]; [apply kinds_same_refl|apply kinds_same_store].
Qed.

Lemma kinds_lookup st st' h a : kinds_same st st' -> lookup h (st_db st) = Some a ->
  exists a', lookup h (st_db st') = Some a' /\ a_kind a' = a_kind a.
Proof.
  intros K L. specialize (K h). rewrite L in K. destruct (lookup h (st_db st')) as [a'|]; [|discriminate].
  exists a'. split; [reflexivity|]. cbn in K. congruence.
Qed.

Lemma hook_act_none st hk o : hook_act st hk None o = (st, [], HOut o).
Proof. reflexivity. Qed.

Lemma hook_act_spec st hk act o st1 pd res :
  hook_act st hk act o = (st1, pd, res) ->
  within st st1 /\ act_out_ok st pd
  /\ (wf_state st = true -> wf_act act = true -> wf_state st1 = true)
  /\ (res = HHang -> proc_free st = false)
  /\ (forall x, res = HOut (HOverride x) -> o = HOverride x).
Proof.
  unfold hook_act. destruct act as [[d v]|].
  2:{ intros E. inversion E; subst. repeat split; auto; try discriminate; [constructor|].
      intros x Hx. inversion Hx. reflexivity. }
  intros E. inversion E; subst. clear E.
  pose proof (app_set_exc st d v hk) as Ex.
  split; [apply app_set_within|]. split; [apply app_set_out|].
  split; [intros Hwf Hv; apply app_set_wf; assumption|]. split.
  - destruct (r_exc (app_set st d v hk)) as [[]|]; try discriminate; try contradiction; auto.
  - intros x Hx. destruct (r_exc (app_set st d v hk)) as [[]|]; inversion Hx; subst; try reflexivity.
    exfalso. apply (Ex x). reflexivity.
Qed.

Lemma hook_act_wf st hk act o st1 pd res :
  hook_act st hk act o = (st1, pd, res) -> wf_state st = true -> wf_act act = true -> wf_state st1 = true.
Proof. intros E. destruct (hook_act_spec _ _ _ _ _ _ _ E) as (_ & _ & H & _). exact H. Qed.

Lemma hook_act_override st hk act o st1 pd res x :
  hook_act st hk act o = (st1, pd, res) -> res = HOut (HOverride x) -> o = HOverride x.
Proof.
  intros E R. destruct (hook_act_spec _ _ _ _ _ _ _ E) as (_ & _ & _ & _ & H).
  apply (H _ R).
Qed.

Lemma hook_act_kinds st hk act o st1 pd res : hook_act st hk act o = (st1, pd, res) -> kinds_same st st1.
Proof.
  unfold hook_act. destruct act as [[d v]|]; intros E; inversion E; subst; [apply app_set_kinds|apply kinds_same_refl].
Qed.

(** destruct the hook call of site [site] appearing in the goal *)
Ltac dha site st' pd res E :=
  match goal with |- context [hook_act ?s ?hk (site (h_acts ?hk)) ?o] =>
    destruct (hook_act s hk (site (h_acts hk)) o) as [[st' pd] res] eqn:E end.

(** * Sorted handles *)

Lemma inc_weaken lo lo' s e l : lo <= lo' -> increasing_in lo' s e l = true -> increasing_in lo s e l = true.
Proof.
  destruct l as [|h r]; cbn [increasing_in]; [reflexivity|]. intros Hle H.
  andb_destr H. apply N.ltb_lt in H.
  andb_split; try assumption. apply N.ltb_lt. lia.
Qed.

Lemma inc_drop lo s e h l : increasing_in lo s e (h :: l) = true -> increasing_in lo s e l = true.
Proof.
  cbn [increasing_in]. intros H. andb_destr H. apply N.ltb_lt in H. apply (inc_weaken lo h); [lia|assumption].
Qed.

Lemma inc_tail lo s e h l l' : increasing_in lo s e (h :: l) = true ->
  (increasing_in h s e l = true -> increasing_in h s e l' = true) -> increasing_in lo s e (h :: l') = true.
Proof. cbn [increasing_in]. intros H F. apply andb_true_iff in H as [H1 H2]. rewrite H1. apply F, H2. Qed.

Lemma sorted_filter_inc (g : attr -> bool) s e :
  (forall a, g a = true -> in_range s e a = true) ->
  forall db lo, sorted_from lo db = true -> increasing_in lo s e (map a_handle (filter g db)) = true.
Proof.
  intros Hg. induction db as [|a r IH]; intros lo Hs; cbn [filter map]; [reflexivity|].
  cbn [sorted_from] in Hs. apply andb_true_iff in Hs as [Hs Hr]. apply andb_true_iff in Hs as [Hlo _].
  specialize (IH _ Hr). destruct (g a) eqn:E.
  - cbn [map increasing_in]. rewrite Hlo. unfold in_range in Hg. cbn [andb]. rewrite (Hg a E). exact IH.
  - apply N.ltb_lt in Hlo. apply (inc_weaken lo (a_handle a)); [lia|exact IH].
Qed.

Lemma inc_filter {A} (g : A -> N) (f : A -> bool) s e : forall l lo,
  increasing_in lo s e (map g l) = true -> increasing_in lo s e (map g (filter f l)) = true.
Proof.
  induction l as [|x r IH]; intros lo H; cbn [filter map]; [reflexivity|].
  cbn [map] in H. destruct (f x).
  - cbn [map]. apply (inc_tail _ _ _ _ _ _ H), IH.
  - apply IH, (inc_drop _ _ _ _ _ H).
Qed.

Lemma inc_firstn {A} (g : A -> N) s e n : forall l lo,
  increasing_in lo s e (map g l) = true -> increasing_in lo s e (map g (firstn n l)) = true.
Proof.
  induction n as [|n IH]; intros l lo H; [reflexivity|].
  destruct l as [|x r]; [reflexivity|]. cbn [firstn map] in *. apply (inc_tail _ _ _ _ _ _ H), IH.
Qed.

Lemma inc_take_while {A} (g : A -> N) (f : A -> bool) s e : forall l lo,
  increasing_in lo s e (map g l) = true -> increasing_in lo s e (map g (take_while f l)) = true.
Proof.
  induction l as [|x r IH]; intros lo H; cbn [take_while map]; [reflexivity|].
  cbn [map] in H. destruct (f x); [|reflexivity]. cbn [map]. apply (inc_tail _ _ _ _ _ _ H), IH.
Qed.

Lemma sorted_weaken lo lo' db : lo <= lo' -> sorted_from lo' db = true -> sorted_from lo db = true.
Proof.
  destruct db as [|a r]; cbn [sorted_from]; [reflexivity|]. intros Hle H.
  apply andb_true_iff in H as [H Hr]. apply andb_true_iff in H as [H1 H2]. apply N.ltb_lt in H1.
  andb_split; try assumption. apply N.ltb_lt. lia.
Qed.

Lemma by_range_inc s e db : sorted_from 0 db = true ->
  increasing_in 0 s e (map a_handle (by_range s e db)) = true.
Proof. intros. apply sorted_filter_inc; [auto|assumption]. Qed.

Lemma by_type_inc ty s e db : sorted_from 0 db = true ->
  increasing_in 0 s e (map a_handle (by_type ty s e db)) = true.
Proof.
  intros. apply sorted_filter_inc; [|assumption]. intros a Ha. apply andb_true_iff in Ha. tauto.
Qed.

(** * What a handler body leaves behind *)

Definition rsps (out : list att_pdu) : list att_pdu := filter is_rsp out.

Lemma rsps_app a b : rsps (a ++ b) = rsps a ++ rsps b.
Proof. apply filter_app. Qed.

Lemma rsps_act st pd : act_out_ok st pd -> rsps pd = [].
Proof.
  induction 1 as [|p r [H _] _ IH]; [reflexivity|]. unfold rsps in *. cbn [filter]. rewrite H. exact IH.
Qed.

Lemma rsps_all out : Forall (fun p => is_rsp p = true) out -> rsps out = out.
Proof. induction 1 as [|p r H _ IH]; [reflexivity|]. unfold rsps in *. cbn [filter]. rewrite H, IH. reflexivity. Qed.

Definition fits (m : N) (out : list att_pdu) : Prop := Forall (fun p => att_size p <= m) out.

Lemma fits_app m a b : fits m a -> fits m b -> fits m (a ++ b).
Proof. intros. apply Forall_app. split; assumption. Qed.

Definition pfits (st : state) (out : list att_pdu) : Prop := Forall (fun p => pdu_fits st p = true) out.

Lemma pfits_app st a b : pfits st a -> pfits st b -> pfits st (a ++ b).
Proof. intros. apply Forall_app. split; assumption. Qed.
Lemma pfits_act st pd : act_out_ok st pd -> pfits st pd.
Proof. intros H. eapply Forall_impl; [|exact H]. intros p [_ Hp]. exact Hp. Qed.
Lemma pfits_one st p : att_size p <= mtu_of st -> pfits st [p].
Proof.
  intros H. constructor; [|constructor]. unfold pdu_fits. apply orb_true_iff. left. apply N.leb_le, H.
Qed.

Definition one (cmd : bool) (n : nat) : Prop := if cmd then (n <= 1)%nat else n = 1%nat.

Lemma one_1 cmd : one cmd 1.
Proof. destruct cmd; cbn; lia. Qed.

(** Everything the three properties of a step need from a body, so that each handler is walked through
    once.  [fit]: what must be known of the request for the size bound -- only Prepare Write, which
    echoes its request, needs it. *)
Definition served (cmd : bool) (fit : Prop) (st : state) (r : hres) : Prop :=
  proc_free (r_state r) = proc_free st
  /\ (proc_free st = true -> r_exc r <> Some ExDeadlock /\ one cmd (length (rsps (r_out r))))
  /\ (wf_state st = true -> fit -> pfits st (r_out r)).

Lemma served_fit cmd (fit fit' : Prop) st r : (fit' -> fit) -> served cmd fit st r -> served cmd fit' st r.
Proof. intros H (P & B & F). split; [exact P|split; [exact B|]]. intros Hwf Hf. apply F; auto. Qed.

Lemma served_leaf cmd (fit : Prop) st0 st out e :
  proc_free st = proc_free st0 -> e <> Some ExDeadlock -> one cmd (length (rsps out)) ->
  (wf_state st0 = true -> fit -> pfits st0 out) -> served cmd fit st0 (mkRes st out e).
Proof. intros P He Hn Hf. split; [exact P|split; [intros _; split; assumption|exact Hf]]. Qed.

Lemma served_hang cmd (fit : Prop) st0 st out :
  proc_free st = proc_free st0 -> proc_free st0 = false ->
  (wf_state st0 = true -> fit -> pfits st0 out) -> served cmd fit st0 (raise st out ExDeadlock).
Proof. intros P Hp Hf. split; [exact P|split; [|exact Hf]]. intros H. rewrite H in Hp. discriminate. Qed.

Lemma served_rsp cmd (fit : Prop) st0 st p :
  proc_free st = proc_free st0 -> is_rsp p = true ->
  (wf_state st0 = true -> fit -> att_size p <= mtu_of st0) -> served cmd fit st0 (done st [p]).
Proof.
  intros P Hr Hs. apply (served_leaf cmd fit st0 st [p] None); [exact P|discriminate| |].
  - unfold rsps. cbn [filter]. rewrite Hr. apply one_1.
  - intros Hwf Hfit. apply pfits_one, Hs; assumption.
Qed.

Lemma served_small cmd (fit : Prop) st0 st p : proc_free st = proc_free st0 ->
  match p with PWriteRsp | PExecuteWriteRsp | PConfirmation | PMtuRsp _ | PError _ _ _ => True | _ => False end ->
  served cmd fit st0 (done st [p]).
Proof.
  intros P Hp. apply served_rsp; [exact P|destruct p; try contradiction; reflexivity|].
  intros Hwf _. apply size_small; assumption.
Qed.

Lemma served_err cmd (fit : Prop) st0 st op h c : proc_free st = proc_free st0 -> served cmd fit st0 (err st op h c).
Proof. intros P. apply served_small; [exact P|exact I]. Qed.

Lemma served_none (fit : Prop) st0 st : proc_free st = proc_free st0 -> served true fit st0 (done st []).
Proof.
  intros P. apply (served_leaf true fit st0 st [] None); [exact P|discriminate|cbn; lia|intros _ _; constructor].
Qed.

Lemma served_prepend cmd (fit : Prop) st0 pd r :
  rsps pd = [] -> pfits st0 pd -> served cmd fit st0 r -> served cmd fit st0 (prepend pd r).
Proof.
  intros Hr Hp (P & B & F). split; [exact P|split]; cbn [prepend r_out r_exc].
  - rewrite rsps_app, Hr. exact B.
  - intros Hwf Hfit. apply pfits_app; [exact Hp|apply F; assumption].
Qed.

Lemma hook_error_state st op opa h o : r_state (hook_error st op opa h o) = st.
Proof. destruct o as [|x| | | | |g1 g2 g3|]; reflexivity. Qed.

Lemma hook_error_exc st op opa h o : r_exc (hook_error st op opa h o) <> Some ExDeadlock.
Proof. destruct o as [|x| | | | |g1 g2 g3|]; cbn; discriminate. Qed.

Lemma hook_error_served cmd (fit : Prop) st0 st op opa h o :
  proc_free st = proc_free st0 -> match o with HReturn | HOverride _ => False | _ => True end ->
  served cmd fit st0 (hook_error st op opa h o).
Proof. intros P H. destruct o; try contradiction; apply served_err, P. Qed.

Lemma hook_act_within st0 st hk act o st1 pd res :
  within st0 st -> hook_act st hk act o = (st1, pd, res) ->
  within st0 st1 /\ rsps pd = [] /\ pfits st0 pd /\ (res = HHang -> proc_free st0 = false).
Proof.
  intros W E. destruct (hook_act_spec _ _ _ _ _ _ _ E) as (W1 & Ho & _ & Hh & _).
  apply (act_out_ok_within st0 st _ W) in Ho.
  split; [exact (within_trans _ _ _ W W1)|split; [apply (rsps_act st0), Ho|split; [apply pfits_act, Ho|]]].
  intros R. rewrite <- (proj1 W). apply Hh, R.
Qed.

Lemma post_hook_served cmd (fit : Prop) st0 st hk act o out :
  within st0 st -> one cmd (length (rsps out)) -> (wf_state st0 = true -> fit -> pfits st0 out) ->
  served cmd fit st0 (post_hook st hk act o out).
Proof.
  intros W Hn Hf. unfold post_hook. destruct (hook_act st hk act o) as [[st1 pd] res] eqn:E.
  destruct (hook_act_within _ _ _ _ _ _ _ _ W E) as ((P1 & _) & Hr & Hp & Hh).
  assert (F : wf_state st0 = true -> fit -> pfits st0 (out ++ pd)) by (intros; apply pfits_app; auto).
  destruct res as [o'|]; [|apply served_hang; auto].
  apply served_leaf; [exact P1|discriminate| |exact F]. rewrite rsps_app, Hr, app_nil_r. exact Hn.
Qed.

(** [mk] is [PReadRsp] or [PReadBlobRsp] *)
Lemma read_value_answer_served (fit : Prop) st hk op opa h (mk : bytes -> att_pdu) normal :
  (forall x, is_rsp (mk x) = true) -> (forall x, att_size (mk x) = 1 + nlen x) ->
  (forall s, nlen (normal s) <= mtu_of st - 1) ->
  served false fit st (read_value_answer st hk op opa h mk normal).
Proof.
  intros Hr Hs Hn. unfold read_value_answer. dha ha_read st1 pd res E.
  destruct (hook_act_within _ _ _ _ _ _ _ _ (within_refl st) E) as ((P1 & _) & Hpd & Hp & Hh).
  destruct res as [o'|]; [|apply served_hang; auto].
  assert (Hone : forall x, nlen x <= mtu_of st - 1 -> served false fit st (prepend pd (done st1 [mk x]))).
  { intros x Hx. apply served_prepend; [exact Hpd|exact Hp|]. apply served_rsp; [exact P1|apply Hr|].
    intros Hwf _. apply wf_state_mtu in Hwf. rewrite Hs. lia. }
  destruct o' as [|x| | | | |g1 g2 g3|];
    [ apply (Hone (normal st1)), Hn | apply Hone, nlen_trunc | ..];
    (apply served_prepend; [exact Hpd|exact Hp|apply hook_error_served; [exact P1|exact I]]).
Qed.

(** [rsp] is [[PWriteRsp]], or [[]] for a command *)
Lemma write_value_served cmd (fit : Prop) st hk op opa h val rsp :
  rsps rsp = rsp -> one cmd (length rsp) -> (wf_state st = true -> fit -> pfits st rsp) ->
  served cmd fit st (write_value st hk op opa h val rsp).
Proof.
  intros Hr Hn Hf. unfold write_value. cbv zeta.
  dha ha_write st1 pd1 res1 E1.
  destruct (hook_act_within _ _ _ _ _ _ _ _ (within_refl st) E1) as (W1 & Hpd & Hp & Hh).
  destruct res1 as [o1|]; [|apply served_hang; [apply W1|auto..]].
  (* storing the value changes the database only *)
  assert (Hpost : forall st', within st st' ->
            served cmd fit st (post_hook st' hk (ha_written (h_acts hk)) (h_written hk) (pd1 ++ rsp))).
  { intros st' W. apply post_hook_served; [exact W| |intros; apply pfits_app; auto].
    rewrite rsps_app, Hpd, Hr. exact Hn. }
  assert (Herr : forall o, match o with HReturn | HOverride _ => False | _ => True end ->
            served cmd fit st (prepend pd1 (hook_error st1 op opa h o))).
  { intros o Ho. apply served_prepend; [exact Hpd|exact Hp|apply hook_error_served; [apply W1|exact Ho]]. }
  destruct o1 as [|x| | | | |g1 g2 g3|]; try (apply Herr; exact I); try (apply Hpost; exact W1).
  (* the write hook failed: Unlikely Error for a request, nothing for a command *)
  destruct rsp; [|apply Herr; exact I].
  apply served_leaf; [apply W1|discriminate|rewrite Hpd; exact Hn|intros _ _; exact Hp].
Qed.

Lemma cccd_effects_served cmd (fit : Prop) st hk h newv record out :
  one cmd (length (rsps out)) -> (wf_state st = true -> fit -> pfits st out) ->
  served cmd fit st (cccd_effects st hk h newv record out).
Proof.
  intros Hn Hf. unfold cccd_effects.
  (* the intermediate states differ from [st] in the database and the subscriptions only *)
  assert (L : forall st' e, proc_free st' = proc_free st -> e <> Some ExDeadlock -> served cmd fit st (mkRes st' out e))
    by (intros; apply served_leaf; assumption).
  assert (P : forall st' act o, within st st' -> served cmd fit st (post_hook st' hk act o out))
    by (intros; apply post_hook_served; assumption).
  destruct (un_le16_2 newv) as [cfg|]; [|apply L; [reflexivity|discriminate]].
  destruct (owner_decl h (st_db st) None) as [d|]; [|apply L; [reflexivity|discriminate]].
  destruct (cfg =? 1); [destruct record; apply P; repeat split|].
  destruct (cfg =? 2); [destruct record; apply P; repeat split|].
  destruct (cfg =? 0); [apply P; repeat split|apply L; [reflexivity|discriminate]].
Qed.

(** * The handlers, one by one *)

Lemma find_info_state st s e : r_state (h_find_info st s e) = st.
Proof. unfold h_find_info. break; reflexivity. Qed.
Lemma fbtv_state v st s e ty vr : r_state (h_fbtv v st s e ty vr) = st.
Proof. unfold h_fbtv. break; reflexivity. Qed.
Lemma read_by_type_state st s e ty : r_state (h_read_by_type st s e ty) = st.
Proof. unfold h_read_by_type. break; reflexivity. Qed.
Lemma read_by_group_state v st s e ty : r_state (h_read_by_group v st s e ty) = st.
Proof. unfold h_read_by_group. break; reflexivity. Qed.
Lemma unparsed_state st o : r_state (unparsed st o) = st.
Proof. unfold unparsed. destruct (req_opcode o); reflexivity. Qed.
Lemma unparsed_exc st o : r_exc (unparsed st o) = None.
Proof. unfold unparsed. destruct (req_opcode o); reflexivity. Qed.

Lemma mtu_served (fit : Prop) st m : served false fit st (h_mtu st m).
Proof.
  unfold h_mtu. cbv zeta. apply served_small; [destruct (23 <=? m); reflexivity|exact I].
Qed.

Lemma list_pdu_size (m isz a b : N) {A} (enc : A -> bytes) (items : list A) :
  isz <> 0 -> (length items <= N.to_nat ((m - 2) / isz))%nat -> 2 <= m ->
  (forall it, In it items -> nlen (enc it) = isz) ->
  nlen ([a; b] ++ concat (map enc items)) <= m.
Proof.
  intros Hz Hl Hm He. nl. rewrite (nlen_concat_map enc isz items He).
  assert (N.of_nat (length items) <= (m - 2) / isz) by lia.
  pose proof (N.mul_div_le (m - 2) isz Hz).
  nia.
Qed.

Lemma by_range_in s e db a : In a (by_range s e db) -> In a db.
Proof. unfold by_range. intros H. apply filter_In in H. tauto. Qed.

Lemma by_type_in ty s e db a : In a (by_type ty s e db) -> In a db /\ bytes_eqb (a_type a) ty = true.
Proof. unfold by_type. intros H. apply filter_In in H as [H1 H2]. apply andb_true_iff in H2. tauto. Qed.

Definition listed (fit : Prop) (s e : N) (st : state) (r : hres) : Prop :=
  served false fit st r /\ (wf_state st = true -> Forall (fun p => list_rsp_ok s e p = true) (r_out r)).

Lemma listed_err (fit : Prop) s e st op h c : listed fit s e st (err st op h c).
Proof. split; [apply served_err; reflexivity|intros _; repeat constructor]. Qed.

Lemma listed_rsp (fit : Prop) s e st p :
  is_rsp p = true -> (wf_state st = true -> att_size p <= mtu_of st /\ list_rsp_ok s e p = true) ->
  listed fit s e st (done st [p]).
Proof.
  intros Hr H. split.
  - apply served_rsp; [reflexivity|exact Hr|]. intros Hwf _. apply H, Hwf.
  - intros Hwf. constructor; [apply H, Hwf|constructor].
Qed.

(** at least one item fits, since the MTU is 23 or more *)
Lemma firstn_mtu_cons {A} st k isz (x : A) l :
  wf_state st = true -> 0 < isz -> isz + k <= 23 ->
  exists r, firstn (N.to_nat ((mtu_of st - k) / isz)) (x :: l) = x :: r.
Proof.
  intros Hwf Hz Hk. apply wf_state_mtu in Hwf.
  assert (1 <= (mtu_of st - k) / isz) by (apply N.div_le_lower_bound; lia).
  destruct (N.to_nat ((mtu_of st - k) / isz)) eqn:E; [lia|]. cbn [firstn]. eauto.
Qed.

Lemma find_info_listed (fit : Prop) st s e : listed fit s e st (h_find_info st s e).
Proof.
  unfold h_find_info.
  destruct ((s =? 0) || (e <? s)); [apply listed_err|].
  destruct (by_range s e (st_db st)) as [|a0 r] eqn:E; [apply listed_err|].
  cbv zeta. set (items := map _ (take_while _ _)).
  assert (Hit : forall it, In it items -> nlen (snd it) = nlen (a_type a0)).
  { intros it Hin. apply in_map_iff in Hin as (a & <- & Hin). apply take_while_in in Hin as [_ Hin]. apply N.eqb_eq, Hin. }
  apply listed_rsp; [reflexivity|]. intros Hwf. pose proof (wf_state_mtu _ Hwf) as Hm.
  assert (Hu : nlen (a_type a0) = 2 \/ nlen (a_type a0) = 16).
  { apply uuid_len_cases, wf_attr_type, (wf_in (st_db st)); [apply wf_state_attrs, Hwf|].
    apply (by_range_in s e). rewrite E. left. reflexivity. }
  split.
  - apply (list_pdu_size (mtu_of st) (nlen (a_type a0) + 2)); [lia| |lia|].
    + unfold items. rewrite map_length. etransitivity; [apply take_while_len_le|apply firstn_le_length].
    + intros it Hin. unfold enc_hv. nl. rewrite (Hit it Hin). lia.
  - pose proof (by_range_inc s e _ (wf_state_sorted _ Hwf)) as Hinc. rewrite E in Hinc.
    unfold list_rsp_ok. andb_split.
    + unfold items. rewrite map_map. cbn [fst]. apply inc_take_while, inc_firstn, Hinc.
    + apply forallb_forall. intros it Hin. apply N.eqb_eq. rewrite (Hit it Hin).
      destruct Hu as [Hu|Hu]; rewrite Hu; reflexivity.
    + (* the first attribute sets the item size *)
      unfold items. destruct (firstn_mtu_cons st 2 (nlen (a_type a0) + 2) a0 r Hwf) as [r' ->]; [lia|lia|].
      cbn [take_while]. rewrite N.eqb_refl. reflexivity.
Qed.

(** what the repaired [on_find_by_type_value_request] reports *)
Definition fbtv_sel (st : state) (ty vr : bytes) (a : attr) : bool :=
  bytes_eqb ty (a_type a) &&
  match a_kind a with
  | KValue => match read_denied st (a_handle a) with None => bytes_eqb (a_value a) vr | Some _ => false end
  | KDecl | KInclude => bytes_eqb (payload a) vr
  | _ => bytes_eqb (a_value a) vr
  end.
Definition fbtv_item (a : attr) : N * N :=
  (a_handle a, match a_kind a with KDecl | KInclude => a_handle a | _ => a_end a end).

Lemma fbtv_match_map v st ty vr attrs : fx_fbtv v = true ->
  fbtv_match v st ty vr attrs = Some (map fbtv_item (filter (fbtv_sel st ty vr) attrs)).
Proof.
  intros Hv. induction attrs as [|a r IH]; cbn [fbtv_match filter]; [reflexivity|].
  rewrite Hv, IH. unfold fbtv_sel, fbtv_item.
  destruct (bytes_eqb ty (a_type a)); [|reflexivity].
  destruct (a_kind a) eqn:K; cbn [negb andb]; try destruct (read_denied st (a_handle a)); try reflexivity;
    destruct (bytes_eqb _ vr); cbn [map]; rewrite ?K; reflexivity.
Qed.

Lemma fbtv_listed (fit : Prop) st s e ty vr : listed fit s e st (h_fbtv V_fixed st s e ty vr).
Proof.
  unfold h_fbtv. destruct ((s =? 0) || (e <? s)); [apply listed_err|].
  rewrite fbtv_match_map by reflexivity.
  destruct (map _ _) as [|x l] eqn:E; [apply listed_err|].
  cbv zeta. apply listed_rsp; [reflexivity|]. intros Hwf. split.
  - unfold att_size, encode. nl. rewrite (nlen_concat_map enc_hh 4) by (intros; reflexivity).
    pose proof (wf_state_mtu _ Hwf). pose proof (firstn_le_length (N.to_nat ((mtu_of st - 1) / 4)) (x :: l)). lia.
  - unfold list_rsp_ok. apply andb_true_iff; split.
    + apply inc_firstn. rewrite <- E, map_map. apply inc_filter, by_range_inc, wf_state_sorted, Hwf.
    + destruct (firstn_mtu_cons st 1 4 x l Hwf) as [r' ->]; [lia|lia|]. reflexivity.
Qed.

Lemma rbt_rsp (fit : Prop) st s e isz (cand : db_t) :
  isz <> 0 -> (length cand <= N.to_nat ((mtu_of st - 2) / isz))%nat ->
  (forall a, In a cand -> 2 + nlen (payload a) = isz) ->
  (wf_state st = true -> increasing_in 0 s e (map a_handle cand) = true) ->
  listed fit s e st
    match map (fun a => (a_handle a, payload a)) cand with
    | [] => err st OP_RBT s E_NOT_FOUND
    | _ => done st [PReadByTypeRsp isz (map (fun a => (a_handle a, payload a)) cand)]
    end.
Proof.
  intros Hz Hl Hs Hinc.
  destruct (map (fun a => (a_handle a, payload a)) cand) as [|it items] eqn:El; [apply listed_err|].
  rewrite <- El. apply listed_rsp; [reflexivity|]. intros Hwf. split.
  - apply wf_state_mtu in Hwf.
    apply (list_pdu_size (mtu_of st) isz); [exact Hz|rewrite map_length; exact Hl|lia|].
    intros x Hin. apply in_map_iff in Hin as (a & <- & Hin). unfold enc_hv. cbn [fst snd]. nl.
    rewrite <- (Hs a Hin). lia.
  - unfold list_rsp_ok. andb_split.
    + rewrite map_map. exact (Hinc Hwf).
    + apply forallb_forall. intros x Hin. apply in_map_iff in Hin as (a & <- & Hin). apply N.eqb_eq, (Hs a Hin).
    + rewrite El. reflexivity.
Qed.

Lemma read_by_type_listed (fit : Prop) st s e ty : listed fit s e st (h_read_by_type st s e ty).
Proof.
  unfold h_read_by_type.
  destruct ((s =? 0) || (e <? s)); [apply listed_err|].
  assert (Hinc : wf_state st = true -> increasing_in 0 s e (map a_handle (by_type ty s e (st_db st))) = true)
    by (intros Hwf; apply by_type_inc, wf_state_sorted, Hwf).
  destruct (by_type ty s e (st_db st)) as [|a0 r]; [apply listed_err|].
  cbv zeta.
  destruct (bytes_eqb ty (uuid16 10243)); [|destruct (bytes_eqb ty (uuid16 10242)); [|apply listed_err]].
  - (* characteristic declarations with a UUID of the first one's size *)
    apply rbt_rsp; [lia| | |intros Hwf; apply inc_filter, inc_take_while, inc_firstn, Hinc, Hwf].
    + etransitivity; [apply filter_len_le|]. etransitivity; [apply take_while_len_le|apply firstn_le_length].
    + intros a Hin. apply filter_In in Hin as [Hin H2]. apply take_while_in in Hin as [_ H1]. apply N.eqb_eq in H1.
      unfold payload. destruct (a_kind a); try discriminate. nl. lia.
  - (* include declarations of services with a 16-bit UUID *)
    apply rbt_rsp; [lia| | |intros Hwf; apply inc_filter, inc_firstn, Hinc, Hwf].
    + etransitivity; [apply filter_len_le|apply firstn_le_length].
    + intros a Hin. apply filter_In in Hin as [_ Hin]. apply andb_true_iff in Hin as [H1 H2].
      unfold payload. destruct (a_kind a); try discriminate. rewrite H1. nl. apply N.eqb_eq in H1. lia.
Qed.

(** what [on_read_by_group_type_request] reports for an attribute *)
Definition group_item (a : attr) : N * N * bytes :=
  (a_handle a, match a_kind a with KPrimary | KSecondary | KDecl => a_end a | _ => a_handle a end, obj_uuid a).

(** once descriptors have an end handle the loop cannot fail *)
Lemma group_items_map v usz attrs : fx_group_desc v = true ->
  group_items v usz attrs = Some (map group_item (take_while (fun a => nlen (obj_uuid a) =? usz) attrs)).
Proof.
  intros Hv. induction attrs as [|a r IH]; cbn [group_items take_while]; [reflexivity|].
  rewrite Hv, IH.
  destruct (nlen (obj_uuid a) =? usz); cbn [map]; unfold group_item; destruct (a_kind a); reflexivity.
Qed.

Lemma obj_uuid_len a : wf_attr a = true -> nlen (obj_uuid a) = 2 \/ nlen (obj_uuid a) = 16.
Proof.
  intros H. pose proof (wf_attr_uuid a H) as Hu. pose proof (wf_attr_type a H) as Ht.
  unfold obj_uuid. destruct (a_kind a); apply uuid_len_cases; assumption.
Qed.

Lemma read_by_group_listed (fit : Prop) st s e ty : listed fit s e st (h_read_by_group V_fixed st s e ty).
Proof.
  unfold h_read_by_group.
  destruct ((s =? 0) || (e <? s)); [apply listed_err|].
  destruct (negb (existsb (N.eqb ty) SUPPORTED_GROUPS)); [apply listed_err|].
  destruct (by_type (uuid16 ty) s e (st_db st)) as [|a0 r] eqn:E; [apply listed_err|].
  cbv zeta. rewrite group_items_map by reflexivity. set (items := map _ (take_while _ _)).
  assert (Hit : forall it, In it items -> nlen (snd it) = nlen (obj_uuid a0)).
  { intros it Hin. apply in_map_iff in Hin as (a & <- & Hin). apply take_while_in in Hin as [_ Hin]. apply N.eqb_eq, Hin. }
  apply listed_rsp; [reflexivity|]. intros Hwf. pose proof (wf_state_mtu _ Hwf) as Hm.
  assert (Hu : nlen (obj_uuid a0) = 2 \/ nlen (obj_uuid a0) = 16).
  { apply obj_uuid_len, (wf_in (st_db st)); [apply wf_state_attrs, Hwf|].
    apply (by_type_in (uuid16 ty) s e). rewrite E. left. reflexivity. }
  split.
  - apply (list_pdu_size (mtu_of st) (nlen (obj_uuid a0) + 4)); [lia| |lia|].
    + unfold items. rewrite map_length. etransitivity; [apply take_while_len_le|apply firstn_le_length].
    + intros it Hin. unfold enc_hhv. nl. rewrite (Hit it Hin). lia.
  - unfold list_rsp_ok. andb_split.
    + unfold items. rewrite map_map. apply inc_take_while, inc_firstn. rewrite <- E. apply by_type_inc, wf_state_sorted, Hwf.
    + apply forallb_forall. intros it Hin. apply N.eqb_eq. rewrite (Hit it Hin). lia.
    + (* the first attribute sets the item size *)
      unfold items. destruct (firstn_mtu_cons st 2 (nlen (obj_uuid a0) + 4) a0 r Hwf) as [r' ->]; [lia|lia|].
      cbn [take_while]. rewrite N.eqb_refl. reflexivity.
Qed.

Lemma payload_len a : wf_attr a = true ->
  match a_kind a with
  | KDecl => nlen (payload a) = 3 + nlen (a_uuid a) /\ (nlen (a_uuid a) = 2 \/ nlen (a_uuid a) = 16)
  | KPrimary | KSecondary => nlen (payload a) = 2 \/ nlen (payload a) = 16
  | KInclude => nlen (payload a) = 4 \/ nlen (payload a) = 6
  | _ => True
  end.
Proof.
  intros H. pose proof (wf_attr_uuid a H) as Hu. unfold payload.
  destruct (a_kind a); trivial; apply uuid_len_cases in Hu.
  - exact Hu.
  - exact Hu.
  - nl. destruct Hu as [E|E]; rewrite E; cbn; [right|left]; rewrite ?E; lia.
  - nl. split; [lia|exact Hu].
Qed.

Lemma val_trunc_size st h m1 : nlen (trunc m1 (val_at st h)) <= m1.
Proof. apply nlen_trunc. Qed.

(** the two ways [on_read_request] and [on_read_blob_request] end *)
Inductive read_end (st : state) (hk : hook_oracle) : hres -> Prop :=
| RE_plain p : is_rsp p = true -> (wf_state st = true -> att_size p <= mtu_of st) -> read_end st hk (done st [p])
| RE_hook op opa h (mk : bytes -> att_pdu) normal :
    (forall x, is_rsp (mk x) = true) -> (forall x, att_size (mk x) = 1 + nlen x) ->
    (forall s, nlen (normal s) <= mtu_of st - 1) ->
    read_end st hk (read_value_answer st hk op opa h mk normal).

Lemma read_end_err st hk op h c : read_end st hk (err st op h c).
Proof. apply RE_plain; [reflexivity|]. intros Hwf. apply size_small; [exact Hwf|exact I]. Qed.

Lemma read_end_served (fit : Prop) st hk r : read_end st hk r -> served false fit st r.
Proof.
  intros [p Hr Hs|op opa h mk normal H1 H2 H3]; [|apply read_value_answer_served; assumption].
  apply served_rsp; [reflexivity|exact Hr|intros Hwf _; apply Hs, Hwf].
Qed.

Lemma read_req_end st hk h : read_end st hk (h_read_req V_fixed st hk h).
Proof.
  unfold h_read_req. cbn [fx_read_default V_fixed].
  destruct (h =? 0); [apply read_end_err|].
  destruct (lookup h (st_db st)) as [a|] eqn:El; [|apply read_end_err].
  assert (R : forall v, (wf_state st = true -> nlen v <= mtu_of st - 1) -> read_end st hk (done st [PReadRsp v])).
  { intros v Hv. apply RE_plain; [reflexivity|]. intros Hwf. specialize (Hv Hwf).
    apply wf_state_mtu in Hwf. rewrite size_read. lia. }
  pose proof (nlen_trunc (mtu_of st - 1)) as Ht.
  (* the payload of a declaration or a primary service is sent whole: at most 19 bytes *)
  assert (Hp : wf_state st = true -> a_kind a = KDecl \/ a_kind a = KPrimary -> nlen (payload a) <= mtu_of st - 1).
  { intros Hwf Hk. pose proof (payload_len a (lookup_wf _ _ _ (wf_state_attrs _ Hwf) El)) as P.
    apply wf_state_mtu in Hwf. destruct Hk as [Hk|Hk]; rewrite Hk in P; lia. }
  destruct (a_kind a) eqn:K; try (apply R; intros Hwf; first [apply Ht | apply Hp; auto]).
  destruct (read_denied st h); [apply read_end_err|].
  apply RE_hook; [reflexivity|apply size_read|intros; apply Ht].
Qed.

Lemma read_blob_end st hk h off : read_end st hk (h_read_blob V_fixed st hk h off).
Proof.
  unfold h_read_blob, blob_value_branch. cbn [fx_blob V_fixed].
  destruct (h =? 0); [apply read_end_err|].
  destruct (lookup h (st_db st)) as [a|]; [|apply read_end_err].
  assert (R : forall v, nlen v <= mtu_of st - 1 -> read_end st hk (done st [PReadBlobRsp v])).
  { intros v Hv. apply RE_plain; [reflexivity|]. intros Hwf.
    apply wf_state_mtu in Hwf. rewrite size_blob. lia. }
  destruct (match a_kind a with KValue => read_denied st h | _ => None end); [apply read_end_err|].
  cbv zeta. destruct (off <? _).
  - destruct (a_kind a); try apply R, nlen_bslice.
    apply RE_hook; [reflexivity|apply size_blob|intros; apply nlen_bslice].
  - destruct (off =? _); [apply R, N.le_0_l|apply read_end_err].
Qed.

Lemma write_gen_served (fit : Prop) st hk is_cmd h val : served is_cmd fit st (h_write_gen V_fixed st hk is_cmd h val).
Proof.
  unfold h_write_gen. cbn [fx_write_default fx_sub_record V_fixed]. cbv zeta.
  set (rsp := if is_cmd then [] else [PWriteRsp]).
  assert (Hr : rsps rsp = rsp) by (destruct is_cmd; reflexivity).
  assert (Hn : one is_cmd (length rsp)) by (destruct is_cmd; cbn; lia).
  assert (Hf : wf_state st = true -> fit -> pfits st rsp).
  { intros Hwf _. destruct is_cmd; [constructor|]. apply pfits_one, size_small; [exact Hwf|exact I]. }
  destruct (h =? 0); [apply served_err; reflexivity|].
  destruct (lookup h (st_db st)) as [a|]; [|apply served_err; reflexivity].
  destruct (a_kind a); try (destruct is_cmd; [apply served_none|apply served_err]; reflexivity).
  - destruct (write_denied st h E_NOT_FOUND); [apply served_err; reflexivity|].
    apply write_value_served; assumption.
  - destruct ((nlen val <=? 2) && _);
      [apply cccd_effects_served; [rewrite Hr|]; assumption|apply served_err; reflexivity].
Qed.

Lemma prepare_served st h off val : served false (5 + nlen val <= mtu_of st) st (h_prepare st h off val).
Proof.
  unfold h_prepare. destruct (lookup h (st_db st)) as [a|]; [|apply served_err; reflexivity].
  destruct (a_kind a); try (apply served_err; reflexivity).
  apply served_rsp; [reflexivity|reflexivity|]. intros _ Hs. unfold att_size, encode. nl. lia.
Qed.

Lemma exec_loop_served (fit : Prop) st0 q : forall st, proc_free st = proc_free st0 ->
  match exec_loop V_fixed st q with
  | inl r => served false fit st0 r
  | inr st' => proc_free st' = proc_free st0
  end.
Proof.
  induction q as [|[h ws] q IH]; intros st P; cbn [exec_loop]; [exact P|].
  cbn [fx_exec_perm V_fixed].
  destruct (lookup h (st_db st)) as [a|]; [|apply served_err, P].
  destruct (a_kind a); try apply IH, P.
  destruct (write_denied st h E_INVALID_HANDLE); [apply served_err, P|].
  destruct (apply_writes h ws (st_db st)) as [db' ok]. destruct ok; [apply IH, P|apply served_err, P].
Qed.

Lemma execute_served (fit : Prop) st f : served false fit st (h_execute V_fixed st f).
Proof.
  unfold h_execute. cbn [fx_exec_clear fx_exec_flags V_fixed].
  destruct (f =? 0); [apply served_small; [reflexivity|exact I]|]. destruct (f =? 1); [|apply served_err; reflexivity].
  pose proof (exec_loop_served fit st (i_queues (st_cur st)) st eq_refl) as H.
  destruct (exec_loop V_fixed st (i_queues (st_cur st))); [exact H|apply served_small; [exact H|exact I]].
Qed.

Lemma unparsed_served (fit : Prop) st o : served (negb (req_opcode o)) fit st (unparsed st o).
Proof. unfold unparsed. destruct (req_opcode o); [apply served_err|apply served_none]; reflexivity. Qed.

(** * The lock, and the properties of a step *)

Lemma locked_out v st body :
  r_out (locked v st body) = if tx_locked st then [] else r_out (body (with_lock st true)).
Proof. unfold locked. destruct (tx_locked st); [reflexivity|]. destruct (r_exc _) as [[]|]; reflexivity. Qed.

Lemma locked_fixed st body :
  tx_locked st = false ->
  let b := body (with_lock st true) in
  locked V_fixed st body
  = mkRes (match r_exc b with Some ExDeadlock => r_state b | _ => with_lock (r_state b) false end) (r_out b) (r_exc b).
Proof.
  intros Hl. unfold locked. rewrite Hl. cbv zeta.
  destruct (r_exc (body (with_lock st true))) as [[]|]; reflexivity.
Qed.

(** the state under the lock differs from [st] in nothing [served] looks at *)
Lemma locked_served cmd (fit : Prop) st body :
  tx_locked st = false -> served cmd fit (with_lock st true) (body (with_lock st true)) ->
  served cmd fit st (locked V_fixed st body)
  /\ (proc_free st = true -> tx_locked (r_state (locked V_fixed st body)) = false).
Proof.
  intros Hl (P & B & F). rewrite (locked_fixed st body Hl). cbv zeta. cbn [r_state].
  split; [split; [|split; [exact B|exact F]]|].
  - destruct (r_exc (body (with_lock st true))) as [[]|]; exact P.
  - intros Hp. destruct (B Hp) as [Hd _].
    destruct (r_exc (body (with_lock st true))) as [[]|]; try reflexivity. contradiction.
Qed.

Lemma handle_served st rq hk :
  tx_locked st = false ->
  served (is_command rq) (wf_request (mtu_of st) rq = true) st (handle V_fixed st rq hk)
  /\ (proc_free st = true -> tx_locked (r_state (handle V_fixed st rq hk)) = false).
Proof.
  intros Hl.
  assert (U : forall c f r, r_state r = st -> served c f st r ->
            served c f st r /\ (proc_free st = true -> tx_locked (r_state r) = false)).
  { intros c f r E S. split; [exact S|]. rewrite E. intros _. exact Hl. }
  destruct rq; cbn [handle is_command fx_rbt128 V_fixed]; try apply (locked_served _ _ st _ Hl).
  - apply mtu_served.
  - apply (find_info_listed _ _ s e).
  - apply (fbtv_listed _ _ s e).
  - apply (read_by_type_listed _ _ s e).
  - apply (read_by_type_listed _ _ s e).
  - apply (read_end_served _ _ hk), read_req_end.
  - apply (read_end_served _ _ hk), read_blob_end.
  - destruct hs; [apply U; [apply unparsed_state|apply (unparsed_served _ st OP_RMULT)]|].
    apply (locked_served _ _ st _ Hl). apply served_err. reflexivity.
  - apply (read_by_group_listed _ _ s e).
  - apply write_gen_served.
  - apply write_gen_served.
  - apply U; [reflexivity|apply served_none; reflexivity].
  - exact (served_fit _ _ _ _ _ (wf_request_size (mtu_of st) (PrepareWrite h off v))
                      (prepare_served (with_lock st true) h off v)).
  - apply execute_served.
  - apply served_small; [reflexivity|exact I].
  - apply U; [reflexivity|apply served_none; reflexivity].
  - apply U; [reflexivity|apply served_none; reflexivity].
  - apply U; [apply unparsed_state|apply unparsed_served].
Qed.

(** NEVER WEDGES: no request, whatever its content, whatever the database and whatever the hooks
    return, raise or update, leaves the transmit lock or a procedure lock held *)
Lemma never_wedges st r hk :
  tx_locked st = false -> proc_free st = true ->
  tx_locked (fst (server_step st r hk)) = false /\ proc_free (fst (server_step st r hk)) = true.
Proof.
  intros Hl Hp. destruct (handle_served st r hk Hl) as ((P & _) & T).
  split; [exact (T Hp)|]. unfold server_step, server_step_v. cbn [fst]. rewrite P. exact Hp.
Qed.

Lemma step_unlocked st ev :
  tx_locked st = false -> proc_free st = true ->
  tx_locked (r_state (step V_fixed st ev)) = false /\ proc_free (r_state (step V_fixed st ev)) = true.
Proof.
  intros Hl Hp. destruct ev; cbn [step] in *.
  - destruct (st_connected st); [apply (never_wedges st r hk Hl Hp)|auto].
  - cbn [r_state done]. destruct (st_connected st); auto.
  - destruct (app_set_state st decl v hk) as [->|(a & _ & _ & ->)]; split; assumption.
  - cbn [r_state done]. unfold disconnect. destruct (st_connected st); [|auto].
    cbn [fx_disc_term V_fixed]. split; [exact Hl|exact Hp].
  - cbn [r_state done]. unfold connect. destruct (st_connected st); [auto|]. split; [reflexivity|].
    unfold proc_free in *. cbn [st_cur st_dead new_inst i_proc_locked negb forallb andb]. exact Hp.
Qed.

(** ONE RESPONSE: exactly one response per request (unknown and unparsable requests included), at
    most one per command, one confirmation per indication -- for every state and all hooks
    (notifications a hook's update sends meanwhile are not responses) *)
Lemma one_response st r hk :
  tx_locked st = false -> proc_free st = true ->
  let rsp := rsps (snd (server_step st r hk)) in
  (is_request r = true -> length rsp = 1%nat)
  /\ (is_command r = true -> (length rsp <= 1)%nat)
  /\ (is_indication r = true -> rsp = [PConfirmation]).
Proof.
  intros Hl Hp. destruct (handle_served st r hk Hl) as ((_ & B & _) & _). destruct (B Hp) as [_ Hn].
  unfold server_step, server_step_v. cbn [snd]. split; [|split]; intros Hk.
  - (* a request is not a command *)
    destruct r; try discriminate Hk; cbn [is_command is_request] in *; rewrite ?Hk in Hn; exact Hn.
  - rewrite Hk in Hn. exact Hn.
  - destruct r; try discriminate Hk. cbn [handle]. unfold locked. rewrite Hl. reflexivity.
Qed.

(** every PDU emitted while a request is handled fits: responses in the MTU in force, the
    notifications of a hook's update in the MTU of the instance that sends them *)
Lemma fits_mtu st r hk :
  wf_state st = true -> wf_request (mtu_of st) r = true ->
  pfits st (snd (server_step st r hk)).
Proof.
  intros Hwf Hr. unfold server_step, server_step_v. cbn [snd].
  destruct (tx_locked st) eqn:Hl; [|destruct (handle_served st r hk Hl) as ((_ & _ & F) & _); exact (F Hwf Hr)].
  (* the lock is held: only the ATT layer itself answers *)
  assert (Hun : forall o, pfits st (r_out (unparsed st o))).
  { intros o. destruct (unparsed_served True st o) as (_ & _ & F). exact (F Hwf I). }
  destruct r; cbn [handle fx_rbt128 V_fixed]; rewrite ?locked_out, ?Hl; try apply Hun; try constructor.
  destruct hs; [apply Hun|rewrite locked_out, Hl; constructor].
Qed.

(** list responses: handles inside the requested range, strictly increasing, one item length, not empty *)
Lemma list_response_wf st r hk s e :
  wf_state st = true -> req_range r = Some (s, e) ->
  Forall (fun p => list_rsp_ok s e p = true) (snd (server_step st r hk)).
Proof.
  intros Hwf Hr. unfold server_step, server_step_v. cbn [snd].
  pose proof (wf_state_with_lock st true Hwf) as Hwf'.
  destruct r; cbn [req_range] in Hr; try discriminate; inversion Hr; subst;
    cbn [handle fx_rbt128 V_fixed]; rewrite locked_out; (destruct (tx_locked st); [constructor|]).
  - apply (find_info_listed True), Hwf'.
  - apply (fbtv_listed True), Hwf'.
  - apply (read_by_type_listed True), Hwf'.
  - apply (read_by_type_listed True), Hwf'.
  - apply (read_by_group_listed True), Hwf'.
Qed.

(** * Well-formedness is an invariant *)

Lemma post_hook_wf st hk act o out :
  wf_state st = true -> wf_act act = true -> wf_state (r_state (post_hook st hk act o out)) = true.
Proof.
  intros Hwf Ha. unfold post_hook. destruct (hook_act st hk act o) as [[st1 pd] res] eqn:E.
  pose proof (hook_act_wf _ _ _ _ _ _ _ E Hwf Ha) as W.
  destruct res as [o'|]; exact W.
Qed.

Lemma read_value_answer_wf st hk op opa h mk normal :
  wf_state st = true -> wf_hooks hk = true ->
  wf_state (r_state (read_value_answer st hk op opa h mk normal)) = true.
Proof.
  intros Hwf Hh. apply wf_hooks_inv in Hh as (_ & _ & _ & _ & Ha). apply wf_acts_inv in Ha as (Ha & _).
  unfold read_value_answer. dha ha_read st1 pd res E.
  pose proof (hook_act_wf _ _ _ _ _ _ _ E Hwf Ha) as W.
  destruct res as [o'|]; [|exact W].
  destruct o' as [|x| | | | |g1 g2 g3|]; cbn [r_state done prepend]; try exact W; rewrite hook_error_state; exact W.
Qed.

Lemma read_end_wf st hk r :
  read_end st hk r -> wf_state st = true -> wf_hooks hk = true -> wf_state (r_state r) = true.
Proof.
  intros [p _ _|op opa h mk normal _ _ _] Hwf Hh; [exact Hwf|apply read_value_answer_wf; assumption].
Qed.

Lemma write_value_wf st hk op opa h val rsp a :
  wf_state st = true -> lookup h (st_db st) = Some a -> a_kind a = KValue ->
  wf_bytes val = true -> wf_hooks hk = true ->
  wf_state (r_state (write_value st hk op opa h val rsp)) = true.
Proof.
  intros Hwf Hl Hk Hv Hh. apply wf_hooks_inv in Hh as (_ & Hw & _ & _ & Ha).
  apply wf_acts_inv in Ha as (_ & Ha1 & Ha2 & _).
  unfold write_value. cbv zeta.
  dha ha_write st1 pd1 res1 E1.
  pose proof (hook_act_wf _ _ _ _ _ _ _ E1 Hwf Ha1) as W1.
  (* the write hook's own update leaves a characteristic value at [h] *)
  destruct (kinds_lookup _ _ _ _ (hook_act_kinds _ _ _ _ _ _ _ E1) Hl) as (a1 & Hl1 & Hk1).
  assert (S : forall x, wf_bytes x = true ->
            wf_state (with_db st1 (update h (fun a => set_value a x) (st_db st1))) = true).
  { intros x Hx. apply (store_value_wf st1 h a1 x W1 Hl1); [rewrite Hk1, Hk; discriminate|exact Hx]. }
  destruct res1 as [o1|]; [|exact W1].
  destruct o1 as [|x| | | | |g1 g2 g3|]; try (cbn [r_state prepend]; rewrite hook_error_state; exact W1).
  - apply post_hook_wf; [apply S, Hv|exact Ha2].
  - apply post_hook_wf; [apply S|exact Ha2].
    apply (wf_outcome_override _ x Hw), (hook_act_override _ _ _ _ _ _ _ _ E1 eq_refl).
  - destruct rsp; [exact W1|]. cbn [r_state prepend]. rewrite hook_error_state. exact W1.
Qed.

Lemma cccd_effects_wf st hk h newv record out :
  wf_state st = true -> wf_bytes newv = true -> nlen newv = 2 -> wf_hooks hk = true ->
  wf_state (r_state (cccd_effects st hk h newv record out)) = true.
Proof.
  intros Hwf Hv Hn Hh. apply wf_hooks_inv in Hh as (_ & _ & _ & _ & Ha).
  apply wf_acts_inv in Ha as (_ & _ & _ & _ & Has & Hau).
  unfold cccd_effects. cbv zeta.
  set (st1 := with_db st (update h (fun a => set_value a newv) (st_db st))).
  assert (W1 : wf_state st1 = true).
  { apply update_wf; [exact Hwf|]. intros a _. apply set_value_ext; [exact Hv|intros _; exact Hn]. }
  destruct (un_le16_2 newv) as [cfg|]; [|exact W1].
  destruct (owner_decl h (st_db st) None) as [d|]; [|exact W1].
  (* the declaration's callbacks change, then the subscriptions, which [wf_state] does not look at *)
  assert (W2 : forall f (b : bool) l, (forall c, attr_ext c (f c)) ->
            let st2 := with_db st1 (update d f (st_db st1)) in
            wf_state (if b then with_subs st2 l else st2) = true).
  { intros f b l Hf. destruct b; apply (update_wf st1 d f W1); intros c _; apply Hf. }
  destruct (cfg =? 1); [apply post_hook_wf; [apply W2; intros; apply set_cbs_ext|exact Has]|].
  destruct (cfg =? 2); [apply post_hook_wf; [apply W2; intros; apply set_cbs_ext|exact Has]|].
  destruct (cfg =? 0); [|exact W1].
  apply post_hook_wf; [apply (W2 _ true); intros; apply set_cbs_ext|exact Hau].
Qed.

Lemma write_gen_wf st hk is_cmd h val :
  wf_state st = true -> wf_bytes val = true -> wf_hooks hk = true ->
  wf_state (r_state (h_write_gen V_fixed st hk is_cmd h val)) = true.
Proof.
  intros Hwf Hv Hh. unfold h_write_gen. cbn [fx_write_default fx_sub_record V_fixed].
  destruct (h =? 0); [exact Hwf|].
  destruct (lookup h (st_db st)) as [a|] eqn:El; [|exact Hwf].
  destruct (a_kind a) eqn:K; try (destruct is_cmd; exact Hwf).
  - destruct (write_denied st h E_NOT_FOUND); [exact Hwf|].
    apply (write_value_wf _ _ _ _ _ _ _ a); assumption.
  - destruct ((nlen val <=? 2) && _) eqn:Eb; [|exact Hwf].
    apply andb_true_iff in Eb as [Eb _]. apply N.leb_le in Eb.
    pose proof (wf_attr_value a (lookup_wf _ _ _ (wf_state_attrs _ Hwf) El)) as [Wv Wl]. specialize (Wl K).
    apply cccd_effects_wf; try assumption.
    + rewrite wf_bytes_app. apply andb_true_iff. split; [exact Hv|apply wf_bytes_skipn, Wv].
    + rewrite nlen_app. unfold nlen in *. rewrite skipn_length. lia.
Qed.

Lemma queue_add_ok db h a off val q :
  lookup h db = Some a -> wf_bytes val = true ->
  forallb (queue_entry_ok db) q = true -> forallb (queue_entry_ok db) (queue_add h off val q) = true.
Proof.
  intros Ha Hv. induction q as [|[h' l] r IH]; cbn [queue_add forallb]; intros H.
  - unfold queue_entry_ok. cbn [fst snd forallb]. rewrite Ha, Hv. reflexivity.
  - apply andb_true_iff in H as [H1 H2]. destruct (h' =? h) eqn:E.
    + cbn [forallb]. rewrite H2, andb_true_r. unfold queue_entry_ok in *. cbn [fst snd] in *.
      apply andb_true_iff in H1 as [H1 H3]. rewrite H1. rewrite forallb_app, H3. cbn [forallb snd andb]. rewrite Hv. reflexivity.
    + cbn [forallb]. rewrite H1. apply IH, H2.
Qed.

Lemma prepare_wf st h off val :
  wf_state st = true -> wf_bytes val = true -> wf_state (r_state (h_prepare st h off val)) = true.
Proof.
  intros Hwf Hv. unfold h_prepare. destruct (lookup h (st_db st)) as [a|] eqn:E; [|exact Hwf].
  destruct (a_kind a); try exact Hwf.
  cbn [r_state done]. apply wf_state_with_queues; [exact Hwf|].
  apply (queue_add_ok _ _ a); [exact E|exact Hv|]. apply wf_state_inv in Hwf as (_ & _ & _ & Hq). exact Hq.
Qed.

Lemma splice_wf old off val : wf_bytes old = true -> wf_bytes val = true -> wf_bytes (splice old off val) = true.
Proof.
  intros Ho Hv. unfold splice. destruct (off + nlen val <=? nlen old);
    rewrite ?wf_bytes_app, Hv, (wf_bytes_firstn _ _ Ho), ?(wf_bytes_skipn _ _ Ho); reflexivity.
Qed.

Lemma apply_writes_ext h ws : forall db a,
  forallb wf_attr db = true -> lookup h db = Some a -> a_kind a = KValue ->
  forallb (fun w => wf_bytes (snd w)) ws = true ->
  db_ext db (fst (apply_writes h ws db)).
Proof.
  induction ws as [|[off val] r IH]; intros db a Hw Hl Hk Hv; cbn [apply_writes]; [apply db_ext_refl|].
  rewrite Hl. destruct (nlen (a_value a) <? off); [apply db_ext_refl|].
  cbn [forallb snd] in Hv. apply andb_true_iff in Hv as [Hv1 Hv2].
  pose proof (wf_attr_value a (lookup_wf _ _ _ Hw Hl)) as [Wv _].
  assert (E : db_ext db (update h (fun x => set_value x (splice (a_value a) off val)) db)).
  { apply update_ext. intros a' Ha'. rewrite Hl in Ha'. inversion Ha'; subst.
    apply set_value_ext; [apply splice_wf; assumption|]. rewrite Hk. discriminate. }
  eapply db_ext_trans; [exact E|].
  apply (IH _ (set_value a (splice (a_value a) off val))); [eapply db_ext_attrs; eauto| |exact Hk|exact Hv2].
  rewrite lookup_update, N.eqb_refl, Hl by reflexivity. reflexivity.
Qed.

Lemma exec_loop_wf q : forall st,
  wf_state st = true -> forallb (queue_entry_ok (st_db st)) q = true ->
  match exec_loop V_fixed st q with
  | inl r => wf_state (r_state r) = true
  | inr st' => wf_state st' = true
  end.
Proof.
  induction q as [|[h ws] q IH]; intros st Hwf Hq; cbn [exec_loop]; [exact Hwf|].
  cbn [fx_exec_perm V_fixed]. cbn [forallb] in Hq. apply andb_true_iff in Hq as [Hq1 Hq2].
  assert (Hempty : wf_state (with_queues st []) = true) by (apply wf_state_with_queues; [exact Hwf|reflexivity]).
  destruct (lookup h (st_db st)) as [a|] eqn:El; [|exact Hempty].
  destruct (a_kind a) eqn:K; try (apply IH; assumption).
  destruct (write_denied st h E_INVALID_HANDLE); [exact Hempty|].
  unfold queue_entry_ok in Hq1. cbn [fst snd] in Hq1. apply andb_true_iff in Hq1 as [_ Hws].
  pose proof (apply_writes_ext h ws (st_db st) a (wf_state_attrs _ Hwf) El K Hws) as E.
  destruct (apply_writes h ws (st_db st)) as [db' ok]. cbn [fst] in E.
  pose proof (wf_state_with_db st db' Hwf E) as W.
  destruct ok.
  - apply IH; [exact W|]. cbn. eapply queue_ok_ext; eauto.
  - cbn [r_state err done]. apply wf_state_with_queues; [exact W|reflexivity].
Qed.

Lemma execute_wf st f : wf_state st = true -> wf_state (r_state (h_execute V_fixed st f)) = true.
Proof.
  intros Hwf. unfold h_execute. cbn [fx_exec_clear fx_exec_flags V_fixed].
  destruct (f =? 0); [apply wf_state_with_queues; [exact Hwf|reflexivity]|].
  destruct (f =? 1); [|exact Hwf].
  pose proof (exec_loop_wf (i_queues (st_cur st)) st Hwf) as H.
  apply wf_state_inv in Hwf as (_ & _ & _ & Hq). specialize (H Hq).
  destruct (exec_loop V_fixed st (i_queues (st_cur st))); [exact H|].
  cbn [r_state done]. apply wf_state_with_queues; [exact H|reflexivity].
Qed.

Lemma mtu_wf st m : wf_state st = true -> m < 65536 -> wf_state (r_state (h_mtu st m)) = true.
Proof.
  intros Hwf Hm. unfold h_mtu. cbn [r_state done]. destruct (23 <=? m) eqn:E; [|exact Hwf].
  apply N.leb_le in E. apply wf_state_inv in Hwf as (H1 & H2 & H3 & H4).
  apply wf_state_intro; try assumption; cbn; lia.
Qed.

Lemma locked_state_wf v st body :
  (wf_state (r_state (body (with_lock st true))) = true) -> wf_state st = true ->
  wf_state (r_state (locked v st body)) = true.
Proof.
  intros Hb Hwf. unfold locked. destruct (tx_locked st); [exact Hwf|].
  destruct (r_exc (body (with_lock st true))) as [[]|]; cbn [r_state]; exact Hb.
Qed.

Lemma step_wf st r hk :
  wf_state st = true -> wf_request (mtu_of st) r = true -> wf_hooks hk = true ->
  wf_state (fst (server_step st r hk)) = true.
Proof.
  intros Hwf Hr Hh. unfold server_step, server_step_v. cbn [fst].
  unfold wf_request in Hr. apply andb_true_iff in Hr as [_ Hr].
  pose proof (wf_state_with_lock st true Hwf) as Hwf'.
  destruct r; cbn [handle fx_rbt128 V_fixed]; try exact Hwf; try (rewrite unparsed_state; exact Hwf);
    try (apply locked_state_wf; [|exact Hwf]).
  - apply mtu_wf; [exact Hwf'|]. apply N.ltb_lt, Hr.
  - rewrite find_info_state. exact Hwf'.
  - rewrite fbtv_state. exact Hwf'.
  - rewrite read_by_type_state. exact Hwf'.
  - rewrite read_by_type_state. exact Hwf'.
  - apply (read_end_wf _ hk _ (read_req_end _ hk h)); assumption.
  - apply (read_end_wf _ hk _ (read_blob_end _ hk h off)); assumption.
  - destruct hs; [rewrite unparsed_state; exact Hwf|]. apply locked_state_wf; [exact Hwf'|exact Hwf].
  - rewrite read_by_group_state. exact Hwf'.
  - apply andb_true_iff in Hr as [_ Hr]. apply write_gen_wf; assumption.
  - apply andb_true_iff in Hr as [_ Hr]. apply write_gen_wf; assumption.
  - apply andb_true_iff in Hr as [_ Hr]. apply prepare_wf; assumption.
  - apply execute_wf; exact Hwf'.
  - exact Hwf'.
Qed.

(** * The property of one step of a session *)

Lemma step_ok_holds st r hk :
  wf_state st = true -> wf_request (mtu_of st) r = true -> step_ok st r hk.
Proof.
  intros Hwf Hr. unfold step_ok. cbv zeta. split; [|split; [|split]].
  - intros Hl Hp. apply never_wedges; assumption.
  - apply fits_mtu; assumption.
  - intros s e Hs. apply list_response_wf; assumption.
  - intros Hl Hp. apply (one_response st r hk Hl Hp).
Qed.

(** * What a hook returns with a plain [return] is ignored *)

Definition with_rets (hk : hook_oracle) (r : hook_rets) : hook_oracle :=
  mkHooks (h_read hk) (h_write hk) (h_written hk) (h_written2 hk) (h_sub hk) (h_unsub hk) (h_notif hk) (h_indic hk)
          (h_acts hk) r.

Lemma app_set_rets st d v hk r : app_set st d v (with_rets hk r) = app_set st d v hk.
Proof. reflexivity. Qed.

(** No function that is handed the oracle reads [h_rets]: shown function by function, each from
    the ones it calls.  (At the level of [handle], [destruct rq; reflexivity] is also a proof, but
    the kernel then unfolds every handler on both sides down to [app_set].) *)
Lemma hook_act_rets st hk r act o : hook_act st (with_rets hk r) act o = hook_act st hk act o.
Proof. destruct act as [[d v]|]; reflexivity. Qed.

Lemma post_hook_rets st hk r act o out : post_hook st (with_rets hk r) act o out = post_hook st hk act o out.
Proof. unfold post_hook. rewrite hook_act_rets. reflexivity. Qed.

Lemma read_value_answer_rets st hk r op opa h mk normal :
  read_value_answer st (with_rets hk r) op opa h mk normal = read_value_answer st hk op opa h mk normal.
Proof. unfold read_value_answer. rewrite hook_act_rets. reflexivity. Qed.

Lemma read_req_rets v st hk r h : h_read_req v st (with_rets hk r) h = h_read_req v st hk h.
Proof. unfold h_read_req. cbv zeta. rewrite read_value_answer_rets. reflexivity. Qed.

Lemma read_blob_rets v st hk r h off : h_read_blob v st (with_rets hk r) h off = h_read_blob v st hk h off.
Proof. unfold h_read_blob, blob_value_branch. cbv zeta. rewrite read_value_answer_rets. reflexivity. Qed.

Lemma write_value_rets st hk r op opa h val rsp :
  write_value st (with_rets hk r) op opa h val rsp = write_value st hk op opa h val rsp.
Proof.
  unfold write_value. cbv zeta. rewrite hook_act_rets. cbn [with_rets h_acts h_write h_written].
  destruct (hook_act st hk (ha_write (h_acts hk)) (h_write hk)) as [[st1 pd1] [[]|]];
    rewrite ?post_hook_rets; reflexivity.
Qed.

Lemma cccd_effects_rets st hk r h newv record out :
  cccd_effects st (with_rets hk r) h newv record out = cccd_effects st hk h newv record out.
Proof.
  unfold cccd_effects. cbv zeta.
  destruct (un_le16_2 newv), (owner_decl h (st_db st) None); rewrite ?post_hook_rets; reflexivity.
Qed.

Lemma write_gen_rets v st hk r is_cmd h val :
  h_write_gen v st (with_rets hk r) is_cmd h val = h_write_gen v st hk is_cmd h val.
Proof.
  unfold h_write_gen. cbv zeta. rewrite write_value_rets.
  destruct (lookup h (st_db st)); [rewrite cccd_effects_rets|]; reflexivity.
Qed.

Lemma locked_ext v st b b' : b (with_lock st true) = b' (with_lock st true) -> locked v st b = locked v st b'.
Proof. intros E. unfold locked. rewrite E. reflexivity. Qed.

(** * The demo database of the witnesses in Property.v *)

Lemma demo_wf : wf_state demo_state = true.
Proof. vm_compute. reflexivity. Qed.

Definition raising_read : hook_oracle :=
  mkHooks HRaiseOther HReturn HReturn HReturn HReturn HReturn HReturn HReturn no_acts no_rets.
Definition written_authent : hook_oracle :=
  mkHooks HReturn HReturn HAuthent HReturn HReturn HReturn HReturn HReturn no_acts no_rets.
Definition raising_notif : hook_oracle :=
  mkHooks HReturn HReturn HReturn HReturn HReturn HReturn HRaiseOther HReturn no_acts no_rets.
(** the read hook updates the characteristic declared at handle 5 and returns 600 bytes *)
Definition updating_read : hook_oracle :=
  mkHooks HReturn HReturn HReturn HReturn HReturn HReturn HReturn HReturn
          (mkActs (Some (5, [2])) None None None None None)
          (mkRets (RBytes (repeat 7 600)) RNone RNone RNone RNone RNone RNone RNone).

(** the client subscribes (handle 7), the application changes the value while the notification hook
    raises (the exception goes to the application, proclock releases its lock), then a request whose
    read hook updates that characteristic: the notification goes out in the middle of the request,
    before the response; the 600 bytes the hook returns are ignored; no lock is left held *)
Definition wedge_history : list event :=
  [ EvReq (Write 7 [1; 0]) no_hooks; EvAppSet 5 [1] raising_notif; EvReq (Read 4) updating_read ].

(** non-vacuity of the session theorem *)
Definition demo_session : session :=
  [ (ExchangeMtu 50, no_hooks); (FindInfo 1 65535, no_hooks); (Read 4, no_hooks); (ReadBlob 10 3, no_hooks);
    (Write 7 [1;0], no_hooks); (WriteCmd 4 [7;7], no_hooks); (PrepareWrite 10 0 [9], no_hooks);
    (ExecuteWrite 1, no_hooks); (ReadByGroupType 1 65535 10240, no_hooks); (Indication 4 [1], no_hooks);
    (FindByTypeValue 1 65535 10752 [7;7], no_hooks); (Read 8, raising_read); (Read 4, updating_read);
    (Read 4, raising_read); (Write 4 [1], written_authent); (UnknownOp 32 [1], no_hooks);
    (PrepareWrite 7 0 [1;0], no_hooks) ].

Lemma demo_session_inputs : inputs_ok demo_state demo_session.
Proof. vm_compute. repeat split. Qed.

Lemma demo_session_outputs :
  snd (run V_fixed demo_state (map (fun x => EvReq (fst x) (snd x)) demo_session))
  = [ [PMtuRsp 50];
      [PFindInfoRsp 1 [(1,[0;40]); (2,[2;40]); (3,[3;40]); (4,[0;42]); (5,[3;40]); (6,[25;42]); (7,[2;41]); (8,[1;40]); (9,[3;40]); (10,[1;42]); (11,[1;41])]];
      [PReadRsp [104;105]]; [PError 12 10 2]; [PWriteRsp]; []; [PPrepareWriteRsp 10 0 [9]];
      [PExecuteWriteRsp]; [PReadByGroupTypeRsp 6 [(1,7,[0;24])]]; [PConfirmation];
      [PFindByTypeValueRsp [(4,4)]]; [PReadRsp [15;24]]; [PNotification 6 [2]; PReadRsp [7;7]];
      [PError 10 4 14]; [PWriteRsp]; [PError 32 0 6]; [PError 22 7 6] ].
Proof. vm_compute. reflexivity. Qed.

