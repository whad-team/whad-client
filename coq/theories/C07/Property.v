(** C07 — the property's theorems.  The five facts about one step that need the walk through the handlers
    (never wedges, one response, MTU, list responses, invariant) are proved in Proofs.v and closed by [exact]
    here; the others follow in a few lines from lemmas of Proofs.v; they are lifted to histories and sessions
    by induction, and the witnesses on the demo database are closed by evaluation.
    [server_step] is the model of the REPAIRED GattServer (variant [V_fixed]); [server_step_v V_orig]
    the code before the first-round repairs. *)
From Coq Require Import List NArith Arith.
From Whad Require Import Lib.Bytes C07.Model C07.Proofs.
Import ListNotations.
Open Scope N_scope.

(** NEVER WEDGES.  No request, whatever its content, whatever the database (no well-formedness
    needed) and whatever the user hooks return (any object), raise (HookReturn* or arbitrary
    exceptions, also from the notification / indication hooks) or update (characteristic values,
    subscribed or not, with the notifications that entails in the middle of the request), leaves the
    transmit lock or a GATT procedure lock held.  ([proc_free]: no procedure lock is held -- true
    of every fresh connection and, by this very theorem, of every reachable state.) *)
Theorem C07_never_wedges :
  forall (st : state) (r : att_request) (hk : hook_oracle),
    tx_locked st = false -> proc_free st = true ->
    tx_locked (fst (server_step st r hk)) = false /\ proc_free (fst (server_step st r hk)) = true.
Proof. exact never_wedges. Qed.

(** ... along every history of client PDUs, application writes (whose notification hooks may
    raise), link-security changes, disconnections and reconnections. *)
Theorem C07_never_wedges_history :
  forall (evs : list event) (st : state),
    tx_locked st = false -> proc_free st = true ->
    tx_locked (run_state V_fixed st evs) = false /\ proc_free (run_state V_fixed st evs) = true.
Proof.
  induction evs as [|ev r IH]; intros st Hl Hp; cbn [run_state]; [auto|].
  destruct (step_unlocked st ev Hl Hp) as [H1 H2]. apply IH; assumption.
Qed.

(** In an unlocked state the probe request of the harness (Read Request on handle 0) is answered by
    exactly one Error Response. *)
Theorem C07_probe_answered :
  forall st, tx_locked st = false -> r_out (handle V_fixed st (Read 0) no_hooks) = [PError 10 0 1].
Proof. intros st H. cbn [handle]. unfold locked. rewrite H. reflexivity. Qed.

(** What a hook hands back with a plain [return] (nothing, bytes of any length, any object) has no
    effect whatsoever. *)
Theorem C07_hook_return_values_ignored :
  forall v st rq hk (r : hook_rets), handle v st rq (with_rets hk r) = handle v st rq hk.
Proof.
  intros v st rq hk r. destruct rq; cbn [handle];
    try (apply locked_ext; first [apply read_req_rets | apply read_blob_rets | apply write_gen_rets]);
    reflexivity.
Qed.

(** ONE RESPONSE.  Exactly one response per request -- requests with an unknown opcode and known
    requests whose parameters cannot be parsed included ([is_request]) --, at most one per command,
    one confirmation per indication (the notifications a hook's characteristic update sends meanwhile
    are not responses): for every state (no well-formedness of the database needed), every PDU and
    ALL hook behaviours (return, override, HookReturn* errors, arbitrary exceptions, updates), for
    every hook (read, write, written, subscribed, unsubscribed, notification, indication). *)
Theorem C07_one_response :
  forall (st : state) (r : att_request) (hk : hook_oracle),
    tx_locked st = false -> proc_free st = true ->
    let rsp := filter is_rsp (snd (server_step st r hk)) in
    (is_request r = true -> length rsp = 1%nat)
    /\ (is_command r = true -> (length rsp <= 1)%nat)
    /\ (is_indication r = true -> rsp = [PConfirmation]).
Proof. exact one_response. Qed.

(** PDUs that are not requests, commands or indications -- RESPONSES the client sends although the
    server asked nothing (Error Response 0x01, Exchange MTU Response 0x03, every odd opcode), unknown
    commands --, in any number: no answer and NO effect on the state, hence none on any later answer
    (and by [C07_never_wedges_history] no lock either). *)
Theorem C07_unsolicited_responses_ignored :
  forall st o body hk, req_opcode o = false -> server_step st (UnknownOp o body) hk = (st, []).
Proof.
  intros st o body hk H. unfold server_step, server_step_v. cbn [handle]. unfold unparsed. rewrite H. reflexivity.
Qed.

Theorem C07_response_opcodes_are_not_requests :
  Forall (fun o => req_opcode o = false) [1; 3; 5; 7; 9; 11; 13; 15; 17; 19; 23; 25; 27; 33; 35; 96; 210].
Proof. repeat constructor. Qed.

(** Every PDU emitted while a request is handled fits ([pdu_fits]): a response in the MTU in force
    (>= 23 by [wf_state]), a notification / indication sent by a hook's update in the MTU of the GATT
    instance that sends it; for all hooks, whatever they return, raise or update. *)
Theorem C07_fits_mtu :
  forall (st : state) (r : att_request) (hk : hook_oracle),
    wf_state st = true -> wf_request (mtu_of st) r = true ->
    Forall (fun p => pdu_fits st p = true) (snd (server_step st r hk)).
Proof. exact fits_mtu. Qed.

(** List responses: handles inside the requested range, strictly increasing, a single item
    length (the one announced), at least one item. *)
Theorem C07_list_response_wf :
  forall (st : state) (r : att_request) (hk : hook_oracle) (s e : N),
    wf_state st = true -> req_range r = Some (s, e) ->
    Forall (fun p => list_rsp_ok s e p = true) (snd (server_step st r hk)).
Proof. exact list_response_wf. Qed.

(** Well-formedness (sorted handles, attribute structure, MTU in 23..65535, queued handles exist) is
    an invariant. *)
Theorem C07_wf_invariant :
  forall st r hk, wf_state st = true -> wf_request (mtu_of st) r = true -> wf_hooks hk = true ->
    wf_state (fst (server_step st r hk)) = true.
Proof. exact step_wf. Qed.

(** All of the above along EVERY session (sequence of client PDUs with arbitrary hook behaviour),
    lifted by [fold_left]; no lock is held at the end. *)
Theorem C07_session :
  forall (s : session) (st : state),
    wf_state st = true -> inputs_ok st s ->
    every_step step_ok st s
    /\ wf_state (fold_left session_step s st) = true
    /\ (tx_locked st = false -> proc_free st = true ->
        tx_locked (fold_left session_step s st) = false /\ proc_free (fold_left session_step s st) = true).
Proof.
  induction s as [|[r hk] t IH]; intros st Hwf Hin; cbn [every_step fold_left inputs_ok] in *; [auto|].
  destruct Hin as (Hr & Hh & Hin). cbn [fst snd] in *.
  destruct (IH _ (step_wf st r hk Hwf Hr Hh) Hin) as (H1 & H2 & H3).
  split; [split; [apply step_ok_holds; assumption|exact H1]|]. split; [exact H2|].
  intros Hl Hp. destruct (never_wedges st r hk Hl Hp) as [Hl' Hp']. apply H3; assumption.
Qed.

(** Regression witnesses of the repaired findings, on the 11-attribute demo database:
    a raising read hook is answered with Unlikely Error and the lock released; *)
Theorem C07_raising_hook_answered :
  snd (server_step demo_state (Read 4) raising_read) = [PError 10 4 14]
  /\ tx_locked (fst (server_step demo_state (Read 4) raising_read)) = false.
Proof. vm_compute. auto. Qed.

(** a 'written' hook raising HookReturnAuthentRequired yields the Write Response only; *)
Theorem C07_written_hook_one_pdu :
  snd (server_step demo_state (Write 4 [1]) written_authent) = [PWriteRsp]
  /\ val_at (fst (server_step demo_state (Write 4 [1]) written_authent)) 4 = [1].
Proof. vm_compute. auto. Qed.

(** unknown request opcode: Request Not Supported; unknown command: nothing; known request without
    parameters: Invalid PDU (in every state); *)
Theorem C07_unknown_opcode_answered :
  forall st body,
    snd (server_step st (UnknownOp 32 body) no_hooks) = [PError 32 0 6]
    /\ snd (server_step st (UnknownOp 96 body) no_hooks) = []
    /\ snd (server_step st (UnknownOp 10 []) no_hooks) = [PError 10 0 4]
    /\ snd (server_step st (ReadMultiple []) no_hooks) = [PError 14 0 4].
Proof. repeat split; reflexivity. Qed.

(** Prepare Write on a CCCD / descriptor / declaration is refused, on a value it is queued; *)
Theorem C07_prepare_non_value_refused :
  snd (server_step demo_state (PrepareWrite 7 0 [1; 0]) no_hooks) = [PError 22 7 6]
  /\ snd (server_step demo_state (PrepareWrite 11 0 [1]) no_hooks) = [PError 22 11 3]
  /\ snd (server_step demo_state (PrepareWrite 3 0 [1]) no_hooks) = [PError 22 3 3]
  /\ snd (server_step demo_state (PrepareWrite 10 0 [1]) no_hooks) = [PPrepareWriteRsp 10 0 [1]].
Proof. vm_compute. auto. Qed.

(** a notification hook that raised, then a request whose read hook updates the subscribed
    characteristic: notification inside the request, response, no lock held. *)
Theorem C07_notif_hook_then_update_ok :
  snd (run V_fixed demo_state wedge_history) = [ [PWriteRsp]; []; [PNotification 6 [2]; PReadRsp [104; 105]] ]
  /\ tx_locked (run_state V_fixed demo_state wedge_history) = false
  /\ proc_free (run_state V_fixed demo_state wedge_history) = true.
Proof. vm_compute. repeat split; reflexivity. Qed.

(** The code before the first-round repairs (V_orig), on the same database: *)
Theorem C07_orig_wedges_refuted :
  wf_state demo_state = true
  /\ tx_locked (fst (server_step_v V_orig demo_state (FindByTypeValue 1 65535 10752 [104;105]) no_hooks)) = true
  /\ tx_locked (fst (server_step_v V_orig demo_state (ReadByGroupType 1 65535 10497) no_hooks)) = true.
Proof. split; [exact demo_wf|vm_compute; auto]. Qed.

Theorem C07_orig_unanswered_refuted :
  Forall (fun r => wf_request 23 r = true /\ is_request r = true
                   /\ snd (server_step_v V_orig demo_state r no_hooks) = [])
    [Read 8; Read 2; ReadBlob 3 1; ReadBlob 1 1; ExecuteWrite 2; Write 3 [1]; Write 11 [1];
     FindByTypeValue 1 65535 10752 [104;105]; ReadByGroupType 1 65535 10497;
     ReadByType128 1 65535 [0;1;2;3;4;5;6;7;8;9;10;11;12;13;14;15]].
Proof. repeat constructor. Qed.

(** Non-vacuity: a 17-step session on the demo database satisfies the hypotheses of [C07_session]
    (hooks that update a subscribed characteristic and return 600 bytes, raise, raise HookReturn*
    from 'written'; an unknown request; a Prepare Write on a CCCD); its last answers are the expected
    ones. *)
Example C07_nonvacuous :
  wf_state demo_state = true /\ tx_locked demo_state = false /\ proc_free demo_state = true
  /\ inputs_ok demo_state demo_session
  /\ skipn 12 (snd (run V_fixed demo_state (map (fun x => EvReq (fst x) (snd x)) demo_session)))
     = [ [PNotification 6 [2]; PReadRsp [7; 7]]; [PError 10 4 14]; [PWriteRsp]; [PError 32 0 6]; [PError 22 7 6] ].
Proof.
  split; [exact demo_wf|]. split; [reflexivity|]. split; [reflexivity|].
  split; [exact demo_session_inputs|].
  rewrite demo_session_outputs. reflexivity.
Qed.
