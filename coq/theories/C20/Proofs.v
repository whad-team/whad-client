(** C20 — lemmas about the 802.15.4 MAC model: the byte-level round trip of a data frame ([build]
    writes [data_body] behind the three header bytes, [dissect_data] reads it back field by field,
    for whatever addressing modes carry an address), what the peer makes of the frame of a valid
    request, receiver histories; the acknowledgement wait against [fresh_ack], runs of operations. *)
From Coq Require Import List NArith Arith Bool Lia ZifyBool.
From Whad Require Import Lib.Bytes C20.Gen C20.Model.
Import ListNotations.
Open Scope N_scope.

Lemma le_enc_length k : forall n, length (le_enc k n) = k.
Proof. induction k as [|k IH]; intros n; cbn [le_enc length]; [reflexivity | now rewrite IH]. Qed.

Lemma le_dec_le_enc k : forall n, n < 256 ^ N.of_nat k -> le_dec (le_enc k n) = n.
Proof.
  induction k as [|k IH]; intros n H.
  - symmetry. apply N.lt_1_r, H.
  - rewrite Nat2N.inj_succ, N.pow_succ_r' in H. cbn [le_enc le_dec].
    rewrite IH by (apply N.div_lt_upper_bound; [discriminate | exact H]).
    rewrite N.add_comm. symmetry. apply N.div_mod. discriminate.
Qed.

Lemma take_app l rest : take (length l) (l ++ rest) = Some (le_dec l, rest).
Proof.
  unfold take. rewrite app_length, (proj2 (Nat.leb_le _ _) (Nat.le_add_r _ _)).
  rewrite firstn_app, skipn_app, Nat.sub_diag, firstn_all, skipn_all, app_nil_r. reflexivity.
Qed.

Lemma take_le_enc k n rest : fits k n = true -> take k (le_enc k n ++ rest) = Some (n, rest).
Proof.
  intros H. apply N.ltb_lt in H.
  rewrite <- (le_enc_length k n) at 1. rewrite take_app, le_dec_le_enc by exact H. reflexivity.
Qed.

Lemma pack_1 n : n < 256 -> pack 1 n = Some [n].
Proof.
  intros H. unfold pack. rewrite (proj2 (N.ltb_lt _ _) H : fits 1 n = true).
  cbn [le_enc]. rewrite N.mod_small by exact H. reflexivity.
Qed.

(** An address of mode [m] on the wire: as many bytes as the dissector will take for the mode
    ([addr_len]), none in the modes without an address. *)
Definition addr_bytes (m x : N) : bytes :=
  match addr_len m with Some k => le_enc k x | None => [] end.

Definition addr_fits (m x : N) : Prop :=
  match addr_len m with Some k => fits k x = true | None => True end.

Lemma addr_field_enc m x : addr_fits m x -> addr_field m (Some x) = Some (addr_bytes m x).
Proof.
  unfold addr_fits, addr_field, addr_bytes, addr_len, pack.
  destruct (m =? 2); [|destruct (m =? 3)]; intros H; rewrite ?H; reflexivity.
Qed.

Lemma addr_len_nonzero m : addr_len m <> None -> (m =? 0) = false.
Proof.
  unfold addr_len. destruct (N.eqb_spec m 2) as [-> | _]; [reflexivity|].
  destruct (N.eqb_spec m 3) as [-> | _]; [reflexivity | intros H; now destruct H].
Qed.

(** Unlike the destination address the source address is optional in the packet: [None] goes
    with mode 0, [Some x] with a mode that carries an address. *)
Definition src_ok (sm : N) (saddr : option N) : Prop :=
  match saddr with
  | None => sm = 0
  | Some x => addr_len sm <> None /\ addr_fits sm x
  end.

(** What [build] writes behind the three header bytes of a data frame. *)
Definition data_body (c sm dm dpan daddr span : N) (saddr : option N) (pl : bytes) : bytes :=
  le_enc 2 dpan ++ addr_bytes dm daddr
  ++ (if srcpan_present sm c then le_enc 2 span else [])
  ++ match saddr with Some x => addr_bytes sm x | None => [] end ++ pl.

Lemma build_bytes c ack sm dm seq dpan daddr span saddr pl :
  seq < 256 -> fits 2 dpan = true -> fits 2 span = true ->
  addr_fits dm daddr -> src_ok sm saddr ->
  build {| f_compress := c; f_ackreq := ack; f_srcmode := sm; f_dstmode := dm; f_framever := 0;
           f_seq := seq;
           f_d := {| d_dpan := dpan; d_daddr := daddr; d_span := span; d_saddr := saddr |};
           f_payload := pl |}
  = Ok (fcf0 c ack 1 :: fcf1 sm 0 dm :: seq :: data_body c sm dm dpan daddr span saddr pl).
Proof.
  intros Hseq Hdp Hsp Hda Hsa. unfold build, data_body.
  cbn [f_compress f_ackreq f_srcmode f_dstmode f_framever f_seq f_d f_payload d_dpan d_daddr d_span d_saddr].
  rewrite (pack_1 seq Hseq), (addr_field_enc dm daddr Hda). unfold pack. rewrite Hdp, Hsp.
  unfold src_ok in Hsa. destruct saddr as [x|]; [destruct Hsa as [Hk Hx] | subst sm; reflexivity].
  rewrite (addr_len_nonzero sm Hk), addr_field_enc by exact Hx.
  destruct (srcpan_present sm c); reflexivity.
Qed.

Lemma fcf0_fields c ack ft :
  c < 2 -> ft < 8 -> fcf0 c ack ft mod 8 = ft /\ (fcf0 c ack ft / 64) mod 2 = c.
Proof.
  intros Hc Hft. unfold fcf0. split.
  - symmetry. apply N.mod_unique with (q := c * 8 + if ack then 4 else 0); [exact Hft | destruct ack; lia].
  - rewrite <- (N.div_unique _ 64 c ((if ack then 32 else 0) + ft)) by (destruct ack; lia).
    apply N.mod_small, Hc.
Qed.

Lemma fcf1_fields sm fv dm :
  sm < 4 -> fv < 4 -> dm < 4 -> (fcf1 sm fv dm / 64) mod 4 = sm /\ (fcf1 sm fv dm / 4) mod 4 = dm.
Proof.
  intros Hs Hv Hd. unfold fcf1. split.
  - rewrite <- (N.div_unique _ 64 sm (fv * 16 + dm * 4)) by lia. apply N.mod_small, Hs.
  - rewrite <- (N.div_unique _ 4 (sm * 16 + fv * 4 + dm) 0) by lia.
    symmetry. apply N.mod_unique with (q := sm * 4 + fv); [exact Hd | lia].
Qed.

(** Where the Dot15d4Data layer fails, [dissect] keeps what follows the three header bytes as Raw:
    no data layer, no addressing. *)
Definition raw_view (c seq : N) (rest : bytes) : view :=
  {| v_frametype := 1; v_compress := c; v_seq := seq; v_data := false;
     v_dpan := None; v_daddr := None; v_span := None; v_saddr := None; v_payload := rest |}.

Lemma dissect_data_frame c ack sm dm seq rest :
  c < 2 -> sm < 4 -> dm < 4 ->
  dissect (fcf0 c ack 1 :: fcf1 sm 0 dm :: seq :: rest)
  = Some match dissect_data c sm dm rest with
         | Some (dpan, daddr, span, saddr, pl) =>
             {| v_frametype := 1; v_compress := c; v_seq := seq; v_data := true;
                v_dpan := Some dpan; v_daddr := Some daddr; v_span := span; v_saddr := saddr;
                v_payload := pl |}
         | None => raw_view c seq rest
         end.
Proof.
  intros Hc Hsm Hdm.
  destruct (fcf0_fields c ack 1 Hc eq_refl) as [Eft Ec].
  destruct (fcf1_fields sm 0 dm Hsm eq_refl Hdm) as [Esm Edm].
  cbn [dissect]. rewrite Eft, Ec, Esm, Edm. cbn [N.eqb Pos.eqb].
  destruct (dissect_data c sm dm rest) as [[[[[? ?] ?] ?] ?]|]; reflexivity.
Qed.

(** scapy cannot dissect a destination address of a mode that carries none (any but 2 and 3) *)
Lemma dissect_data_no_addr c sm dm rest : addr_len dm = None -> dissect_data c sm dm rest = None.
Proof. intros E. unfold dissect_data. rewrite E. destruct (take 2 rest) as [[? ?]|]; reflexivity. Qed.

Lemma dissect_data_body c sm dm dpan daddr span saddr pl :
  fits 2 dpan = true -> fits 2 span = true ->
  addr_fits dm daddr -> src_ok sm saddr ->
  dissect_data c sm dm (data_body c sm dm dpan daddr span saddr pl)
  = match addr_len dm with
    | Some _ => Some (dpan, daddr, (if srcpan_present sm c then Some span else None), saddr, pl)
    | None => None
    end.
Proof.
  intros Hdp Hsp Hda Hsa. unfold addr_fits in Hda.
  destruct (addr_len dm) as [kd|] eqn:Hkd; [|apply dissect_data_no_addr, Hkd].
  unfold dissect_data, data_body, addr_bytes. rewrite Hkd.
  rewrite take_le_enc by exact Hdp. cbv beta iota.
  rewrite take_le_enc by exact Hda. cbv beta iota.
  unfold src_ok in Hsa. destruct saddr as [x|]; [destruct Hsa as [Hks Hx] | subst sm; reflexivity].
  rewrite (addr_len_nonzero sm Hks). unfold addr_fits in Hx.
  destruct (addr_len sm) as [ks|]; [clear Hks | contradiction].
  destruct (srcpan_present sm c); [rewrite take_le_enc by exact Hsp|]; cbn [app];
    rewrite take_le_enc by exact Hx; reflexivity.
Qed.

Lemma optN_eqb_sym a b : optN_eqb a b = optN_eqb b a.
Proof. destruct a, b; cbn [optN_eqb]; try reflexivity. apply N.eqb_sym. Qed.

(** The proof only case-splits on the atoms of the generated text (and orients the PAN-id
    comparison), so that it survives a reordering of the conjuncts in the source. *)
Lemma choose_v01 fv dam sam hd hs dp sp :
  fv = 0 \/ fv = 1 ->
  choose_panid fv dam sam hd hs dp sp
  = COk (if negb (dam =? MACAddressMode_NONE) && negb (sam =? MACAddressMode_NONE)
            && (hd && (hs && optN_eqb dp sp)) then 1 else 0).
Proof.
  intros [-> | ->]; unfold choose_panid; cbn [N.eqb Pos.eqb orb];
    rewrite ?(optN_eqb_sym sp dp), ?(N.eqb_sym MACAddressMode_NONE);
    destruct (dam =? MACAddressMode_NONE), (sam =? MACAddressMode_NONE), hd, hs, (optN_eqb dp sp);
    reflexivity.
Qed.

Lemma choose_v01_bit fv dam sam hd hs dp sp c :
  fv = 0 \/ fv = 1 -> choose_panid fv dam sam hd hs dp sp = COk c -> c = 0 \/ c = 1.
Proof.
  intros H E. rewrite (choose_v01 _ _ _ _ _ _ _ H) in E. injection E as <-.
  destruct (_ && _); auto.
Qed.

Lemma panid_lookup_Forall (P : N -> Prop) t k v :
  Forall (fun e : panid_key * N => P (snd e)) t -> panid_lookup t k = Some v -> P v.
Proof.
  induction 1 as [|[k' v'] t Hh _ IH]; cbn [panid_lookup]; [discriminate|].
  destruct (panid_key_eqb k' k); [injection 1 as <-; exact Hh | exact IH].
Qed.

Lemma table_values_are_bits : Forall (fun e : panid_key * N => snd e = 0 \/ snd e = 1) panid_table.
Proof. repeat (constructor; [cbn [snd]; auto|]). constructor. Qed.

Fixpoint keys_distinct (t : list (panid_key * N)) : bool :=
  match t with
  | [] => true
  | (k, _) :: r => negb (existsb (fun e => panid_key_eqb (fst e) k) r) && keys_distinct r
  end.

Lemma table_keys_distinct : keys_distinct panid_table = true.
Proof. vm_compute. reflexivity. Qed.

Lemma match_filter_data b v dp da :
  v_data v = true -> v_dpan v = Some dp -> v_daddr v = Some da ->
  match_filter b v = macPromiscuousMode b || addressed b dp da.
Proof.
  intros Hd Hp Ha. unfold match_filter, addressed. rewrite Hd, Hp, Ha. cbn [negb andb optN_eqb].
  destruct (macPromiscuousMode b); [reflexivity|]. cbn [orb].
  destruct (dp =? macPanId b), (dp =? 65535), (da =? macShortAddress b),
           (da =? macExtendedAddress b), (da =? 65535); reflexivity.
Qed.

Lemma match_filter_no_layer b v : v_data v = false -> match_filter b v = true.
Proof.
  intros Hd. unfold match_filter. rewrite Hd. cbn [negb andb].
  destruct (macPromiscuousMode b), (macImplicitBroadcast b); reflexivity.
Qed.

Lemma valid_mode_cases m :
  valid_mode m = true -> m = MACAddressMode_NONE \/ m = MACAddressMode_SHORT \/ m = MACAddressMode_EXTENDED.
Proof. unfold valid_mode. lia. Qed.

Lemma valid_request_fits a r :
  valid_request a r = true ->
  valid_mode (q_sam r) = true /\ valid_mode (q_dam r) = true
  /\ fits 2 (d_dpan (data_packet a r)) = true /\ fits 2 (d_span (data_packet a r)) = true
  /\ addr_fits (fcf_mode (q_dam r)) (d_daddr (data_packet a r))
  /\ src_ok (fcf_mode (q_sam r)) (d_saddr (data_packet a r)).
Proof.
  unfold valid_request, valid_pib.
  intros [[[[[[Hp Hs]%andb_prop He]%andb_prop Hsm]%andb_prop Hdm]%andb_prop Hdp]%andb_prop Hda]%andb_prop.
  split; [exact Hsm|]. split; [exact Hdm|]. split; [exact Hdp|]. split; [|split].
  - unfold data_packet. cbn [d_span]. destruct (q_suppressed r); [reflexivity | exact Hp].
  - destruct (valid_mode_cases _ Hdm) as [E | [E | E]]; rewrite E in *; [exact I | exact Hda | exact Hda].
  - unfold data_packet. cbn [d_saddr].
    destruct (valid_mode_cases _ Hsm) as [E | [E | E]]; rewrite E;
      [reflexivity | |]; (split; [discriminate | assumption]).
Qed.

Lemma fcf_mode_lt m : fcf_mode m < 4.
Proof. unfold fcf_mode. destruct (m =? MACAddressMode_NONE), (m =? MACAddressMode_SHORT); reflexivity. Qed.

Lemma compress_bit_lt a r : compress_bit a r < 2.
Proof. unfold compress_bit. destruct (_ && _); reflexivity. Qed.

(** send_data leaves the compression bit to the generated function: on the packet it has just
    built (frame version 0, both PAN ids readable unless the source mode is NONE) the outcome is
    [compress_bit]. *)
Lemma send_frame_ok a seq wait r :
  send_frame a seq wait r
  = Ok {| f_compress := compress_bit a r; f_ackreq := wait; f_srcmode := fcf_mode (q_sam r);
          f_dstmode := fcf_mode (q_dam r); f_framever := 0; f_seq := seq;
          f_d := data_packet a r; f_payload := q_msdu r |}.
Proof.
  unfold send_frame. rewrite choose_v01 by (left; reflexivity).
  cbn [andb]. unfold compress_bit, sender_view_span, fcf_mode.
  destruct (q_sam r =? MACAddressMode_NONE); [cbn [negb]; rewrite !andb_false_r; reflexivity|].
  destruct (q_sam r =? MACAddressMode_SHORT); reflexivity.
Qed.

(** With destination mode NONE the data layer cannot be dissected (the known finding): all that
    follows the three header bytes is taken for payload. *)
Theorem request_frame a r seq wait :
  valid_request a r = true -> seq < 256 ->
  exists fr,
    data_request a seq wait r = (Ok fr, (seq + 1) mod 256)
    /\ nth 2 fr 0 = seq
    /\ dissect fr
       = Some (if q_dam r =? MACAddressMode_NONE
               then raw_view (compress_bit a r) seq (skipn 3 fr)
               else built_view a r seq (compress_bit a r)).
Proof.
  intros Hv Hseq. destruct (valid_request_fits a r Hv) as (_ & Hdm & Hdp & Hsp & Hdst & Hsrc).
  unfold data_request. rewrite send_frame_ok.
  eexists. split; [f_equal; apply build_bytes; assumption|]. split; [reflexivity|].
  rewrite dissect_data_frame by (apply compress_bit_lt || apply fcf_mode_lt).
  rewrite dissect_data_body by assumption.
  destruct (valid_mode_cases _ Hdm) as [E | [E | E]]; rewrite E; reflexivity.
Qed.

(** The compression bit is set only for equal PAN ids, so [indicate] restores the elided source
    PAN id from the destination PAN id. *)
Lemma compress_bit_spec a r :
  compress_bit a r = 0
  \/ compress_bit a r = 1 /\ d_dpan (data_packet a r) = d_span (data_packet a r).
Proof.
  unfold compress_bit. destruct (negb _ && negb _); [|left; reflexivity].
  destruct (N.eqb_spec (d_dpan (data_packet a r)) (d_span (data_packet a r))); auto.
Qed.

Lemma indicate_built a r seq :
  valid_mode (q_sam r) = true ->
  indicate (built_view a r seq (compress_bit a r)) = expected_indication a r.
Proof.
  intros Hm. unfold indicate, built_view, expected_indication.
  cbn [v_span v_saddr v_compress v_dpan v_daddr v_payload data_packet d_saddr]. do 2 f_equal.
  unfold srcpan_present, fcf_mode.
  destruct (valid_mode_cases _ Hm) as [E | [E | E]]; rewrite E; cbn [N.eqb Pos.eqb negb andb];
    [reflexivity | |];
    (destruct (compress_bit_spec a r) as [-> | [-> <-]]; reflexivity).
Qed.

Theorem indicated_iff_addressed a b r seq wait :
  valid_request a r = true -> seq < 256 -> q_dam r <> MACAddressMode_NONE ->
  exists fr,
    data_request a seq wait r = (Ok fr, (seq + 1) mod 256)
    /\ nth 2 fr 0 = seq
    /\ receive b fr
       = if macPromiscuousMode b
            || addressed b (d_dpan (data_packet a r)) (d_daddr (data_packet a r))
         then RxIndication (expected_indication a r) else RxNothing.
Proof.
  intros Hv Hseq Hdam.
  destruct (request_frame a r seq wait Hv Hseq) as (fr & Hfr & Hn & Hd).
  exists fr. split; [exact Hfr | split; [exact Hn|]].
  unfold receive. rewrite Hd, (proj2 (N.eqb_neq _ _) Hdam).
  unfold on_pdu. cbn [built_view v_frametype v_data N.eqb Pos.eqb orb].
  rewrite (match_filter_data b _ (d_dpan (data_packet a r)) (d_daddr (data_packet a r)))
    by reflexivity.
  destruct (_ || _); [|reflexivity].
  f_equal. apply indicate_built. apply (valid_request_fits _ _ Hv).
Qed.

Lemma pib_after_cons p o ops :
  pib_after p (o :: ops)
  = pib_after (match o with RFrame _ => p | RUpd u => apply_update p u end) ops.
Proof. reflexivity. Qed.

Lemma rrun_app : forall pre p post,
  rrun p (pre ++ post) = rrun p pre ++ rrun (pib_after p pre) post.
Proof.
  induction pre as [|o pre IH]; intros p post; [reflexivity|].
  rewrite pib_after_cons. destruct o as [b|u]; cbn [app rrun]; [rewrite IH; reflexivity | apply IH].
Qed.

Lemma rrun_length : forall ops p, length (rrun p ops) = frames_in ops.
Proof.
  induction ops as [|o ops IH]; intros p; [reflexivity|].
  destruct o as [b|u]; cbn [rrun frames_in length]; [f_equal|]; apply IH.
Qed.

Lemma wait_hist_reaches seq : forall pre n post,
  (timeouts pre < S n)%nat -> fst (wait_hist seq (S n) (pre ++ EAck seq :: post)) = true.
Proof.
  induction pre as [|[s|] pre IH]; intros n post Ht; cbn [app wait_hist timeouts] in *.
  - rewrite N.eqb_refl. reflexivity.
  - destruct (s =? seq); [reflexivity | apply IH, Ht].
  - destruct n as [|k]; [lia | apply IH; lia].
Qed.

Lemma wait_hist_consumed seq : forall h n,
  fst (wait_hist seq (S n) h) = true ->
  exists pre post, h = pre ++ EAck seq :: post /\ (timeouts pre < S n)%nat.
Proof.
  induction h as [|[s|] h IH]; intros n H; cbn [wait_hist] in H.
  - discriminate.
  - destruct (N.eqb_spec s seq) as [-> | _].
    + exists [], h. split; [reflexivity | apply Nat.lt_0_succ].
    + destruct (IH n H) as (pre & post & -> & Ht). exists (EAck s :: pre), post. split; [reflexivity | exact Ht].
  - destruct n as [|k]; [discriminate|].
    destruct (IH k H) as (pre & post & -> & Ht).
    exists (ETimeout :: pre), post. split; [reflexivity | cbn [timeouts]; lia].
Qed.

Lemma wait_hist_iff seq h n :
  fst (wait_hist seq (S n) h) = true
  <-> exists pre post, h = pre ++ EAck seq :: post /\ (timeouts pre < S n)%nat.
Proof.
  split; [apply wait_hist_consumed|]. intros (pre & post & -> & Ht). apply wait_hist_reaches, Ht.
Qed.

Lemma wait_hist_fresh seq h : fst (wait_hist seq retry_budget h) = true <-> fresh_ack seq h.
Proof. apply wait_hist_iff. Qed.

Lemma wait_hist_budget seq : forall pre post,
  ~ In (EAck seq) pre -> wait_hist seq (S (timeouts pre)) (pre ++ ETimeout :: post) = (false, post).
Proof.
  induction pre as [|[s|] pre IH]; intros post Hin; cbn [app timeouts wait_hist]; [reflexivity | |].
  - apply not_in_cons in Hin as [Hne Hin].
    destruct (N.eqb_spec s seq) as [-> | _]; [contradiction | apply IH, Hin].
  - apply IH. intros H. apply Hin. right. exact H.
Qed.

Lemma wait_hist_no_ack seq h n : ~ In (EAck seq) h -> fst (wait_hist seq (S n) h) = false.
Proof.
  intros Hin. apply not_true_is_false. intros H.
  destruct (wait_hist_consumed seq h n H) as (pre & post & -> & _). apply Hin, in_elt.
Qed.

Lemma ack_wait_drained seq h :
  ack_wait seq [] h = (fst (wait_hist seq retry_budget h), acks_of (snd (wait_hist seq retry_budget h))).
Proof. unfold ack_wait. cbn [wait_queue]. destruct (wait_hist seq retry_budget h). reflexivity. Qed.

Lemma step_seqnum st o :
  seqnum (snd (step st o)) = match o with OpSend _ _ => (seqnum st + 1) mod 256 | OpOverhear _ => seqnum st end.
Proof.
  destruct o as [[] h|s]; cbn [step step_gen]; [destruct (ack_wait _ _ _)| |]; reflexivity.
Qed.

Lemma step_send_out st w h :
  exists res, fst (step st (OpSend w h)) = Some (seqnum st, res)
              /\ (if w then (res = true <-> fresh_ack (seqnum st) h) else res = true).
Proof.
  unfold step, step_gen. destruct w.
  - rewrite ack_wait_drained. eexists. split; [reflexivity|]. apply wait_hist_fresh.
  - eexists. split; reflexivity.
Qed.

Lemma run_cons st o ops :
  run st (o :: ops) = (fst (step st o) :: fst (run (snd (step st o)) ops), snd (run (snd (step st o)) ops)).
Proof.
  unfold run, step. cbn [run_gen]. destruct (step_gen true st o) as [x st1]. cbn [fst snd].
  destruct (run_gen true st1 ops). reflexivity.
Qed.

Lemma run_seq_numbers s0 : forall ops st k,
  seqnum st = (s0 + N.of_nat k) mod 256 ->
  map fst (outputs_of (fst (run st ops)))
  = map (fun i => (s0 + N.of_nat i) mod 256) (List.seq k (length (sends_of ops)))
  /\ seqnum (snd (run st ops)) = (s0 + N.of_nat (k + length (sends_of ops))) mod 256.
Proof.
  induction ops as [|o ops IH]; intros st k Hs.
  - split; [reflexivity|]. cbn [sends_of length]. rewrite Nat.add_0_r. exact Hs.
  - rewrite run_cons. cbn [fst snd]. specialize (IH (snd (step st o))). rewrite step_seqnum in IH.
    destruct o as [w h|s]; [|exact (IH k Hs)].
    destruct (step_send_out st w h) as (res & -> & _).
    cbn [sends_of length List.seq map outputs_of fst]. rewrite Nat.add_succ_r.
    destruct (IH (S k)) as [IH1 IH2].
    { rewrite Hs, N.add_mod_idemp_l, Nat2N.inj_succ, <- N.add_1_r, N.add_assoc by discriminate. reflexivity. }
    split; [f_equal; assumption | exact IH2].
Qed.

Definition wit_a : pib := {| macPanId := 4660; macShortAddress := 1; macExtendedAddress := 1234605616436508552;
                             macPromiscuousMode := false; macImplicitBroadcast := false |}.
Definition wit_b : pib := {| macPanId := 17185; macShortAddress := 2; macExtendedAddress := 9833440827789222417;
                             macPromiscuousMode := false; macImplicitBroadcast := false |}.
(** the finding's witness: destination mode NONE, to another PAN *)
Definition wit_r_none : request := {| q_sam := MACAddressMode_SHORT; q_dam := MACAddressMode_NONE;
                                      q_dpan := Some 39321; q_daddr := None; q_suppressed := false;
                                      q_msdu := [170; 187] |}.

(** the stale acknowledgement may be 256 frames old: the first acknowledged send (sequence number
    7) fails and is acknowledged late; 255 unacknowledged frames later the counter is 7 again and,
    without the drain, the next acknowledged send succeeds with no acknowledgement at all. *)
Definition wrap_ops : list op :=
  OpSend true [ETimeout; ETimeout; ETimeout; ETimeout; ETimeout; EAck 7]
  :: repeat (OpSend false []) 255 ++ [OpSend true []].

(** for [C20_nonvacuous_history]: [hist_b] is the peer's PIB at the start (PAN 0x1111, short
    address 2), [hist_req pan] a request to that short address in [pan].  There the peer receives
    a frame, then moves to PAN 0x2222 through MLME-START: frames to the new PAN are indicated,
    frames to the old one are not *)
Definition hist_b : pib := {| macPanId := 4369; macShortAddress := 2; macExtendedAddress := 9833440827789222417;
                              macPromiscuousMode := false; macImplicitBroadcast := false |}.
Definition hist_req (pan : N) : request :=
  {| q_sam := MACAddressMode_SHORT; q_dam := MACAddressMode_SHORT; q_dpan := Some pan; q_daddr := Some 2;
     q_suppressed := false; q_msdu := [1; 2] |}.
