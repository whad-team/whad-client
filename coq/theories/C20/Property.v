(** C20 — the property's theorems, each a few lines from the lemmas of Proofs.v (the one over
    all operation sequences by an induction on them); witnesses and examples are evaluated. *)
From Coq Require Import List NArith Arith Bool.
From Whad Require Import Lib.Bytes C20.Gen C20.Model C20.Proofs.
Import ListNotations.
Open Scope N_scope.

(** Addressed delivery, intact payload and addressing. For every sender PIB, receiver PIB
    (PAN ids and addresses incl. 0xFFFF, promiscuous / implicit-broadcast flags), every source
    addressing mode (none/short/extended), destination mode short or extended, every PAN-id
    compression outcome, pan_id_suppressed, payload, sequence number and ack-request flag: the
    request puts exactly one frame on the PHY, carrying the sequence number, and the peer raises
    an MCPS-DATA indication — with the payload and the addressing of the request — exactly when
    it is promiscuous or the frame is addressed to it; otherwise nothing. *)
Theorem C20_indicated_iff_addressed_partial :
  forall (a b : pib) (r : request) (seq : N) (wait : bool),
    valid_request a r = true -> seq < 256 -> q_dam r <> MACAddressMode_NONE ->
    exists fr,
      data_request a seq wait r = (Ok fr, (seq + 1) mod 256)
      /\ nth 2 fr 0 = seq
      /\ receive b fr
         = if macPromiscuousMode b
              || addressed b (d_dpan (data_packet a r)) (d_daddr (data_packet a r))
           then RxIndication (expected_indication a r) else RxNothing.
Proof. exact indicated_iff_addressed. Qed.

(** FULL STATEMENT over all destination modes (refuted by the faithful model for destination
    mode NONE: KNOWN-FINDING dest-mode-none). Without a destination address a frame is for
    nobody in particular: only a promiscuous or implicit-broadcast peer may indicate it. *)
Definition C20_should_indicate (b : pib) (r : request) (d : dpacket) : bool :=
  macPromiscuousMode b
  || (if q_dam r =? MACAddressMode_NONE then macImplicitBroadcast b
      else addressed b (d_dpan d) (d_daddr d)).

Definition C20_indicated_iff_addressed_statement : Prop :=
  forall (a b : pib) (r : request) (seq : N) (wait : bool),
    valid_request a r = true -> seq < 256 ->
    exists fr,
      data_request a seq wait r = (Ok fr, (seq + 1) mod 256)
      /\ receive b fr
         = if C20_should_indicate b r (data_packet a r)
           then RxIndication (expected_indication a r) else RxNothing.

Theorem C20_indicated_iff_addressed_refuted :
  exists (a b : pib) (r : request),
    valid_request a r = true
    /\ macPromiscuousMode b = false /\ macImplicitBroadcast b = false
    /\ exists fr, data_request a 7 false r = (Ok fr, 8)
       /\ receive b fr = RxIndication ([153; 153; 52; 18; 1; 0; 170; 187], None, None, None, None).
Proof.
  exists wit_a, wit_b, wit_r_none. split; [reflexivity|]. split; [reflexivity|]. split; [reflexivity|].
  eexists. split; vm_compute; reflexivity.
Qed.

(** The whole class of the finding: a request with destination mode NONE is indicated by EVERY
    peer, the bytes after the 3-byte MAC header taken as payload and no addressing reported. *)
Theorem C20_dest_none_always_indicated :
  forall (a : pib) (r : request) (seq : N) (wait : bool),
    valid_request a r = true -> seq < 256 -> q_dam r = MACAddressMode_NONE ->
    exists fr,
      data_request a seq wait r = (Ok fr, (seq + 1) mod 256)
      /\ forall b, receive b fr = RxIndication (skipn 3 fr, None, None, None, None).
Proof.
  intros a r seq wait Hv Hseq Hdam.
  destruct (request_frame a r seq wait Hv Hseq) as (fr & Hfr & _ & Hd).
  exists fr. split; [exact Hfr|]. intros b.
  unfold receive. rewrite Hd, Hdam.
  unfold on_pdu. cbn [raw_view v_frametype v_data N.eqb Pos.eqb orb].
  rewrite match_filter_no_layer by reflexivity. reflexivity.
Qed.

(** The receive filter on any dissected data frame: promiscuous, or PAN (own / broadcast) and
    address (short / extended / broadcast). *)
Theorem C20_match_filter_data :
  forall (b : pib) (v : view) (dp da : N),
    v_data v = true -> v_dpan v = Some dp -> v_daddr v = Some da ->
    match_filter b v = macPromiscuousMode b || addressed b dp da.
Proof. exact match_filter_data. Qed.

(** PAN-id compression chosen by the GENERATED function for frame versions 0 and 1 (send_data
    always builds version 0): the bit is set exactly when both addresses are present and the two
    PAN ids are equal; it never raises. *)
Theorem C20_pan_id_compression_v01 :
  forall fv dam sam hd hs dp sp,
    fv = 0 \/ fv = 1 ->
    choose_panid fv dam sam hd hs dp sp
    = COk (if negb (dam =? MACAddressMode_NONE) && negb (sam =? MACAddressMode_NONE)
              && (hd && (hs && optN_eqb dp sp)) then 1 else 0).
Proof. exact choose_v01. Qed.

Theorem C20_pan_id_table_bits :
  forall k v, panid_lookup panid_table k = Some v -> v = 0 \/ v = 1.
Proof. intros k v. exact (panid_lookup_Forall (fun v => v = 0 \/ v = 1) _ k v table_values_are_bits). Qed.

(** Sequence numbers: over every sequence of data requests (acknowledged or not, any histories)
    and overheard acknowledgements, the i-th frame carries (first + i) mod 256 and the PIB
    counter ends at (first + number of frames) mod 256. *)
Theorem C20_seqnum_increments_mod_256 :
  forall (ops : list op) (st : mac_state),
    seqnum st < 256 ->
    map fst (outputs_of (fst (run st ops)))
    = map (fun i => (seqnum st + N.of_nat i) mod 256) (List.seq 0 (length (sends_of ops)))
    /\ seqnum (snd (run st ops)) = (seqnum st + N.of_nat (length (sends_of ops))) mod 256.
Proof.
  intros ops st Hs. apply (run_seq_numbers (seqnum st) ops st 0).
  cbn [N.of_nat]. rewrite N.add_0_r, N.mod_small by exact Hs. reflexivity.
Qed.

(** Fresh-ACK success over ALL histories and ALL operation sequences, from ANY state of the
    acknowledgement queue (earlier, overheard, late acknowledgements with equal or different
    sequence numbers): every acknowledged request returns True exactly when an acknowledgement
    with its own sequence number arrives after the frame was sent and before the fifth timeout;
    every unacknowledged one returns True. *)
Theorem C20_ack_success_iff_fresh_matching :
  forall (ops : list op) (st : mac_state),
    sends_spec (seqnum st) (sends_of ops) (outputs_of (fst (run st ops))).
Proof.
  induction ops as [|o ops IH]; intros st; [exact I|].
  rewrite run_cons. specialize (IH (snd (step st o))). rewrite step_seqnum in IH.
  destruct o as [w h|s]; [|exact IH].
  destruct (step_send_out st w h) as (res & E & Hres). cbn [fst]. rewrite E.
  split; [split; [reflexivity | exact Hres] | exact IH].
Qed.

(** the single-request form *)
Theorem C20_ack_wait_iff_fresh :
  forall seq h, fst (ack_wait seq [] h) = true <-> fresh_ack seq h.
Proof. intros seq h. rewrite ack_wait_drained. apply wait_hist_fresh. Qed.

(** Failure once the retry budget is spent: no matching acknowledgement and budget-1 timeouts so
    far; at the next timeout the request fails, and nothing later is consumed. *)
Theorem C20_failure_after_retry_budget :
  forall seq pre post,
    ~ In (EAck seq) pre -> timeouts pre = 4%nat ->
    wait_hist seq retry_budget (pre ++ ETimeout :: post) = (false, post).
Proof.
  intros seq pre post Hin Ht. change retry_budget with (S 4). rewrite <- Ht. apply wait_hist_budget, Hin.
Qed.

Theorem C20_failure_without_matching_ack :
  forall seq h, ~ In (EAck seq) h -> fst (ack_wait seq [] h) = false.
Proof. intros seq h H. rewrite ack_wait_drained. exact (wait_hist_no_ack seq h 4 H). Qed.

(** any frame (also malformed ones) at any position: judged with the current PIB only *)
Theorem C20_history_frame_uses_current_pib :
  forall (p : pib) (pre : list rop) (b : bytes) (post : list rop),
    nth (frames_in pre) (rrun p (pre ++ RFrame b :: post)) RxNothing = receive (pib_after p pre) b.
Proof.
  intros p pre b post. rewrite rrun_app, app_nth2 by (rewrite rrun_length; apply Nat.le_refl).
  rewrite rrun_length, Nat.sub_diag. reflexivity.
Qed.

(** The receiving MAC over time. For EVERY history of frames and PIB updates on the peer — MLME-SET,
    direct database writes, set_short_address / set_extended_address, MLME-START, MLME-ASSOCIATE
    (successful or failed), MLME-RESET; PAN id, short and extended address, promiscuous and
    implicit-broadcast flags — and every position in it: the frame of a valid data request
    arriving there is indicated, with the payload and addressing of the request, exactly when the
    peer is promiscuous or addressed according to its PIB AS IT IS AT THAT TIME (not as it was when
    earlier frames were received); otherwise nothing. (Induction over the history.) *)
Theorem C20_history_indicated_iff_addressed :
  forall (p0 : pib) (pre post : list rop) (a : pib) (r : request) (seq : N) (wait : bool),
    valid_request a r = true -> seq < 256 -> q_dam r <> MACAddressMode_NONE ->
    exists fr,
      data_request a seq wait r = (Ok fr, (seq + 1) mod 256)
      /\ nth (frames_in pre) (rrun p0 (pre ++ RFrame fr :: post)) RxNothing
         = let cur := pib_after p0 pre in
           if macPromiscuousMode cur
              || addressed cur (d_dpan (data_packet a r)) (d_daddr (data_packet a r))
           then RxIndication (expected_indication a r) else RxNothing.
Proof.
  intros p0 pre post a r seq wait Hv Hs Hd.
  destruct (indicated_iff_addressed a (pib_after p0 pre) r seq wait Hv Hs Hd) as (fr & H1 & _ & H3).
  exists fr. split; [exact H1|]. rewrite C20_history_frame_uses_current_pib. exact H3.
Qed.

(** what each way of writing the PIB leaves in it *)
Theorem C20_update_effects :
  forall (p : pib) (a : attr) (v pan short : N),
    apply_update p (UStart pan) = set_attr p APanId pan
    /\ macPanId (apply_update p (UStart pan)) = pan
    /\ macPanId (apply_update p (UAssocOk pan short)) = pan
    /\ macShortAddress (apply_update p (UAssocOk pan short)) = short
    /\ macPanId (apply_update p (UAssocFail pan)) = 65535
    /\ macPanId (apply_update p (USet APanId v)) = v
    /\ macShortAddress (apply_update p (USet AShort v)) = v
    /\ macExtendedAddress (apply_update p (USet AExt v)) = v
    /\ macPromiscuousMode (apply_update p (USet APromisc v)) = negb (v =? 0)
    /\ apply_update p UReset = pib_default
    /\ (a <> APanId -> macPanId (apply_update p (USet a v)) = macPanId p).
Proof. intros p a v pan short. repeat split; try reflexivity. destruct a; (reflexivity || contradiction). Qed.

Example C20_nonvacuous_history :
  fst (hrun wit_a 0 hist_b [HSend (hist_req 4369); HUpd (UStart 8738); HSend (hist_req 8738); HSend (hist_req 4369);
                            HUpd (UAssocFail 13107); HSend (hist_req 65535); HSend (hist_req 8738)])
  = Some [([[1; 136; 0; 17; 17; 2; 0; 52; 18; 1; 0; 1; 2]], [([1; 2], Some 4369, Some 2, Some 4660, Some 1)]);
          ([[1; 136; 1; 34; 34; 2; 0; 52; 18; 1; 0; 1; 2]], [([1; 2], Some 8738, Some 2, Some 4660, Some 1)]);
          ([[1; 136; 2; 17; 17; 2; 0; 52; 18; 1; 0; 1; 2]], []);
          ([[1; 136; 3; 255; 255; 2; 0; 52; 18; 1; 0; 1; 2]], [([1; 2], Some 65535, Some 2, Some 4660, Some 1)]);
          ([[1; 136; 4; 34; 34; 2; 0; 52; 18; 1; 0; 1; 2]], [])].
Proof. vm_compute. reflexivity. Qed.

(** The code before the repair (no drain of the queue) — kept as the reason for the repair. *)
Theorem C20_ack_without_drain_refuted :
  exists st h, seqnum st < 256 /\ ~ fresh_ack (seqnum st) h
               /\ fst (step_gen false st (OpSend true h)) = Some (seqnum st, true).
Proof.
  exists {| seqnum := 5; ackq := [5] |}, []. split; [reflexivity|]. split; [|reflexivity].
  intros ([|? ?] & ? & ? & _); discriminate.
Qed.

Theorem C20_ack_without_drain_wraparound :
  last (outputs_of (fst (run_gen false {| seqnum := 7; ackq := [] |} wrap_ops))) (0, false) = (7, true)
  /\ last (outputs_of (fst (run {| seqnum := 7; ackq := [] |} wrap_ops))) (0, true) = (7, false).
Proof. split; vm_compute; reflexivity. Qed.

(** Non-vacuity: a valid extended->short request to the broadcast address in the sender's PAN
    (PAN-id compressed, sequence number 255 wrapping to 0), addressed to one peer and not to
    another; and an acknowledgement history on each side of the retry budget. *)
Example C20_nonvacuous :
  (let r := {| q_sam := MACAddressMode_EXTENDED; q_dam := MACAddressMode_SHORT; q_dpan := Some 4660;
               q_daddr := Some 65535; q_suppressed := false; q_msdu := [1; 2; 3] |} in
   let b := {| macPanId := 4660; macShortAddress := 2; macExtendedAddress := 9833440827789222417;
               macPromiscuousMode := false; macImplicitBroadcast := false |} in
   valid_request wit_a r = true /\ q_dam r <> MACAddressMode_NONE
   /\ compress_bit wit_a r = 1
   /\ addressed b 4660 65535 = true
   /\ addressed wit_b 4660 65535 = false
   /\ fst (data_request wit_a 255 true r)
      = Ok [97; 200; 255; 52; 18; 255; 255; 136; 119; 102; 85; 68; 51; 34; 17; 1; 2; 3]
   /\ snd (data_request wit_a 255 true r) = 0)
  /\ (fresh_ack 9 [EAck 8; ETimeout; ETimeout; ETimeout; ETimeout; EAck 9]
      /\ ~ fresh_ack 9 [EAck 8; ETimeout; ETimeout; ETimeout; ETimeout; ETimeout; EAck 9]).
Proof.
  split; [cbv zeta; repeat split; (discriminate || (vm_compute; reflexivity))|]. split.
  - exists [EAck 8; ETimeout; ETimeout; ETimeout; ETimeout], []. split; [reflexivity | exact (le_n 5)].
  - rewrite <- wait_hist_fresh. discriminate.
Qed.
