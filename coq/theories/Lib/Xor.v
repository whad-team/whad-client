(** Byte-wise xor, big-endian integers, 16-byte chunking and zero padding:
    the common base of Lib/Aes.v, Lib/Ccm.v, Lib/Cmac.v. Stdlib only, no axioms. *)
From Coq Require Import List NArith ZArith Arith Bool Lia ZifyBool ZifyN ZifyNat.
From Whad Require Import Lib.Bytes.
Import ListNotations.
Ltac Zify.zify_post_hook ::= Z.to_euclidean_division_equations.

(** * xor of two byte strings (zip; length of the shorter one) *)
Fixpoint xor_bytes (a b : bytes) : bytes :=
  match a, b with
  | x :: a', y :: b' => N.lxor x y :: xor_bytes a' b'
  | _, _ => []
  end.

Lemma xor_bytes_length a : forall b, length (xor_bytes a b) = Nat.min (length a) (length b).
Proof. induction a as [|x a IH]; intros [|y b]; cbn [xor_bytes length Nat.min]; auto. Qed.

Lemma xor_bytes_length_le a b : length a <= length b -> length (xor_bytes a b) = length a.
Proof. intros H. rewrite xor_bytes_length. lia. Qed.

Lemma xor_bytes_nil_r a : xor_bytes a [] = [].
Proof. destruct a; reflexivity. Qed.

(** Involution holds for every list of N (no range condition is needed). *)
Lemma xor_bytes_involutive_gen d : forall k, length k >= length d -> xor_bytes (xor_bytes d k) k = d.
Proof.
  induction d as [|x d IH]; intros [|y k] H; cbn [xor_bytes length] in *; try reflexivity; try lia.
  rewrite N.lxor_assoc, N.lxor_nilpotent, N.lxor_0_r. f_equal. apply IH. lia.
Qed.

(** The form named in CRYPTO_INTERFACE.md. *)
Lemma xor_bytes_involutive d k :
  length k >= length d -> wf_bytes d = true -> xor_bytes (xor_bytes d k) k = d.
Proof. intros H _. apply xor_bytes_involutive_gen; exact H. Qed.

Lemma xor_bytes_comm a : forall b, xor_bytes a b = xor_bytes b a.
Proof. induction a as [|x a IH]; intros [|y b]; cbn [xor_bytes]; auto. rewrite N.lxor_comm, IH. reflexivity. Qed.

Lemma xor_bytes_app a1 : forall b1 a2 b2, length a1 = length b1 ->
  xor_bytes (a1 ++ a2) (b1 ++ b2) = xor_bytes a1 b1 ++ xor_bytes a2 b2.
Proof.
  induction a1 as [|x a IH]; intros [|y b] a2 b2 H; cbn [length] in H; try discriminate; cbn [app xor_bytes].
  - reflexivity.
  - f_equal. apply IH. lia.
Qed.

Lemma xor_bytes_firstn_r a : forall b, xor_bytes a b = xor_bytes a (firstn (length a) b).
Proof. induction a as [|x a IH]; intros [|y b]; cbn [xor_bytes length firstn]; auto. f_equal. apply IH. Qed.

Lemma xor_bytes_inj_l a a' k : length a <= length k -> length a' <= length k ->
  xor_bytes a k = xor_bytes a' k -> a = a'.
Proof.
  intros Ha Ha' H.
  rewrite <- (xor_bytes_involutive_gen a k) by lia.
  rewrite <- (xor_bytes_involutive_gen a' k) by lia. rewrite H. reflexivity.
Qed.

Lemma lxor_lt_256 a b : (a < 256)%N -> (b < 256)%N -> (N.lxor a b < 256)%N.
Proof.
  (* [x < 256] says that [x >> 8] is 0, and shifting commutes with xor *)
  intros Ha Hb. apply N.div_small_iff; [discriminate|]. change 256%N with (2 ^ 8)%N.
  rewrite <- N.shiftr_div_pow2, N.shiftr_lxor, !N.shiftr_div_pow2, !N.div_small by assumption.
  reflexivity.
Qed.

Lemma wf_xor_bytes a : forall b, wf_bytes a = true -> wf_bytes b = true -> wf_bytes (xor_bytes a b) = true.
Proof.
  unfold wf_bytes.
  induction a as [|x a IH]; intros [|y b] Ha Hb; cbn [xor_bytes forallb] in *; try reflexivity.
  apply andb_true_iff in Ha as [Hx Ha]. apply andb_true_iff in Hb as [Hy Hb].
  apply andb_true_iff; split; [|apply IH; assumption].
  unfold wf_byte in *. apply N.ltb_lt. apply lxor_lt_256; apply N.ltb_lt; assumption.
Qed.

Definition zeros (n : nat) : bytes := repeat 0%N n.

Lemma zeros_length n : length (zeros n) = n.
Proof. apply repeat_length. Qed.

Lemma wf_zeros n : wf_bytes (zeros n) = true.
Proof. induction n; cbn; auto. Qed.

(** * big-endian encoding on [n] bytes (value taken modulo 256^n) *)
Fixpoint be_bytes (n : nat) (v : N) : bytes :=
  match n with
  | O => []
  | S n' => be_bytes n' (N.div v 256) ++ [N.modulo v 256]
  end.

Lemma be_bytes_length n : forall v, length (be_bytes n v) = n.
Proof. induction n; intros v; cbn [be_bytes]; [reflexivity|]. rewrite app_length, IHn. cbn. lia. Qed.

Lemma wf_be_bytes n : forall v, wf_bytes (be_bytes n v) = true.
Proof.
  induction n; intros v; cbn [be_bytes]; [reflexivity|].
  rewrite wf_bytes_app, IHn. cbn. unfold wf_byte.
  assert (v mod 256 < 256)%N by (apply N.mod_lt; lia). lia.
Qed.

Lemma be_bytes_inj n v w : (v < 256 ^ N.of_nat n)%N -> (w < 256 ^ N.of_nat n)%N ->
  be_bytes n v = be_bytes n w -> v = w.
Proof.
  revert v w. induction n as [|n IH]; intros v w Hv Hw H.
  - cbn in Hv, Hw. lia.
  - cbn [be_bytes] in H. apply app_inj_tail in H as [Hq Hr].
    rewrite Nat2N.inj_succ, N.pow_succ_r' in Hv, Hw.
    apply IH in Hq; [|apply N.div_lt_upper_bound; [discriminate|assumption]..].
    rewrite (N.div_mod v 256), (N.div_mod w 256), Hq, Hr by discriminate. reflexivity.
Qed.

(** * zero padding to a multiple of 16 and cutting into 16-byte blocks *)
Definition pad_len (n : nat) : nat := (16 - Nat.modulo n 16) mod 16.
Definition pad16 (l : bytes) : bytes := l ++ zeros (pad_len (length l)).

Lemma pad16_length l : length (pad16 l) = 16 * Nat.div (length l + 15) 16.
Proof. unfold pad16, pad_len. rewrite app_length, zeros_length. lia. Qed.

Lemma pad16_length_mod l : Nat.modulo (length (pad16 l)) 16 = 0.
Proof. rewrite pad16_length. rewrite Nat.mul_comm. apply Nat.mod_mul. lia. Qed.

Lemma pad16_firstn l : firstn (length l) (pad16 l) = l.
Proof. unfold pad16. rewrite firstn_app, Nat.sub_diag, firstn_all. cbn. apply app_nil_r. Qed.

Lemma wf_pad16 l : wf_bytes (pad16 l) = wf_bytes l.
Proof. unfold pad16. rewrite wf_bytes_app, wf_zeros. apply andb_true_r. Qed.

(** [chunks16_fuel (length l) l] cuts [l] into consecutive 16-byte blocks (the last one
    may be shorter). The fuel is the length of the list: it is never exhausted
    ([chunks16_concat] shows no byte is dropped). *)
Fixpoint chunks16_fuel (fuel : nat) (l : bytes) : list bytes :=
  match fuel with
  | O => []
  | S f => match l with
           | [] => []
           | _ => firstn 16 l :: chunks16_fuel f (skipn 16 l)
           end
  end.
Definition chunks16 (l : bytes) : list bytes := chunks16_fuel (length l) l.

Lemma chunks16_fuel_concat f : forall l, length l <= f -> concat (chunks16_fuel f l) = l.
Proof.
  induction f; intros l H.
  - destruct l; [reflexivity|cbn in H; lia].
  - cbn [chunks16_fuel]. destruct l as [|b l]; [reflexivity|].
    cbn [concat]. rewrite IHf.
    + apply firstn_skipn.
    + rewrite skipn_length. cbn [length] in *. lia.
Qed.

Lemma chunks16_concat l : concat (chunks16 l) = l.
Proof. apply chunks16_fuel_concat. lia. Qed.

Lemma chunks16_fuel_block_length f : forall l, length l <= f -> Nat.modulo (length l) 16 = 0 ->
  Forall (fun b => length b = 16) (chunks16_fuel f l).
Proof.
  induction f; intros l H Hm; cbn [chunks16_fuel]; [constructor|].
  destruct l as [|b l]; constructor.
  - (* a positive multiple of 16 is at least 16 *)
    rewrite firstn_length. cbn [length] in *. lia.
  - apply IHf; rewrite skipn_length; cbn [length] in *; lia.
Qed.

Lemma chunks16_block_length l : Nat.modulo (length l) 16 = 0 ->
  Forall (fun b => length b = 16) (chunks16 l).
Proof. apply chunks16_fuel_block_length. lia. Qed.
