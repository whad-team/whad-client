(** Gallina counterparts of the Python operations emitted by the pure-function
    translator harness/translators/pyfun.py (see design/PYTRANS.md).

    Python ints are translated to [nat] (lengths, indices, counts) or [N] (byte values,
    counters, bit operations); [bytes] / [bytearray] values to [bytes] = [list N].
    Each operation agrees with Python ON THE DOMAIN stated next to it; the translator
    collects these side conditions into the [gen_<f>_pre] predicate it emits beside each
    [gen_<f>].  Stdlib only, no axioms. *)
From Coq Require Import List NArith ZArith Arith Bool Lia ZifyBool ZifyN ZifyNat.
From Whad Require Import Lib.Bytes.
Import ListNotations.
Ltac Zify.zify_post_hook ::= Z.to_euclidean_division_equations.

(** ** Sequences *)

(** [len(x)] *)
Definition py_len {A} (l : list A) : nat := length l.

(** [l[a:b]] for non-negative [a], [b] (Python clamps both to [len(l)]; [b < a] gives []). *)
Definition py_slice {A} (a b : nat) (l : list A) : list A := firstn (b - a) (skipn a l).
(** [l[a:]] and [l[:b]] *)
Definition py_slice_from {A} (a : nat) (l : list A) : list A := skipn a l.
Definition py_slice_to {A} (b : nat) (l : list A) : list A := firstn b l.

(** [l[i]] on bytes.  Domain: [i < len(l)] (Python raises IndexError otherwise). *)
Definition py_index (i : nat) (l : bytes) : N := nth i l 0%N.

(** [bytes(x)] for [x] a bytes-like object, and [bytes([...])] / [bytes(list_of_ints)].
    Domain of the second form: every element < 256 (Python raises ValueError otherwise). *)
Definition py_bytes (l : list N) : bytes := l.
Definition all_bytes (l : list N) : Prop := Forall (fun x => (x < 256)%N) l.

(** [[f(i) for i in range(n)]], and
    [for i in range(n): acc.append(f(i))] (= [acc ++ py_range_map f n]). *)
Definition py_range_map {A} (f : nat -> A) (n : nat) : list A := map f (seq 0 n).

(** ** Integer arithmetic *)

(** [a // b], [a % b] on non-negative ints.  Domain: [0 < b] (ZeroDivisionError otherwise). *)
Definition py_floordiv (a b : nat) : nat := a / b.
Definition py_mod (a b : nat) : nat := a mod b.
Definition py_floordiv_N (a b : N) : N := N.div a b.
Definition py_mod_N (a b : N) : N := N.modulo a b.

(** [int(a / b)]: binary64 division of two ints followed by truncation.
    Domain: [0 < b], [a < 2^53], [b < 2^53].  There both operands convert exactly, the
    correctly rounded quotient [fl(a/b)] lies in [[q, q+1]] for [q = a // b] (rounding is
    monotone and [q], [q+1 <= 2^53] are representable), and it can only be [q+1] when
    [a/b] is within half an ulp of [q+1], which forces [a >= 2^53]
    (argument in design/PYTRANS.md; IEEE-754 itself is NOT formalised here — this is the
    one semantic assumption of the translator, probed on adversarial pairs every run). *)
Definition two53 : N := 9007199254740992%N.
Definition py_int_truediv (a b : nat) : nat := a / b.
Definition py_int_truediv_N (a b : N) : N := N.div a b.
Definition py_truediv_ok (a b : N) : Prop := (a < two53 /\ b < two53 /\ 0 < b)%N.

(** [a - b] on non-negative ints.  Domain: [b <= a] (Python would go negative). *)
(** emitted as [a - b] directly. *)

(** [min(a, b)], [max(a, b)] are emitted as [Nat.min]/[N.min]/[Nat.max]/[N.max];
    [&], [|], [>>], [<<] as [N.land], [N.lor], [N.shiftr], [N.shiftl]. *)

(** ** struct.pack / struct.unpack (little endian, single unsigned field) *)

(** [pack('<H', v)] = [py_pack_le 2 v], [pack('<I'|'<L', v)] = [py_pack_le 4 v],
    [pack('<Q', v)] = [py_pack_le 8 v], [pack('B', v)] = [py_pack_le 1 v].
    Domain: [v < 256^n] (struct.error otherwise). *)
Fixpoint py_pack_le (n : nat) (v : N) : bytes :=
  match n with
  | O => []
  | S n' => N.modulo v 256 :: py_pack_le n' (N.div v 256)
  end.

(** big-endian fields ('>H', '>I', ...) *)
Definition py_pack_be (n : nat) (v : N) : bytes := rev (py_pack_le n v).

(** [unpack(fmt, b)[0]] for the same formats.  Domain: [len(b)] = size of the format
    and every element < 256. *)
Fixpoint py_unpack_le (l : bytes) : N :=
  match l with
  | [] => 0%N
  | x :: r => (x + 256 * py_unpack_le r)%N
  end.

Definition py_unpack_be (l : bytes) : N := py_unpack_le (rev l).

(** [for i in range(n): acc += f(i)] on bytes / lists is [acc ++ py_concat (py_range_map f n)] *)
Definition py_concat {A} (l : list (list A)) : list A := concat l.

(** [x[:-m]] and [x[-m:]] for an int [m >= 0] ([x[:-0]] is empty, [x[-0:]] is [x]) *)
Definition py_slice_to_neg {A} (m : nat) (l : list A) : list A :=
  match m with O => [] | _ => firstn (length l - m) l end.
Definition py_slice_from_neg {A} (m : nat) (l : list A) : list A :=
  match m with O => l | _ => skipn (length l - m) l end.

(** ** Boolean equality used by the differential validation of the translator *)

Fixpoint list_eqb {A} (eqb : A -> A -> bool) (a b : list A) : bool :=
  match a, b with
  | [], [] => true
  | x :: a', y :: b' => eqb x y && list_eqb eqb a' b'
  | _, _ => false
  end.

Fixpoint bad_idx {A} (chk : A -> bool) (i : nat) (l : list A) : list nat :=
  match l with
  | [] => []
  | c :: r => if chk c then bad_idx chk (S i) r else i :: bad_idx chk (S i) r
  end.

(** ** Relation to the standard library and to Lib.Bytes *)

Lemma py_len_length {A} (l : list A) : py_len l = length l.
Proof. reflexivity. Qed.

Lemma py_len_nlen (l : bytes) : N.of_nat (py_len l) = nlen l.
Proof. reflexivity. Qed.

Lemma py_slice_firstn_skipn {A} a b (l : list A) : py_slice a b l = firstn (b - a) (skipn a l).
Proof. reflexivity. Qed.

Lemma py_slice_slice a b (l : bytes) : py_slice a b l = slice a b l.
Proof. reflexivity. Qed.

Lemma py_slice_0 {A} b (l : list A) : py_slice 0 b l = firstn b l.
Proof. unfold py_slice. rewrite Nat.sub_0_r. reflexivity. Qed.

Lemma py_slice_to_slice {A} b (l : list A) : py_slice_to b l = py_slice 0 b l.
Proof. symmetry. apply py_slice_0. Qed.

Lemma py_slice_from_skipn {A} a (l : list A) : py_slice_from a l = skipn a l.
Proof. reflexivity. Qed.

Lemma py_slice_length {A} a b (l : list A) :
  length (py_slice a b l) = Nat.min (b - a) (length l - a).
Proof. unfold py_slice. rewrite firstn_length, skipn_length. reflexivity. Qed.

Lemma py_slice_all {A} b (l : list A) : length l <= b -> py_slice 0 b l = l.
Proof. intros H. rewrite py_slice_0. apply firstn_all2. exact H. Qed.

Lemma py_bytes_id l : py_bytes l = l.
Proof. reflexivity. Qed.

Lemma py_range_map_map_seq {A} (f : nat -> A) n : py_range_map f n = map f (seq 0 n).
Proof. reflexivity. Qed.

Lemma py_range_map_length {A} (f : nat -> A) n : length (py_range_map f n) = n.
Proof. unfold py_range_map. rewrite map_length, seq_length. reflexivity. Qed.

Lemma py_range_map_ext {A} (f g : nat -> A) n :
  (forall i, i < n -> f i = g i) -> py_range_map f n = py_range_map g n.
Proof.
  intros H. unfold py_range_map. apply map_ext_in. intros i Hi.
  apply in_seq in Hi. apply H. lia.
Qed.

Lemma py_floordiv_div a b : py_floordiv a b = a / b.
Proof. reflexivity. Qed.

Lemma py_mod_mod a b : py_mod a b = a mod b.
Proof. reflexivity. Qed.

(** On its domain [int(a/b)] is floor division (the domain is the IEEE-754 assumption
    above; inside Coq the two are the same function). *)
Lemma py_int_truediv_floordiv a b :
  py_truediv_ok (N.of_nat a) (N.of_nat b) -> py_int_truediv a b = py_floordiv a b.
Proof. reflexivity. Qed.

Lemma py_int_truediv_div a b : py_int_truediv a b = a / b.
Proof. reflexivity. Qed.

Lemma py_int_truediv_N_floordiv a b :
  py_truediv_ok a b -> py_int_truediv_N a b = py_floordiv_N a b.
Proof. reflexivity. Qed.

(** Lengths of 16-bit-announced frames are far inside the domain of [int(a/b)]. *)
Lemma py_truediv_ok_small a b : (a < 65536 + 65536)%N -> (0 < b)%N -> (b < two53)%N -> py_truediv_ok a b.
Proof. unfold py_truediv_ok, two53. lia. Qed.

(** *** bit operations *)

Lemma py_land_ones x n : N.land x (N.ones n) = (x mod 2 ^ n)%N.
Proof. apply N.land_ones. Qed.

Lemma py_land_255 x : N.land x 255 = (x mod 256)%N.
Proof. exact (py_land_ones x 8). Qed.

Lemma py_land_65535 x : N.land x 65535 = (x mod 65536)%N.
Proof. exact (py_land_ones x 16). Qed.

(** [for ..: acc += bytes([e])] and [bytes([e for ..])] are the same list *)
Lemma concat_map_singleton {A B} (f : A -> B) (l : list A) : concat (map (fun i => [f i]) l) = map f l.
Proof. induction l as [|x l IH]; [reflexivity|]. cbn [map concat app]. rewrite IH. reflexivity. Qed.

Lemma py_shiftr_8 x : N.shiftr x 8 = (x / 256)%N.
Proof. rewrite N.shiftr_div_pow2. reflexivity. Qed.

Lemma py_shiftl_8 x : N.shiftl x 8 = (256 * x)%N.
Proof. rewrite N.shiftl_mul_pow2. change (2 ^ 8)%N with 256%N. lia. Qed.

Lemma testbit_small a n k : (a < 2 ^ n)%N -> (n <= k)%N -> N.testbit a k = false.
Proof.
  intros Ha Hk. rewrite <- (N.mod_small a (2 ^ n)) by exact Ha.
  apply N.mod_pow2_bits_high. exact Hk.
Qed.

Lemma py_lor_shiftl a b n : (a < 2 ^ n)%N -> N.lor a (N.shiftl b n) = (a + 2 ^ n * b)%N.
Proof.
  intros Ha.
  assert (Hd : N.land a (N.shiftl b n) = 0%N).
  { apply N.bits_inj. intro k. rewrite N.land_spec, N.bits_0.
    destruct (N.ltb k n) eqn:E.
    - apply N.ltb_lt in E. rewrite N.shiftl_spec_low by exact E. apply andb_false_r.
    - apply N.ltb_ge in E. rewrite (testbit_small a n k Ha E). reflexivity. }
  rewrite <- N.lxor_lor by exact Hd.
  rewrite <- N.add_nocarry_lxor by exact Hd.
  rewrite N.shiftl_mul_pow2. lia.
Qed.

Lemma py_lor_shiftl_8 a b : (a < 256)%N -> N.lor a (N.shiftl b 8) = (a + 256 * b)%N.
Proof. intros H. apply (py_lor_shiftl a b 8). exact H. Qed.

Lemma py_lor_128 x : (x < 128)%N -> N.lor x 128 = (x + 128)%N.
Proof.
  intros H. change 128%N with (N.shiftl 1 7) at 1.
  rewrite (py_lor_shiftl x 1 7) by exact H. reflexivity.
Qed.

Lemma py_lor_0_r x : N.lor x 0 = x.
Proof. apply N.lor_0_r. Qed.

(** *** pack / unpack *)

Lemma py_pack_le_length n v : length (py_pack_le n v) = n.
Proof. revert v; induction n as [|n IH]; intros v; cbn [py_pack_le length]; [reflexivity|]. rewrite IH. reflexivity. Qed.

Lemma py_pack_le_1 v : (v < 256)%N -> py_pack_le 1 v = [v].
Proof. intros H. cbn [py_pack_le]. rewrite N.mod_small by exact H. reflexivity. Qed.

Lemma py_pack_le_2 v : (v < 65536)%N -> py_pack_le 2 v = le16 v.
Proof.
  intros H. cbn [py_pack_le]. unfold le16.
  rewrite (N.mod_small (v / 256) 256) by lia. reflexivity.
Qed.

Lemma py_pack_le_4 v : py_pack_le 4 v = le32 v.
Proof.
  cbn [py_pack_le]. unfold le32.
  rewrite !N.div_div by lia. reflexivity.
Qed.

Lemma wf_py_pack_le n v : wf_bytes (py_pack_le n v) = true.
Proof.
  revert v; induction n as [|n IH]; intros v; cbn [py_pack_le]; [reflexivity|].
  unfold wf_bytes in *. cbn [forallb]. rewrite IH. unfold wf_byte.
  assert (v mod 256 < 256)%N by (apply N.mod_lt; lia). lia.
Qed.

Lemma py_pack_le_firstn n m v : m <= n -> firstn m (py_pack_le n v) = py_pack_le m v.
Proof.
  revert m v; induction n as [|n IH]; intros m v H.
  - assert (m = 0) by lia. subst. reflexivity.
  - destruct m as [|m]; [reflexivity|]. cbn [py_pack_le firstn]. rewrite IH by lia. reflexivity.
Qed.

Lemma py_pack_le_nth n v i : i < n -> nth i (py_pack_le n v) 0%N = ((v / 256 ^ N.of_nat i) mod 256)%N.
Proof.
  revert v i; induction n as [|n IH]; intros v i H; [lia|].
  destruct i as [|i]; cbn [py_pack_le nth].
  - cbn [N.of_nat]. rewrite N.pow_0_r, N.div_1_r. reflexivity.
  - rewrite IH by lia. rewrite N.div_div by lia.
    rewrite Nat2N.inj_succ, N.pow_succ_r'. reflexivity.
Qed.

Lemma py_pack_be_length n v : length (py_pack_be n v) = n.
Proof. unfold py_pack_be. rewrite rev_length. apply py_pack_le_length. Qed.

Lemma py_pack_le_S n v : py_pack_le (S n) v = (v mod 256)%N :: py_pack_le n (v / 256)%N.
Proof. reflexivity. Qed.

Lemma py_pack_be_S n v : py_pack_be (S n) v = py_pack_be n (v / 256)%N ++ [(v mod 256)%N].
Proof. unfold py_pack_be. cbn [py_pack_le rev]. reflexivity. Qed.

Lemma py_unpack_le_2 l : 2 <= length l -> py_unpack_le (py_slice 0 2 l) = un_le16 l.
Proof.
  intros H. destruct l as [|a [|b r]]; cbn [length] in H; try lia.
  unfold py_slice. cbn [Nat.sub skipn firstn py_unpack_le un_le16]. lia.
Qed.

Lemma py_unpack_pack n v : (v < 256 ^ N.of_nat n)%N -> py_unpack_le (py_pack_le n v) = v.
Proof.
  revert v; induction n as [|n IH]; intros v H; cbn [py_pack_le py_unpack_le].
  - cbn in H. lia.
  - rewrite Nat2N.inj_succ, N.pow_succ_r' in H.
    rewrite IH by (apply N.div_lt_upper_bound; lia).
    pose proof (N.div_mod v 256 ltac:(lia)). lia.
Qed.

(** [le32] is [pack('<I', _)]: what [py_unpack_le] reads back from it, written out *)
Lemma le32_value v : (v < 4294967296)%N ->
  (v mod 256 + 256 * ((v / 256) mod 256) + 65536 * ((v / 65536) mod 256)
   + 16777216 * ((v / 16777216) mod 256))%N = v.
Proof.
  intros H. transitivity (py_unpack_le (le32 v)).
  - unfold le32. cbn [py_unpack_le]. ring.
  - rewrite <- py_pack_le_4. apply py_unpack_pack. exact H.
Qed.

Lemma le32_inj a b : (a < 4294967296)%N -> (b < 4294967296)%N -> le32 a = le32 b -> a = b.
Proof.
  intros Ha Hb H.
  rewrite <- (py_unpack_pack 4 a Ha), <- (py_unpack_pack 4 b Hb), !py_pack_le_4, H. reflexivity.
Qed.

(** ** Tactics for the generated [gen_<f>_pre] predicates and for equality proofs that should
    survive behaviour-preserving rewrites of the source *)

(** split a conjunction of side conditions into its atoms (introducing the loop indices) *)
Ltac py_pre_split :=
  repeat lazymatch goal with
  | |- _ /\ _ => split
  | |- True => exact I
  | |- forall _, _ => intro
  end.

(** unfold every PyOps operation that is a plain renaming of a stdlib function *)
Ltac py_unfold :=
  cbv beta zeta delta [py_len py_slice_from py_slice_to py_bytes py_range_map py_floordiv py_mod
                       py_floordiv_N py_mod_N py_int_truediv py_int_truediv_N py_index py_concat].

Ltac py_norm :=
  cbv beta zeta delta [py_len py_slice py_slice_from py_slice_to py_bytes py_range_map py_floordiv py_mod
                       py_floordiv_N py_mod_N py_int_truediv py_int_truediv_N py_index py_concat slice nlen];
  cbn [app]; rewrite ?Nat.sub_0_r; cbn [skipn].

Ltac py_split_ifs :=
  repeat match goal with
  | |- context [if ?c then _ else _] => let E := fresh "Ec" in destruct c eqn:E; cbv beta iota zeta
  end.

Ltac py_close :=
  first [ reflexivity | lia | congruence
        | match goal with |- (_, _) = (_, _) => f_equal; py_close end
        | match goal with |- firstn _ _ = firstn _ _ => f_equal; py_close end
        | match goal with |- skipn _ _ = skipn _ _ => f_equal; py_close end
        | match goal with |- _ :: _ = _ :: _ => f_equal; py_close end
        | match goal with |- _ ++ _ = _ ++ _ => f_equal; py_close end
        | match goal with |- map _ _ = map _ _ => f_equal; py_close end
        | match goal with |- seq _ _ = seq _ _ => f_equal; py_close end
        | match goal with |- N.to_nat _ = N.to_nat _ => f_equal; py_close end
        | match goal with |- N.of_nat _ = N.of_nat _ => f_equal; py_close end ].

(** Closing tactic for the equality lemmas of GenEq.v: the generated term and the model term compute the
    same lengths / indices / slices up to re-association of the arithmetic, let-bound intermediates and a
    common sub-expression hoisted out of (or pushed into) the branches of an [if].  It unfolds the
    generated lets and the PyOps / Bytes renamings of slicing, case-splits on every tested boolean once,
    peels equal heads with [f_equal] and leaves linear arithmetic on nat / N (with the euclidean-division
    hook) to [lia].  It proves no equation that is not linear-arithmetically valid: an off-by-one in a
    bound leaves an unprovable [lia] goal. *)
Ltac py_arith :=
  first [ reflexivity
        | timeout 30 (py_norm; py_split_ifs; py_close) ].

(** *** equality tests *)

Lemma list_eqb_eq {A} (eqb : A -> A -> bool) :
  (forall x y, eqb x y = true <-> x = y) ->
  forall a b, list_eqb eqb a b = true <-> a = b.
Proof.
  intros He a. induction a as [|x a IH]; intros [|y b]; cbn [list_eqb]; split; intro H;
    try reflexivity; try discriminate.
  - apply andb_true_iff in H as [H1 H2]. apply He in H1. apply IH in H2. congruence.
  - inversion H; subst. apply andb_true_iff. split; [apply He; reflexivity | apply IH; reflexivity].
Qed.
