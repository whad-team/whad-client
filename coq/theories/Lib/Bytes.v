(** Byte strings as lists of N, Python-style slicing and little-endian integers. *)
From Coq Require Import List NArith ZArith Arith Bool Lia ZifyBool ZifyN ZifyNat.
Import ListNotations.
Ltac Zify.zify_post_hook ::= Z.to_euclidean_division_equations.

Definition bytes := list N.

Definition wf_byte (b : N) : bool := N.ltb b 256.
Definition wf_bytes (l : bytes) : bool := forallb wf_byte l.

(** Python [l[a:b]] for 0 <= a, 0 <= b (clamping like Python does). *)
Definition slice (a b : nat) (l : bytes) : bytes := firstn (b - a) (skipn a l).

Definition nlen (l : bytes) : N := N.of_nat (length l).

(** struct.pack('<H', n) for n < 65536 *)
Definition le16 (n : N) : bytes := [N.modulo n 256; N.div n 256].
(** struct.unpack('<H', b[:2])[0] on a list of at least two bytes *)
Definition un_le16 (l : bytes) : N :=
  match l with a :: b :: _ => a + 256 * b | _ => 0 end.

Definition le32 (n : N) : bytes :=
  [N.modulo n 256; N.modulo (N.div n 256) 256; N.modulo (N.div n 65536) 256; N.modulo (N.div n 16777216) 256].

Fixpoint bytes_eqb (a b : bytes) : bool :=
  match a, b with
  | [], [] => true
  | x :: a', y :: b' => N.eqb x y && bytes_eqb a' b'
  | _, _ => false
  end.

Lemma bytes_eqb_eq a : forall b, bytes_eqb a b = true <-> a = b.
Proof.
  induction a as [|x a IH]; intros [|y b]; simpl; split; intro H; try reflexivity; try discriminate.
  - apply andb_true_iff in H as [H1 H2]. apply N.eqb_eq in H1. apply IH in H2. congruence.
  - inversion H; subst. rewrite N.eqb_refl. simpl. apply IH. reflexivity.
Qed.

Lemma wf_bytes_app a b : wf_bytes (a ++ b) = wf_bytes a && wf_bytes b.
Proof. unfold wf_bytes. apply forallb_app. Qed.

Lemma wf_bytes_firstn_skipn n l : wf_bytes l = wf_bytes (firstn n l) && wf_bytes (skipn n l).
Proof. rewrite <- wf_bytes_app, firstn_skipn. reflexivity. Qed.

Lemma wf_bytes_firstn n l : wf_bytes l = true -> wf_bytes (firstn n l) = true.
Proof. rewrite (wf_bytes_firstn_skipn n l). intros H. apply andb_true_iff in H. apply H. Qed.

Lemma wf_bytes_skipn n l : wf_bytes l = true -> wf_bytes (skipn n l) = true.
Proof. rewrite (wf_bytes_firstn_skipn n l). intros H. apply andb_true_iff in H. apply H. Qed.

Lemma slice_length a b l : length (slice a b l) = Nat.min (b - a) (length l - a).
Proof. unfold slice. rewrite firstn_length, skipn_length. reflexivity. Qed.

Lemma un_le16_le16 n rest : (n < 65536)%N -> un_le16 (le16 n ++ rest) = n.
Proof.
  intros H. unfold le16, un_le16. cbn [app]. lia.
Qed.

Lemma wf_le16 n : (n < 65536)%N -> wf_bytes (le16 n) = true.
Proof.
  intros H. unfold wf_bytes, le16, wf_byte. cbn [forallb]. lia.
Qed.
