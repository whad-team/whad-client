(** AES-CMAC (RFC 4493 / NIST SP 800-38B) over an arbitrary block function [E].
    [E := aes128_enc] only for the test vectors. Stdlib only, no axioms. *)
From Coq Require Import List NArith ZArith Arith Bool Lia ZifyBool ZifyN ZifyNat.
From Whad Require Import Lib.Bytes Lib.Xor Lib.Aes.
Import ListNotations.
Ltac Zify.zify_post_hook ::= Z.to_euclidean_division_equations.

(** shift a big-endian byte string left by one bit: (carry out, shifted string) *)
Fixpoint shl1 (l : bytes) : N * bytes :=
  match l with
  | [] => (0%N, [])
  | b :: t => let '(c, t') := shl1 t in (N.div b 128, (N.modulo (2 * b) 256 + c)%N :: t')
  end.

(** doubling in GF(2^128) (RFC 4493 2.3: shift, xor const_Rb = 0x87 when the msb was set) *)
Definition cmac_dbl (l : bytes) : bytes :=
  let '(c, l') := shl1 l in
  if N.eqb c 0 then l' else xor_bytes l' (zeros (length l' - 1) ++ [135%N]).

Lemma shl1_length l : length (snd (shl1 l)) = length l.
Proof.
  induction l as [|b t IH]; [reflexivity|]. cbn [shl1]. destruct (shl1 t) as [c t'].
  cbn [snd length] in *. rewrite IH. reflexivity.
Qed.

Lemma cmac_dbl_length l : length (cmac_dbl l) = length l.
Proof.
  unfold cmac_dbl. pose proof (shl1_length l) as H. destruct (shl1 l) as [c l']. cbn [snd] in H.
  destruct (N.eqb c 0); [exact H|].
  rewrite xor_bytes_length, app_length, zeros_length. cbn [length]. lia.
Qed.

Section CMAC.
  Variable E : bytes -> bytes -> bytes.            (* key -> 16-byte block -> 16-byte block *)

  Definition cmac_subkeys (key : bytes) : bytes * bytes :=
    let l := E key (zeros 16) in
    let k1 := cmac_dbl l in
    (k1, cmac_dbl k1).

  (** last block: complete -> xor K1, else 10* padding and xor K2 *)
  Definition cmac_last (k1 k2 blk : bytes) : bytes :=
    if Nat.eqb (length blk) 16 then xor_bytes blk k1
    else xor_bytes (blk ++ [128%N] ++ zeros (15 - length blk)) k2.

  (** structural recursion over the list of 16-byte chunks (last one possibly shorter) *)
  Fixpoint cmac_blocks (key k1 k2 x : bytes) (blocks : list bytes) : bytes :=
    match blocks with
    | [] => E key (xor_bytes x (cmac_last k1 k2 []))       (* empty message *)
    | b :: rest =>
      match rest with
      | [] => E key (xor_bytes x (cmac_last k1 k2 b))
      | _ => cmac_blocks key k1 k2 (E key (xor_bytes x b)) rest
      end
    end.

  Definition cmac (key msg : bytes) : bytes :=
    let '(k1, k2) := cmac_subkeys key in
    cmac_blocks key k1 k2 (zeros 16) (chunks16 msg).

  (** truncated MAC, e.g. LoRaWAN MIC = cmac(...)[0:4] *)
  Definition cmac_trunc (n : nat) (key msg : bytes) : bytes := firstn n (cmac key msg).

  Hypothesis E_length : forall k b, length (E k b) = 16.

  Lemma cmac_blocks_length key k1 k2 : forall blocks x, length (cmac_blocks key k1 k2 x blocks) = 16.
  Proof.
    induction blocks as [|b rest IH]; intros x; cbn [cmac_blocks]; [apply E_length|].
    destruct rest; [apply E_length|apply IH].
  Qed.

  Lemma cmac_length key msg : length (cmac key msg) = 16.
  Proof. unfold cmac. destruct (cmac_subkeys key). apply cmac_blocks_length. Qed.

  Lemma cmac_subkeys_length key :
    length (fst (cmac_subkeys key)) = 16 /\ length (snd (cmac_subkeys key)) = 16.
  Proof. unfold cmac_subkeys. cbn [fst snd]. rewrite !cmac_dbl_length, E_length. split; reflexivity. Qed.
End CMAC.

(** * RFC 4493 section 4 test vectors with [E := aes128_enc] *)
Local Open Scope N_scope.

Definition rfc4493_key : bytes :=
  [0x2b;0x7e;0x15;0x16;0x28;0xae;0xd2;0xa6;0xab;0xf7;0x15;0x88;0x09;0xcf;0x4f;0x3c].

Definition rfc4493_msg64 : bytes :=
  [0x6b;0xc1;0xbe;0xe2;0x2e;0x40;0x9f;0x96;0xe9;0x3d;0x7e;0x11;0x73;0x93;0x17;0x2a;
   0xae;0x2d;0x8a;0x57;0x1e;0x03;0xac;0x9c;0x9e;0xb7;0x6f;0xac;0x45;0xaf;0x8e;0x51;
   0x30;0xc8;0x1c;0x46;0xa3;0x5c;0xe4;0x11;0xe5;0xfb;0xc1;0x19;0x1a;0x0a;0x52;0xef;
   0xf6;0x9f;0x24;0x45;0xdf;0x4f;0x9b;0x17;0xad;0x2b;0x41;0x7b;0xe6;0x6c;0x37;0x10].

Example cmac_rfc4493_subkeys :
  cmac_subkeys aes128_enc rfc4493_key =
  ([0xfb;0xee;0xd6;0x18;0x35;0x71;0x33;0x66;0x7c;0x85;0xe0;0x8f;0x72;0x36;0xa8;0xde],
   [0xf7;0xdd;0xac;0x30;0x6a;0xe2;0x66;0xcc;0xf9;0x0b;0xc1;0x1e;0xe4;0x6d;0x51;0x3b]).
Proof. vm_compute. reflexivity. Qed.

(** The MACs below take the subkeys from the vector above instead of evaluating them again. *)
Example cmac_rfc4493_len0 :
  cmac aes128_enc rfc4493_key [] =
  [0xbb;0x1d;0x69;0x29;0xe9;0x59;0x37;0x28;0x7f;0xa3;0x7d;0x12;0x9b;0x75;0x67;0x46].
Proof. unfold cmac. rewrite cmac_rfc4493_subkeys. vm_compute. reflexivity. Qed.

Example cmac_rfc4493_len16 :
  cmac aes128_enc rfc4493_key (firstn 16 rfc4493_msg64) =
  [0x07;0x0a;0x16;0xb4;0x6b;0x4d;0x41;0x44;0xf7;0x9b;0xdd;0x9d;0xd0;0x4a;0x28;0x7c].
Proof. unfold cmac. rewrite cmac_rfc4493_subkeys. vm_compute. reflexivity. Qed.

Example cmac_rfc4493_len40 :
  cmac aes128_enc rfc4493_key (firstn 40 rfc4493_msg64) =
  [0xdf;0xa6;0x67;0x47;0xde;0x9a;0xe6;0x30;0x30;0xca;0x32;0x61;0x14;0x97;0xc8;0x27].
Proof. unfold cmac. rewrite cmac_rfc4493_subkeys. vm_compute. reflexivity. Qed.

Example cmac_rfc4493_len64 :
  cmac aes128_enc rfc4493_key rfc4493_msg64 =
  [0x51;0xf0;0xbe;0xbf;0x7e;0x3b;0x9d;0x92;0xfc;0x49;0x74;0x17;0x79;0x36;0x3c;0xfe].
Proof. unfold cmac. rewrite cmac_rfc4493_subkeys. vm_compute. reflexivity. Qed.
