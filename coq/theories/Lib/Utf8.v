(** Strict UTF-8 (RFC 3629) as implemented by CPython's [bytes.decode('utf-8')] /
    [str.encode('utf-8')] with the default error handler: overlong forms, surrogates
    (U+D800..U+DFFF) and code points above U+10FFFF are rejected by the decoder
    ([None] = UnicodeDecodeError) and refused by the encoder ([None] =
    UnicodeEncodeError).  A text is the list of its code points.
    Validated against CPython by the C15 check: all 1- and 2-byte strings exhaustively,
    3/4-byte strings and all code-point classes sampled. *)
From Coq Require Import List NArith ZArith Arith Bool Lia ZifyBool ZifyN ZifyNat.
From Whad Require Import Lib.Bytes.
Import ListNotations.
Ltac Zify.zify_post_hook ::= Z.to_euclidean_division_equations.
Open Scope N_scope.

Definition text := list N.

Definition in_range (lo hi b : N) : bool := (lo <=? b) && (b <=? hi).
Definition is_cont (b : N) : bool := in_range 128 191 b.

(** [bytes.decode('utf-8')] *)
Fixpoint utf8_decode (l : bytes) : option text :=
  match l with
  | [] => Some []
  | b0 :: r0 =>
    if b0 <? 128 then option_map (cons b0) (utf8_decode r0)
    else if in_range 194 223 b0 then
      match r0 with
      | b1 :: r1 =>
          if is_cont b1
          then option_map (cons ((b0 - 192) * 64 + (b1 - 128))) (utf8_decode r1)
          else None
      | _ => None
      end
    else if in_range 224 239 b0 then
      match r0 with
      | b1 :: b2 :: r2 =>
          if in_range (if b0 =? 224 then 160 else 128) (if b0 =? 237 then 159 else 191) b1
             && is_cont b2
          then option_map (cons ((b0 - 224) * 4096 + (b1 - 128) * 64 + (b2 - 128))) (utf8_decode r2)
          else None
      | _ => None
      end
    else if in_range 240 244 b0 then
      match r0 with
      | b1 :: b2 :: b3 :: r3 =>
          if in_range (if b0 =? 240 then 144 else 128) (if b0 =? 244 then 143 else 191) b1
             && is_cont b2 && is_cont b3
          then option_map (cons ((b0 - 240) * 262144 + (b1 - 128) * 4096 + (b2 - 128) * 64 + (b3 - 128)))
                          (utf8_decode r3)
          else None
      | _ => None
      end
    else None
  end.

(** A Unicode scalar value (what a Python [str] obtained from a decoder holds). *)
Definition valid_cp (c : N) : bool := (c <? 55296) || ((57343 <? c) && (c <? 1114112)).
Definition valid_text (t : text) : bool := forallb valid_cp t.

(** [chr(c).encode('utf-8')] *)
Definition utf8_enc1 (c : N) : option bytes :=
  if c <? 128 then Some [c]
  else if c <? 2048 then Some [192 + c / 64; 128 + c mod 64]
  else if c <? 65536 then
    if in_range 55296 57343 c then None
    else Some [224 + c / 4096; 128 + (c / 64) mod 64; 128 + c mod 64]
  else if c <? 1114112 then
    Some [240 + c / 262144; 128 + (c / 4096) mod 64; 128 + (c / 64) mod 64; 128 + c mod 64]
  else None.

(** [s.encode('utf-8')] *)
Fixpoint utf8_encode (t : text) : option bytes :=
  match t with
  | [] => Some []
  | c :: r =>
      match utf8_enc1 c, utf8_encode r with
      | Some a, Some b => Some (a ++ b)
      | _, _ => None
      end
  end.

Lemma some_inj {A} (x y : A) : Some x = Some y -> x = y.
Proof. congruence. Qed.

(** [utf8_seq a c]: [a] is a row of the table of well-formed UTF-8 byte sequences
    (Unicode 3.9, table 3-7) and carries the code point [c].  The premises are the
    decoder's own tests, so the decoder follows the table by construction. *)
Inductive utf8_seq : bytes -> N -> Prop :=
| utf8_seq1 b0 : b0 < 128 -> utf8_seq [b0] b0
| utf8_seq2 b0 b1 c :
    in_range 194 223 b0 = true -> is_cont b1 = true ->
    c = (b0 - 192) * 64 + (b1 - 128) -> utf8_seq [b0; b1] c
| utf8_seq3 b0 b1 b2 c :
    in_range 224 239 b0 = true ->
    in_range (if b0 =? 224 then 160 else 128) (if b0 =? 237 then 159 else 191) b1 = true ->
    is_cont b2 = true ->
    c = (b0 - 224) * 4096 + (b1 - 128) * 64 + (b2 - 128) -> utf8_seq [b0; b1; b2] c
| utf8_seq4 b0 b1 b2 b3 c :
    in_range 240 244 b0 = true ->
    in_range (if b0 =? 240 then 144 else 128) (if b0 =? 244 then 143 else 191) b1 = true ->
    is_cont b2 = true -> is_cont b3 = true ->
    c = (b0 - 240) * 262144 + (b1 - 128) * 4096 + (b2 - 128) * 64 + (b3 - 128) ->
    utf8_seq [b0; b1; b2; b3] c.

Lemma utf8_seq_length a c : utf8_seq a c -> (1 <= length a <= 4)%nat.
Proof. intros []; cbn [length]; lia. Qed.

Lemma utf8_seq_wf a c : utf8_seq a c -> wf_bytes a = true.
Proof.
  intros []; unfold wf_bytes, wf_byte, is_cont, in_range in *; cbn [forallb]; try lia.
  - destruct (b0 =? 224), (b0 =? 237); lia.
  - destruct (b0 =? 240), (b0 =? 244); lia.
Qed.

(** Every row carries a Unicode scalar value: the second-byte windows of the lead bytes
    E0, ED, F0, F4 are what excludes overlong forms, surrogates and values above U+10FFFF. *)
Lemma utf8_seq_valid a c : utf8_seq a c -> valid_cp c = true.
Proof.
  intros []; subst; unfold valid_cp, is_cont, in_range in *; try lia.
  - destruct (N.eqb_spec b0 224), (N.eqb_spec b0 237); lia.
  - destruct (N.eqb_spec b0 240), (N.eqb_spec b0 244); lia.
Qed.

Lemma utf8_decode_seq a c rest :
  utf8_seq a c -> utf8_decode (a ++ rest) = option_map (cons c) (utf8_decode rest).
Proof.
  intros [b0 L | b0 b1 c' L H1 -> | b0 b1 b2 c' L H1 H2 -> | b0 b1 b2 b3 c' L H1 H2 H3 ->];
    cbn [app utf8_decode].
  - apply N.ltb_lt in L. rewrite L. reflexivity.
  - assert ((b0 <? 128) = false) as -> by (unfold in_range in L; lia).
    rewrite L, H1. reflexivity.
  - assert ((b0 <? 128) = false) as -> by (unfold in_range in L; lia).
    assert (in_range 194 223 b0 = false) as -> by (unfold in_range in *; lia).
    rewrite L, H1, H2. reflexivity.
  - assert ((b0 <? 128) = false) as -> by (unfold in_range in L; lia).
    assert (in_range 194 223 b0 = false) as -> by (unfold in_range in *; lia).
    assert (in_range 224 239 b0 = false) as -> by (unfold in_range in *; lia).
    rewrite L, H1, H2, H3. reflexivity.
Qed.

Lemma option_map_Some {A B} (f : A -> B) o y :
  option_map f o = Some y -> exists x, o = Some x /\ y = f x.
Proof. destruct o; [intros [= <-]; eauto | discriminate]. Qed.

Lemma utf8_decode_cons b0 r0 t :
  utf8_decode (b0 :: r0) = Some t ->
  exists a c r t', b0 :: r0 = a ++ r /\ utf8_seq a c /\ utf8_decode r = Some t' /\ t = c :: t'.
Proof.
  cbn [utf8_decode]. intros H.
  destruct (N.ltb_spec b0 128) as [L|_].
  { apply option_map_Some in H as (t' & Hr & ->).
    exists [b0], b0, r0, t'. repeat split; [constructor|]; assumption. }
  destruct (in_range 194 223 b0) eqn:L2.
  { destruct r0 as [|b1 r]; [discriminate|]. destruct (is_cont b1) eqn:H1; [|discriminate].
    apply option_map_Some in H as (t' & Hr & ->).
    eexists [b0; b1], _, r, t'. repeat split; [econstructor|]; eauto. }
  destruct (in_range 224 239 b0) eqn:L3.
  { destruct r0 as [|b1 [|b2 r]]; try discriminate.
    destruct (in_range _ _ b1) eqn:H1; [|discriminate]. destruct (is_cont b2) eqn:H2; [|discriminate].
    apply option_map_Some in H as (t' & Hr & ->).
    eexists [b0; b1; b2], _, r, t'. repeat split; [econstructor|]; eauto. }
  destruct (in_range 240 244 b0) eqn:L4; [|discriminate].
  destruct r0 as [|b1 [|b2 [|b3 r]]]; try discriminate.
  destruct (in_range _ _ b1) eqn:H1; [|discriminate]. destruct (is_cont b2) eqn:H2; [|discriminate].
  destruct (is_cont b3) eqn:H3; [|discriminate].
  apply option_map_Some in H as (t' & Hr & ->).
  eexists [b0; b1; b2; b3], _, r, t'. repeat split; [econstructor|]; eauto.
Qed.

(** The continuation bytes carry the base-64 digits of [c].  Naming quotient and digit
    leaves [lia] with linear facts only. *)
Lemma digits64 c : exists q x, c = 64 * q + x /\ x < 64 /\ c / 64 = q /\ c mod 64 = x.
Proof.
  exists (c / 64), (c mod 64). repeat split; [apply N.div_mod | apply N.mod_lt]; discriminate.
Qed.

Lemma utf8_enc1_seq c a : utf8_enc1 c = Some a -> utf8_seq a c.
Proof.
  unfold utf8_enc1. intros H.
  destruct (N.ltb_spec c 128) as [L1|L1]. { apply some_inj in H as <-. constructor. exact L1. }
  change 262144 with (64 * 64 * 64) in H. change 4096 with (64 * 64) in H.
  rewrite <- !N.div_div in H by discriminate.
  destruct (digits64 c) as (q & x & Ec & Hx & Eq & Ex). rewrite Eq, Ex in H. clear Eq Ex.
  destruct (N.ltb_spec c 2048) as [L2|L2].
  { apply some_inj in H as <-. constructor; unfold is_cont, in_range; lia. }
  destruct (digits64 q) as (q' & x' & Ec' & Hx' & Eq & Ex). rewrite Eq, Ex in H. clear Eq Ex.
  destruct (N.ltb_spec c 65536) as [L3|L3].
  { destruct (in_range 55296 57343 c) eqn:S; [discriminate|]. apply some_inj in H as <-.
    unfold in_range in S.
    constructor; unfold is_cont, in_range; try lia.
    destruct (N.eqb_spec (224 + q') 224), (N.eqb_spec (224 + q') 237); lia. }
  destruct (digits64 q') as (q'' & x'' & Ec'' & Hx'' & Eq & Ex). rewrite Eq, Ex in H. clear Eq Ex.
  destruct (N.ltb_spec c 1114112) as [L4|L4]; [|discriminate]. apply some_inj in H as <-.
  constructor; unfold is_cont, in_range; try lia.
  destruct (N.eqb_spec (240 + q'') 240), (N.eqb_spec (240 + q'') 244); lia.
Qed.

Lemma utf8_enc1_valid c : valid_cp c = true <-> exists a, utf8_enc1 c = Some a.
Proof.
  split.
  - unfold valid_cp, utf8_enc1, in_range. intros V.
    destruct (c <? 128); [eauto|]. destruct (c <? 2048); [eauto|].
    destruct (N.ltb_spec c 65536).
    + destruct (N.leb_spec 55296 c), (N.leb_spec c 57343); cbn [andb]; eauto. lia.
    + destruct (N.ltb_spec c 1114112); [eauto|lia].
  - intros [a H]. exact (utf8_seq_valid a c (utf8_enc1_seq c a H)).
Qed.

Lemma utf8_enc1_length c a : utf8_enc1 c = Some a -> (1 <= length a <= 4)%nat.
Proof. intros H. exact (utf8_seq_length a c (utf8_enc1_seq c a H)). Qed.

Lemma utf8_enc1_wf c a : utf8_enc1 c = Some a -> wf_bytes a = true.
Proof. intros H. exact (utf8_seq_wf a c (utf8_enc1_seq c a H)). Qed.

Lemma utf8_decode_enc1 c a rest :
  utf8_enc1 c = Some a -> utf8_decode (a ++ rest) = option_map (cons c) (utf8_decode rest).
Proof. intros H. apply utf8_decode_seq, utf8_enc1_seq, H. Qed.

Lemma utf8_encode_cons c t b :
  utf8_encode (c :: t) = Some b ->
  exists a b', utf8_enc1 c = Some a /\ utf8_encode t = Some b' /\ b = a ++ b'.
Proof.
  cbn [utf8_encode]. destruct (utf8_enc1 c) as [a|]; [|discriminate].
  destruct (utf8_encode t) as [b'|]; [|discriminate]. intros [= <-]. eauto.
Qed.

Lemma utf8_decode_encode_app t : forall b rest,
  utf8_encode t = Some b -> utf8_decode (b ++ rest) = option_map (app t) (utf8_decode rest).
Proof.
  induction t as [|c t IH]; intros b rest H.
  - injection H as <-. cbn [app]. destruct (utf8_decode rest); reflexivity.
  - apply utf8_encode_cons in H as (a & b' & Ha & Hb & ->).
    rewrite <- app_assoc, (utf8_decode_enc1 c a _ Ha), (IH b' rest Hb).
    destruct (utf8_decode rest); reflexivity.
Qed.

Lemma utf8_decode_encode t b : utf8_encode t = Some b -> utf8_decode b = Some t.
Proof.
  intros H. rewrite <- (app_nil_r b), (utf8_decode_encode_app t b [] H).
  cbn. rewrite app_nil_r. reflexivity.
Qed.

Lemma utf8_encode_valid t : valid_text t = true <-> exists b, utf8_encode t = Some b.
Proof.
  induction t as [|c t IH]; cbn [valid_text forallb].
  - split; cbn; eauto.
  - fold (valid_text t). rewrite andb_true_iff, utf8_enc1_valid, IH. split.
    + intros [[a Ha] [b Hb]]. cbn [utf8_encode]. rewrite Ha, Hb. eauto.
    + intros [b H]. apply utf8_encode_cons in H as (a & b' & Ha & Hb & _). eauto.
Qed.

Lemma utf8_encode_wf t : forall b, utf8_encode t = Some b -> wf_bytes b = true.
Proof.
  induction t as [|c t IH]; intros b H.
  - injection H as <-. reflexivity.
  - apply utf8_encode_cons in H as (a & b' & Ha & Hb & ->).
    rewrite wf_bytes_app, (utf8_enc1_wf c a Ha), (IH b' Hb). reflexivity.
Qed.

Lemma utf8_decode_nonempty b0 r : utf8_decode (b0 :: r) <> Some [].
Proof. intros H. apply utf8_decode_cons in H as (a & c & r' & t' & _ & _ & _ & [=]). Qed.

(** Whatever the decoder accepts is a text of Unicode scalar values (so it can be
    encoded again: no UnicodeEncodeError on decoded text).  The decoder recurses on the
    bytes after a whole row, hence the induction on a bound of the length. *)
Lemma utf8_decode_valid_aux n : forall l t,
  (length l <= n)%nat -> utf8_decode l = Some t -> valid_text t = true.
Proof.
  induction n as [|n IH]; intros [|b0 r0] t Hl H;
    try (injection H as <-; reflexivity); [cbn in Hl; lia|].
  apply utf8_decode_cons in H as (a & c & r & t' & E & Hs & Hr & ->).
  cbn [valid_text forallb]. rewrite (utf8_seq_valid a c Hs). apply (IH r t'); [|exact Hr].
  apply (f_equal (@length N)) in E. rewrite app_length in E.
  pose proof (utf8_seq_length a c Hs). cbn [length] in *. lia.
Qed.

Lemma utf8_decode_valid l t : utf8_decode l = Some t -> valid_text t = true.
Proof. apply (utf8_decode_valid_aux (length l)). lia. Qed.
