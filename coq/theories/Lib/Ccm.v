(** CCM (RFC 3610 / NIST SP 800-38C) over an arbitrary block function [E].
    Every theorem holds for every [E] with 16-byte outputs; [E := aes128_enc] only for
    evaluation (the Examples at the end). Stdlib only, no axioms. *)
From Coq Require Import List NArith ZArith Arith Bool Lia ZifyBool ZifyN ZifyNat.
From Whad Require Import Lib.Lists Lib.Bytes Lib.Xor Lib.Aes.
Import ListNotations.
Ltac Zify.zify_post_hook ::= Z.to_euclidean_division_equations.

Lemma bytes_eqb_refl a : bytes_eqb a a = true.
Proof. apply bytes_eqb_eq. reflexivity. Qed.

(** * Formatting (independent of the block function) *)

(** M = tag length in bytes (4, 6, .., 16), L = 15 - nonce length (2..8). *)

(** Flags byte of B0: 64*Adata + 8*((M-2)/2) + (L-1) *)
Definition ccm_flags (M L : nat) (adata : bool) : N :=
  ((if adata then 64 else 0) + 8 * N.of_nat ((M - 2) / 2) + N.of_nat (L - 1))%N.

Definition ccm_b0 (M L : nat) (nonce : bytes) (alen mlen : nat) : bytes :=
  ccm_flags M L (negb (Nat.eqb alen 0)) :: nonce ++ be_bytes L (N.of_nat mlen).

(** l(a) encoding: nothing when there is no AAD, else a 2-byte big-endian length
    (RFC 3610 form for 0 < l(a) < 2^16 - 2^8), then the AAD, zero padded to 16. *)
Definition ccm_encode_aad (aad : bytes) : bytes :=
  match aad with
  | [] => []
  | _ => pad16 (be_bytes 2 (N.of_nat (length aad)) ++ aad)
  end.

(** The CBC-MAC input as one byte string: B0 || encoded AAD || padded message *)
Definition ccm_auth_string (M L : nat) (nonce aad msg : bytes) : bytes :=
  ccm_b0 M L nonce (length aad) (length msg) ++ ccm_encode_aad aad ++ pad16 msg.

Definition ccm_auth_blocks (M L : nat) (nonce aad msg : bytes) : list bytes :=
  chunks16 (ccm_auth_string M L nonce aad msg).

(** A_i = (L-1) || nonce || i on L bytes *)
Definition ccm_ctr_block (L : nat) (nonce : bytes) (i : N) : bytes :=
  N.of_nat (L - 1) :: nonce ++ be_bytes L i.

(** ** the authenticated encoding is injective *)
Lemma ccm_auth_blocks_concat M L nonce aad msg :
  concat (ccm_auth_blocks M L nonce aad msg) = ccm_auth_string M L nonce aad msg.
Proof. apply chunks16_concat. Qed.

Lemma ccm_b0_length M L nonce alen mlen : length (ccm_b0 M L nonce alen mlen) = S (length nonce + L).
Proof. unfold ccm_b0. cbn [length]. rewrite app_length, be_bytes_length. reflexivity. Qed.

Lemma ccm_auth_string_length_mod M L nonce aad msg : length nonce + L = 15 ->
  Nat.modulo (length (ccm_auth_string M L nonce aad msg)) 16 = 0.
Proof.
  intros HL. unfold ccm_auth_string. rewrite !app_length, ccm_b0_length, HL.
  assert (Ha : Nat.modulo (length (ccm_encode_aad aad)) 16 = 0).
  { unfold ccm_encode_aad. destruct aad; [reflexivity|apply pad16_length_mod]. }
  pose proof (pad16_length_mod msg). lia.
Qed.

Lemma ccm_auth_blocks_length M L nonce aad msg : length nonce + L = 15 ->
  Forall (fun b => length b = 16) (ccm_auth_blocks M L nonce aad msg).
Proof. intros HL. apply chunks16_block_length. apply ccm_auth_string_length_mod; exact HL. Qed.

Lemma app_inj_length {A} (a a' b b' : list A) : length a = length a' -> a ++ b = a' ++ b' -> a = a' /\ b = b'.
Proof.
  revert a'. induction a as [|x a IH]; intros [|y a'] Hl H; cbn in *; try discriminate.
  - split; [reflexivity|exact H].
  - inversion H; subst. destruct (IH a') as [-> ->]; [lia|assumption|]. split; reflexivity.
Qed.

Lemma pad16_inj_length (a b : bytes) : length a = length b -> pad16 a = pad16 b -> a = b.
Proof.
  intros Hl H. unfold pad16 in H. apply app_inj_length in H; [tauto|exact Hl].
Qed.

Lemma ccm_flags_adata M L a a' : L <= 8 -> ccm_flags M L a = ccm_flags M L a' -> a = a'.
Proof.
  unfold ccm_flags. intros HL H. destruct a, a'; try reflexivity; lia.
Qed.

(** Same M and L, nonces of equal length, lengths within the ranges of their length fields:
    equal CBC-MAC inputs force equal nonce, AAD and message. *)
Theorem ccm_auth_string_injective : forall M L nonce nonce' aad aad' msg msg',
    L <= 8 -> length nonce = length nonce' ->
    (N.of_nat (length msg) < 256 ^ N.of_nat L)%N -> (N.of_nat (length msg') < 256 ^ N.of_nat L)%N ->
    (N.of_nat (length aad) < 65536)%N -> (N.of_nat (length aad') < 65536)%N ->
    ccm_auth_string M L nonce aad msg = ccm_auth_string M L nonce' aad' msg' ->
    nonce = nonce' /\ aad = aad' /\ msg = msg'.
Proof.
  intros M L n n' aad aad' msg msg' HL Hn Hm Hm' Ha Ha' H.
  (* The string is a concatenation of fields, each of a length that the fields before it
     determine: peel them off from the left. *)
  unfold ccm_auth_string, ccm_b0 in H. cbn [app] in H. injection H as Hflags H.
  rewrite <- !app_assoc in H.
  apply app_inj_length in H as [-> H]; [|exact Hn].
  apply app_inj_length in H as [Hml H]; [|rewrite !be_bytes_length; reflexivity].
  apply be_bytes_inj, Nat2N.inj in Hml; [|assumption..].
  apply ccm_flags_adata in Hflags; [|exact HL].
  split; [reflexivity|].
  unfold ccm_encode_aad in H.
  destruct aad as [|a0 aad], aad' as [|a0' aad']; cbn [length Nat.eqb negb] in Hflags; try discriminate.
  - apply pad16_inj_length in H; [|exact Hml]. subst. split; reflexivity.
  - unfold pad16 in H. rewrite <- !app_assoc in H.
    apply app_inj_length in H as [Hal H]; [|rewrite !be_bytes_length; reflexivity].
    apply be_bytes_inj, Nat2N.inj in Hal; [|assumption..].
    apply app_inj_length in H as [-> H]; [|exact Hal].
    apply app_inv_head in H.
    apply app_inj_length in H as [-> _]; [|exact Hml]. split; reflexivity.
Qed.

Theorem ccm_auth_blocks_injective : forall M L nonce nonce' aad aad' msg msg',
    L <= 8 -> length nonce = length nonce' ->
    (N.of_nat (length msg) < 256 ^ N.of_nat L)%N -> (N.of_nat (length msg') < 256 ^ N.of_nat L)%N ->
    (N.of_nat (length aad) < 65536)%N -> (N.of_nat (length aad') < 65536)%N ->
    ccm_auth_blocks M L nonce aad msg = ccm_auth_blocks M L nonce' aad' msg' ->
    nonce = nonce' /\ aad = aad' /\ msg = msg'.
Proof.
  intros M L n n' aad aad' msg msg' HL Hn Hm Hm' Ha Ha' H.
  apply (ccm_auth_string_injective M L n n' aad aad' msg msg'); try assumption.
  rewrite <- !ccm_auth_blocks_concat. rewrite H. reflexivity.
Qed.

Section CCM.
  Variable E : bytes -> bytes -> bytes.            (* key -> 16-byte block -> 16-byte block *)
  Hypothesis E_length : forall k b, length (E k b) = 16.

  Definition cbc_mac (key : bytes) (blocks : list bytes) : bytes :=
    fold_left (fun x b => E key (xor_bytes x b)) blocks (zeros 16).

  (** S_1 || S_2 || ... || S_n *)
  Definition ccm_keystream (L : nat) (key nonce : bytes) (n : nat) : bytes :=
    flat_map (fun j => E key (ccm_ctr_block L nonce (N.of_nat j))) (seq 1 n).

  Definition ccm_nblocks (len : nat) : nat := (len + 15) / 16.

  Definition ccm_keystream_xor (L : nat) (key nonce data : bytes) : bytes :=
    xor_bytes data (ccm_keystream L key nonce (ccm_nblocks (length data))).

  Definition ccm_tag (M L : nat) (key nonce aad msg : bytes) : bytes :=
    firstn M (xor_bytes (cbc_mac key (ccm_auth_blocks M L nonce aad msg))
                        (E key (ccm_ctr_block L nonce 0))).

  Definition ccm_encrypt (M L : nat) (key nonce aad msg : bytes) : bytes * bytes :=
    (ccm_keystream_xor L key nonce msg, ccm_tag M L key nonce aad msg).

  Definition ccm_decrypt (M L : nat) (key nonce aad ct tag : bytes) : option bytes :=
    let m := ccm_keystream_xor L key nonce ct in
    if bytes_eqb tag (ccm_tag M L key nonce aad m) then Some m else None.

  Lemma ccm_keystream_length L key nonce n : length (ccm_keystream L key nonce n) = 16 * n.
  Proof.
    unfold ccm_keystream. rewrite (flat_map_length_const _ 16), seq_length; [reflexivity|].
    intros j. apply E_length.
  Qed.

  Lemma ccm_keystream_covers L key nonce (d : bytes) :
    length (ccm_keystream L key nonce (ccm_nblocks (length d))) >= length d.
  Proof. rewrite ccm_keystream_length. unfold ccm_nblocks. lia. Qed.

  Lemma ccm_keystream_xor_length L key nonce d : length (ccm_keystream_xor L key nonce d) = length d.
  Proof.
    unfold ccm_keystream_xor. apply xor_bytes_length_le. apply ccm_keystream_covers.
  Qed.

  (** ** CTR mode is an involution (for every list of N; [wf_bytes] is not needed) *)
  Lemma ccm_keystream_xor_involutive L key nonce d :
    ccm_keystream_xor L key nonce (ccm_keystream_xor L key nonce d) = d.
  Proof.
    unfold ccm_keystream_xor at 1. rewrite ccm_keystream_xor_length.
    unfold ccm_keystream_xor. apply xor_bytes_involutive_gen. apply ccm_keystream_covers.
  Qed.

  Lemma ccm_keystream_xor_inj L key nonce d d' :
    ccm_keystream_xor L key nonce d = ccm_keystream_xor L key nonce d' -> d = d'.
  Proof.
    intros H. rewrite <- (ccm_keystream_xor_involutive L key nonce d), H.
    apply ccm_keystream_xor_involutive.
  Qed.

  Lemma cbc_mac_length key blocks : length (cbc_mac key blocks) = 16.
  Proof.
    unfold cbc_mac. rewrite <- fold_left_rev_right.
    destruct (rev blocks) as [|b r]; cbn [fold_right]; [apply zeros_length|apply E_length].
  Qed.

  Lemma ccm_tag_length M L key nonce aad msg : M <= 16 -> length (ccm_tag M L key nonce aad msg) = M.
  Proof.
    intros HM. unfold ccm_tag. rewrite firstn_length, xor_bytes_length, cbc_mac_length, E_length. lia.
  Qed.

  Lemma ccm_decrypt_after_encrypt M L key nonce aad msg ct tag :
    ccm_encrypt M L key nonce aad msg = (ct, tag) ->
    forall tag', ccm_decrypt M L key nonce aad ct tag' = if bytes_eqb tag' tag then Some msg else None.
  Proof.
    unfold ccm_encrypt. intros [= <- <-] tag'. unfold ccm_decrypt.
    rewrite ccm_keystream_xor_involutive. reflexivity.
  Qed.

  Theorem ccm_decrypt_encrypt_gen : forall M L key nonce aad msg,
      ccm_decrypt M L key nonce aad (fst (ccm_encrypt M L key nonce aad msg))
                  (snd (ccm_encrypt M L key nonce aad msg)) = Some msg.
  Proof.
    intros. rewrite (ccm_decrypt_after_encrypt M L key nonce aad msg _ _ eq_refl), bytes_eqb_refl.
    reflexivity.
  Qed.

  (** the form named in CRYPTO_INTERFACE.md (the range condition is not needed) *)
  Theorem ccm_decrypt_encrypt : forall M L key nonce aad msg, wf_bytes msg = true ->
      let '(ct, tag) := ccm_encrypt M L key nonce aad msg in ccm_decrypt M L key nonce aad ct tag = Some msg.
  Proof. intros M L key nonce aad msg _. apply ccm_decrypt_encrypt_gen. Qed.

  (** ** decryption succeeds iff the received tag is the recomputed tag *)
  Theorem ccm_decrypt_iff_tag : forall M L key nonce aad ct tag m,
      ccm_decrypt M L key nonce aad ct tag = Some m <->
      (m = ccm_keystream_xor L key nonce ct /\ tag = ccm_tag M L key nonce aad m).
  Proof.
    intros M L key nonce aad ct tag m. unfold ccm_decrypt.
    destruct (bytes_eqb tag (ccm_tag M L key nonce aad (ccm_keystream_xor L key nonce ct))) eqn:Eq.
    - apply bytes_eqb_eq in Eq. split.
      + intros H. injection H as <-. split; [reflexivity|exact Eq].
      + intros [-> _]. reflexivity.
    - split; [discriminate|].
      intros [-> Ht]. rewrite Ht in Eq. rewrite bytes_eqb_refl in Eq. discriminate.
  Qed.

  Corollary ccm_decrypt_none_iff : forall M L key nonce aad ct tag,
      ccm_decrypt M L key nonce aad ct tag = None <->
      tag <> ccm_tag M L key nonce aad (ccm_keystream_xor L key nonce ct).
  Proof.
    intros. unfold ccm_decrypt.
    destruct (bytes_eqb tag _) eqn:Eq.
    - apply bytes_eqb_eq in Eq. split; [discriminate|]. intros H; contradiction.
    - split; [|reflexivity]. intros _ H. rewrite H, bytes_eqb_refl in Eq. discriminate.
  Qed.

  (** The tag depends on (nonce, aad, msg) only through the block list and A_0. *)
  Lemma ccm_tag_eq_blocks M L key nonce aad msg aad' msg' :
    ccm_auth_blocks M L nonce aad msg = ccm_auth_blocks M L nonce aad' msg' ->
    ccm_tag M L key nonce aad msg = ccm_tag M L key nonce aad' msg'.
  Proof. intros H. unfold ccm_tag. rewrite H. reflexivity. Qed.
End CCM.

(** * Test vectors with [E := aes128_enc] *)
Local Open Scope N_scope.

(** RFC 3610 packet vector #1 (M = 8, L = 2) *)
Definition rfc3610_key : bytes :=
  [0xC0;0xC1;0xC2;0xC3;0xC4;0xC5;0xC6;0xC7;0xC8;0xC9;0xCA;0xCB;0xCC;0xCD;0xCE;0xCF].
Definition rfc3610_1_nonce : bytes :=
  [0x00;0x00;0x00;0x03;0x02;0x01;0x00;0xA0;0xA1;0xA2;0xA3;0xA4;0xA5].
Definition rfc3610_1_aad : bytes := [0x00;0x01;0x02;0x03;0x04;0x05;0x06;0x07].
Definition rfc3610_1_msg : bytes :=
  [0x08;0x09;0x0A;0x0B;0x0C;0x0D;0x0E;0x0F;0x10;0x11;0x12;0x13;0x14;0x15;0x16;0x17;
   0x18;0x19;0x1A;0x1B;0x1C;0x1D;0x1E].
Definition rfc3610_1_ct : bytes :=
  [0x58;0x8C;0x97;0x9A;0x61;0xC6;0x63;0xD2;0xF0;0x66;0xD0;0xC2;0xC0;0xF9;0x89;0x80;
   0x6D;0x5F;0x6B;0x61;0xDA;0xC3;0x84].
Definition rfc3610_1_tag : bytes := [0x17;0xE8;0xD1;0x2C;0xFD;0xF9;0x26;0xE0].

Example ccm_rfc3610_vector1_b0 :
  ccm_b0 8 2 rfc3610_1_nonce 8 23 =
  [0x59;0x00;0x00;0x00;0x03;0x02;0x01;0x00;0xA0;0xA1;0xA2;0xA3;0xA4;0xA5;0x00;0x17].
Proof. vm_compute. reflexivity. Qed.

Example ccm_rfc3610_vector1 :
  ccm_encrypt aes128_enc 8 2 rfc3610_key rfc3610_1_nonce rfc3610_1_aad rfc3610_1_msg
  = (rfc3610_1_ct, rfc3610_1_tag).
Proof. vm_compute. reflexivity. Qed.

(** The receiving side needs no second evaluation: it is [ccm_decrypt_after_encrypt] on the
    vector above. *)
Example ccm_rfc3610_vector1_dec :
  ccm_decrypt aes128_enc 8 2 rfc3610_key rfc3610_1_nonce rfc3610_1_aad rfc3610_1_ct rfc3610_1_tag
  = Some rfc3610_1_msg.
Proof.
  rewrite (ccm_decrypt_after_encrypt _ aes128_enc_length _ _ _ _ _ _ _ _ ccm_rfc3610_vector1).
  reflexivity.
Qed.

Example ccm_rfc3610_vector1_bad_tag :
  ccm_decrypt aes128_enc 8 2 rfc3610_key rfc3610_1_nonce rfc3610_1_aad rfc3610_1_ct
              [0x17;0xE8;0xD1;0x2C;0xFD;0xF9;0x26;0xE1] = None.
Proof.
  rewrite (ccm_decrypt_after_encrypt _ aes128_enc_length _ _ _ _ _ _ _ _ ccm_rfc3610_vector1).
  reflexivity.
Qed.

(** BLE link layer (M = 4, L = 2): Bluetooth Core spec Vol 6 Part C 1.2, first encrypted
    packet master -> slave (LL_START_ENC_RSP): session key 99AD1B5226A37E3E058E3B8E27C2C666,
    IV = 24ABDCBA BEBAAFDE, packet counter 0, direction bit 1, header 0x0F masked to 0x03,
    payload 06 -> 9F, MIC CD A7 F4 48. *)
Definition ble_sample_sk : bytes :=
  [0x99;0xAD;0x1B;0x52;0x26;0xA3;0x7E;0x3E;0x05;0x8E;0x3B;0x8E;0x27;0xC2;0xC6;0x66].
Definition ble_sample_nonce_m0 : bytes :=
  [0x00;0x00;0x00;0x00;0x80;0x24;0xAB;0xDC;0xBA;0xBE;0xBA;0xAF;0xDE].

Example ccm_ble_m4_l2 :
  ccm_encrypt aes128_enc 4 2 ble_sample_sk ble_sample_nonce_m0 [0x03] [0x06]
  = ([0x9F], [0xCD;0xA7;0xF4;0x48]).
Proof. vm_compute. reflexivity. Qed.

Example ccm_ble_m4_l2_dec :
  ccm_decrypt aes128_enc 4 2 ble_sample_sk ble_sample_nonce_m0 [0x03] [0x9F] [0xCD;0xA7;0xF4;0x48]
  = Some [0x06].
Proof.
  rewrite (ccm_decrypt_after_encrypt _ aes128_enc_length _ _ _ _ _ _ _ _ ccm_ble_m4_l2).
  reflexivity.
Qed.
