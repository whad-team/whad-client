(** AES-128 (FIPS-197) cipher and inverse cipher, executable under [vm_compute].
    State = list of 16 N in the FIPS input order (byte i is row i mod 4, column i / 4).
    S-box and inverse S-box are 256-entry list literals, xtime is arithmetic on N, the key
    schedule is computed once per call. Stdlib only, no axioms. *)
From Coq Require Import List NArith ZArith Arith Bool Lia ZifyBool ZifyN ZifyNat.
From Whad Require Import Lib.Bytes Lib.Xor.
Import ListNotations.
Local Open Scope N_scope.

Definition sbox_table : list N :=
  [
   99; 124; 119; 123; 242; 107; 111; 197; 48; 1; 103; 43; 254; 215; 171; 118;
   202; 130; 201; 125; 250; 89; 71; 240; 173; 212; 162; 175; 156; 164; 114; 192;
   183; 253; 147; 38; 54; 63; 247; 204; 52; 165; 229; 241; 113; 216; 49; 21;
   4; 199; 35; 195; 24; 150; 5; 154; 7; 18; 128; 226; 235; 39; 178; 117;
   9; 131; 44; 26; 27; 110; 90; 160; 82; 59; 214; 179; 41; 227; 47; 132;
   83; 209; 0; 237; 32; 252; 177; 91; 106; 203; 190; 57; 74; 76; 88; 207;
   208; 239; 170; 251; 67; 77; 51; 133; 69; 249; 2; 127; 80; 60; 159; 168;
   81; 163; 64; 143; 146; 157; 56; 245; 188; 182; 218; 33; 16; 255; 243; 210;
   205; 12; 19; 236; 95; 151; 68; 23; 196; 167; 126; 61; 100; 93; 25; 115;
   96; 129; 79; 220; 34; 42; 144; 136; 70; 238; 184; 20; 222; 94; 11; 219;
   224; 50; 58; 10; 73; 6; 36; 92; 194; 211; 172; 98; 145; 149; 228; 121;
   231; 200; 55; 109; 141; 213; 78; 169; 108; 86; 244; 234; 101; 122; 174; 8;
   186; 120; 37; 46; 28; 166; 180; 198; 232; 221; 116; 31; 75; 189; 139; 138;
   112; 62; 181; 102; 72; 3; 246; 14; 97; 53; 87; 185; 134; 193; 29; 158;
   225; 248; 152; 17; 105; 217; 142; 148; 155; 30; 135; 233; 206; 85; 40; 223;
   140; 161; 137; 13; 191; 230; 66; 104; 65; 153; 45; 15; 176; 84; 187; 22
  ]%N.

Definition inv_sbox_table : list N :=
  [
   82; 9; 106; 213; 48; 54; 165; 56; 191; 64; 163; 158; 129; 243; 215; 251;
   124; 227; 57; 130; 155; 47; 255; 135; 52; 142; 67; 68; 196; 222; 233; 203;
   84; 123; 148; 50; 166; 194; 35; 61; 238; 76; 149; 11; 66; 250; 195; 78;
   8; 46; 161; 102; 40; 217; 36; 178; 118; 91; 162; 73; 109; 139; 209; 37;
   114; 248; 246; 100; 134; 104; 152; 22; 212; 164; 92; 204; 93; 101; 182; 146;
   108; 112; 72; 80; 253; 237; 185; 218; 94; 21; 70; 87; 167; 141; 157; 132;
   144; 216; 171; 0; 140; 188; 211; 10; 247; 228; 88; 5; 184; 179; 69; 6;
   208; 44; 30; 143; 202; 63; 15; 2; 193; 175; 189; 3; 1; 19; 138; 107;
   58; 145; 17; 65; 79; 103; 220; 234; 151; 242; 207; 206; 240; 180; 230; 115;
   150; 172; 116; 34; 231; 173; 53; 133; 226; 249; 55; 232; 28; 117; 223; 110;
   71; 241; 26; 113; 29; 41; 197; 137; 111; 183; 98; 14; 170; 24; 190; 27;
   252; 86; 62; 75; 198; 210; 121; 32; 154; 219; 192; 254; 120; 205; 90; 244;
   31; 221; 168; 51; 136; 7; 199; 49; 177; 18; 16; 89; 39; 128; 236; 95;
   96; 81; 127; 169; 25; 181; 74; 13; 45; 229; 122; 159; 147; 201; 156; 239;
   160; 224; 59; 77; 174; 42; 245; 176; 200; 235; 187; 60; 131; 83; 153; 97;
   23; 43; 4; 126; 186; 119; 214; 38; 225; 105; 20; 99; 85; 33; 12; 125
  ]%N.

Definition sub_byte (x : N) : N := nth (N.to_nat x) sbox_table 0.
Definition inv_sub_byte (x : N) : N := nth (N.to_nat x) inv_sbox_table 0.

(** multiplication by x in GF(2^8) modulo x^8+x^4+x^3+x+1 *)
Definition xtime (x : N) : N :=
  let y := 2 * x in if y <? 256 then y else N.lxor (y - 256) 27.

(** force a list to exactly 16 entries (identity on 16-byte lists) *)
Definition fit16 (l : bytes) : bytes := firstn 16 (l ++ zeros 16).

Definition sub_bytes (s : bytes) : bytes := map sub_byte s.
Definition inv_sub_bytes (s : bytes) : bytes := map inv_sub_byte s.

Definition shift_rows (s : bytes) : bytes :=
  match s with
  | [s0;s1;s2;s3;s4;s5;s6;s7;s8;s9;s10;s11;s12;s13;s14;s15] =>
    [s0;s5;s10;s15;s4;s9;s14;s3;s8;s13;s2;s7;s12;s1;s6;s11]
  | _ => s
  end.

Definition inv_shift_rows (s : bytes) : bytes :=
  match s with
  | [s0;s1;s2;s3;s4;s5;s6;s7;s8;s9;s10;s11;s12;s13;s14;s15] =>
    [s0;s13;s10;s7;s4;s1;s14;s11;s8;s5;s2;s15;s12;s9;s6;s3]
  | _ => s
  end.

(** one column of MixColumns: (2 3 1 1 / 1 2 3 1 / 1 1 2 3 / 3 1 1 2) *)
Definition mix_col (a0 a1 a2 a3 : N) : bytes :=
  let t := N.lxor (N.lxor a0 a1) (N.lxor a2 a3) in
  [ N.lxor (N.lxor a0 t) (xtime (N.lxor a0 a1));
    N.lxor (N.lxor a1 t) (xtime (N.lxor a1 a2));
    N.lxor (N.lxor a2 t) (xtime (N.lxor a2 a3));
    N.lxor (N.lxor a3 t) (xtime (N.lxor a3 a0)) ].

Fixpoint mix_columns (s : bytes) : bytes :=
  match s with
  | a0 :: a1 :: a2 :: a3 :: t => mix_col a0 a1 a2 a3 ++ mix_columns t
  | _ => []
  end.

(** InvMixColumns = MixColumns after the (5 0 4 0 / 0 5 0 4 / 4 0 5 0 / 0 4 0 5) preprocessing *)
Definition inv_mix_col (a0 a1 a2 a3 : N) : bytes :=
  let u := xtime (xtime (N.lxor a0 a2)) in
  let v := xtime (xtime (N.lxor a1 a3)) in
  mix_col (N.lxor a0 u) (N.lxor a1 v) (N.lxor a2 u) (N.lxor a3 v).

Fixpoint inv_mix_columns (s : bytes) : bytes :=
  match s with
  | a0 :: a1 :: a2 :: a3 :: t => inv_mix_col a0 a1 a2 a3 ++ inv_mix_columns t
  | _ => []
  end.

(** * key schedule: 11 round keys of 16 bytes *)
Definition next_round_key (rk : bytes) (rc : N) : bytes :=
  match rk with
  | [k0;k1;k2;k3;k4;k5;k6;k7;k8;k9;k10;k11;k12;k13;k14;k15] =>
    let w4 := [N.lxor k0 (N.lxor (sub_byte k13) rc); N.lxor k1 (sub_byte k14);
               N.lxor k2 (sub_byte k15); N.lxor k3 (sub_byte k12)] in
    let w5 := xor_bytes [k4;k5;k6;k7] w4 in
    let w6 := xor_bytes [k8;k9;k10;k11] w5 in
    let w7 := xor_bytes [k12;k13;k14;k15] w6 in
    w4 ++ w5 ++ w6 ++ w7
  | _ => rk
  end.

Fixpoint expand_from (rk : bytes) (rcons : list N) : list bytes :=
  match rcons with
  | [] => []
  | rc :: t => let rk' := next_round_key rk rc in rk' :: expand_from rk' t
  end.

Definition rcon_list : list N := [1; 2; 4; 8; 16; 32; 64; 128; 27; 54].

Definition round_keys (key : bytes) : list bytes :=
  let k := fit16 key in k :: expand_from k rcon_list.

(** * cipher *)
Fixpoint enc_rounds (s : bytes) (rks : list bytes) : bytes :=
  match rks with
  | [] => s
  | rk :: rest =>
    match rest with
    | [] => xor_bytes (shift_rows (sub_bytes s)) rk
    | _ => enc_rounds (xor_bytes (mix_columns (shift_rows (sub_bytes s))) rk) rest
    end
  end.

Definition aes128_enc (key blk : bytes) : bytes :=
  match round_keys key with
  | rk0 :: rks => fit16 (enc_rounds (xor_bytes (fit16 blk) rk0) rks)
  | [] => zeros 16
  end.

(** * inverse cipher (FIPS-197 5.3), round keys taken in reverse order *)
Fixpoint dec_rounds (s : bytes) (rks : list bytes) : bytes :=
  match rks with
  | [] => s
  | rk :: rest =>
    match rest with
    | [] => xor_bytes (inv_sub_bytes (inv_shift_rows s)) rk
    | _ => dec_rounds (inv_mix_columns (xor_bytes (inv_sub_bytes (inv_shift_rows s)) rk)) rest
    end
  end.

Definition aes128_dec (key blk : bytes) : bytes :=
  match rev (round_keys key) with
  | rk10 :: rks => fit16 (dec_rounds (xor_bytes (fit16 blk) rk10) rks)
  | [] => zeros 16
  end.

Lemma fit16_length l : length (fit16 l) = 16%nat.
Proof.
  unfold fit16. rewrite firstn_length, app_length, zeros_length. lia.
Qed.

Lemma fit16_id l : length l = 16%nat -> fit16 l = l.
Proof.
  intros H. unfold fit16. rewrite firstn_app, H, Nat.sub_diag.
  change (firstn 0 (zeros 16)) with (@nil N). rewrite app_nil_r. apply firstn_all2. lia.
Qed.

Lemma aes128_enc_length : forall k b, length (aes128_enc k b) = 16%nat.
Proof.
  intros k b. unfold aes128_enc. destruct (round_keys k); [apply zeros_length|apply fit16_length].
Qed.

Lemma aes128_dec_length : forall k b, length (aes128_dec k b) = 16%nat.
Proof.
  intros k b. unfold aes128_dec. destruct (rev (round_keys k)); [apply zeros_length|apply fit16_length].
Qed.

(** * table facts (finite sweeps over the 256 byte values) *)
Definition all_bytes : list N := map N.of_nat (seq 0 256).

Lemma in_all_bytes x : x < 256 -> In x all_bytes.
Proof.
  intros H. unfold all_bytes. apply in_map_iff. exists (N.to_nat x). split; [lia|].
  apply in_seq. lia.
Qed.

Lemma forallb_all_bytes (p : N -> bool) : forallb p all_bytes = true -> forall x, x < 256 -> p x = true.
Proof. intros A x H. rewrite forallb_forall in A. apply A, in_all_bytes, H. Qed.

Lemma inv_sub_sub_byte x : x < 256 -> inv_sub_byte (sub_byte x) = x.
Proof.
  intros H. apply N.eqb_eq.
  apply (forallb_all_bytes (fun x => inv_sub_byte (sub_byte x) =? x)); [vm_compute; reflexivity|exact H].
Qed.

Lemma sub_inv_sub_byte x : x < 256 -> sub_byte (inv_sub_byte x) = x.
Proof.
  intros H. apply N.eqb_eq.
  apply (forallb_all_bytes (fun x => sub_byte (inv_sub_byte x) =? x)); [vm_compute; reflexivity|exact H].
Qed.

Lemma sub_byte_lt x : sub_byte x < 256.
Proof.
  unfold sub_byte.
  assert (A : forallb (fun y => y <? 256) sbox_table = true) by (vm_compute; reflexivity).
  rewrite forallb_forall in A.
  destruct (Nat.lt_ge_cases (N.to_nat x) (length sbox_table)) as [Hlt|Hge].
  - apply N.ltb_lt. apply A. apply nth_In. exact Hlt.
  - rewrite nth_overflow by exact Hge. lia.
Qed.

(** * FIPS-197 vectors *)
Definition fips197_B_key : bytes :=
  [0x2b;0x7e;0x15;0x16;0x28;0xae;0xd2;0xa6;0xab;0xf7;0x15;0x88;0x09;0xcf;0x4f;0x3c].
Definition fips197_B_pt : bytes :=
  [0x32;0x43;0xf6;0xa8;0x88;0x5a;0x30;0x8d;0x31;0x31;0x98;0xa2;0xe0;0x37;0x07;0x34].
Definition fips197_B_ct : bytes :=
  [0x39;0x25;0x84;0x1d;0x02;0xdc;0x09;0xfb;0xdc;0x11;0x85;0x97;0x19;0x6a;0x0b;0x32].

Definition fips197_C1_key : bytes :=
  [0x00;0x01;0x02;0x03;0x04;0x05;0x06;0x07;0x08;0x09;0x0a;0x0b;0x0c;0x0d;0x0e;0x0f].
Definition fips197_C1_pt : bytes :=
  [0x00;0x11;0x22;0x33;0x44;0x55;0x66;0x77;0x88;0x99;0xaa;0xbb;0xcc;0xdd;0xee;0xff].
Definition fips197_C1_ct : bytes :=
  [0x69;0xc4;0xe0;0xd8;0x6a;0x7b;0x04;0x30;0xd8;0xcd;0xb7;0x80;0x70;0xb4;0xc5;0x5a].

(** last round key of Appendix A.1 *)
Example aes128_key_expansion_A1 :
  nth 10 (round_keys fips197_B_key) [] =
  [0xd0;0x14;0xf9;0xa8;0xc9;0xee;0x25;0x89;0xe1;0x3f;0x0c;0xc8;0xb6;0x63;0x0c;0xa6].
Proof. vm_compute. reflexivity. Qed.

Example aes128_fips197 : aes128_enc fips197_B_key fips197_B_pt = fips197_B_ct.
Proof. vm_compute. reflexivity. Qed.

Example aes128_fips197_dec : aes128_dec fips197_B_key fips197_B_ct = fips197_B_pt.
Proof. vm_compute. reflexivity. Qed.

Example aes128_fips197_C1 : aes128_enc fips197_C1_key fips197_C1_pt = fips197_C1_ct.
Proof. vm_compute. reflexivity. Qed.

Example aes128_fips197_C1_dec : aes128_dec fips197_C1_key fips197_C1_ct = fips197_C1_pt.
Proof. vm_compute. reflexivity. Qed.
