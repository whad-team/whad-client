(** Composition of C01 (framing) and C02 (hub round trip): the receive path end to end.

    C01's theorems hold for ANY [parse]; C02's hold for any schema passing [wf_schema] and
    any protobuf codec with [parse_bytes (serialize m) = canon m].  Here C01's [parse] is
    instantiated with C02's [hub_parse] and the two results are chained: messages built by
    the hub, serialised, framed, separated by marker-free noise and cut into arbitrary
    read() chunks are delivered to put_message exactly once, in order, and each parses back
    to the class it was created with (C01's first sentence, which needs C02 to be true);
    and for ARBITRARY bytes and chunkings the reader never dies (C01's second sentence,
    which needs C02's parse_total). This is also the C04 clause "a message the host cannot
    decode does not prevent later messages from being received". *)
From Coq Require Import List NArith Arith Bool String.
From Whad Require Import Lib.Bytes.
From Whad Require C01.Model C01.Proofs C01.Property C02.Model C02.Proofs C02.Property.
Import ListNotations.
Module F := Whad.C01.Model.
Module H := Whad.C02.Model.

Section EndToEnd.
  Variable S : H.schema.
  Hypothesis Swf : H.wf_schema S = true.
  Variable serialize : H.pb -> list N.
  Variable parse_bytes : list N -> H.decoded.
  Hypothesis codec : forall m, parse_bytes (serialize m) = H.Decoded (H.canon S m).
  Variable v : nat.
  Hypothesis v_ge_1 : 1 <= v.

  (** ProtocolHub.parse as DevOutThread.ingest sees it (a message is identified by its bytes). *)
  Definition hub_parser (p : F.payload) : F.parse_outcome :=
    match H.hub_parse S v (parse_bytes p) with
    | H.Msg _ => F.PMsg p
    | H.NoMsg => F.PNone
    | _ => F.PRaise
    end.

  Lemma hub_parser_total : forall p, hub_parser p <> F.PRaise.
  Proof.
    intros p. unfold hub_parser.
    pose proof (Whad.C02.Property.C02_parse_total_wire S Swf parse_bytes v p) as T.
    destruct (H.hub_parse S v (parse_bytes p)); cbn in T; try contradiction; discriminate.
  Qed.

  (** [m] is a message of class [cid] created by the hub of version [v]. *)
  Definition sendable (cid : string) (m : H.pb) : Prop :=
    exists reg name attrs sel kw,
      H.bound S reg name v = Some cid /\ H.find_class S cid = Some (H.CWrap attrs sel) /\
      NoDup (map fst kw) /\ Whad.C02.Proofs.admissible S attrs kw /\ H.create S cid kw = H.Ok m.

  Lemma sendable_parses cid m :
    sendable cid m -> H.hub_parse S v (parse_bytes (serialize m)) = H.Msg cid.
  Proof.
    intros (reg & name & attrs & sel & kw & Hb & Hf & Hnd & Hadm & Hc).
    destruct (Whad.C02.Property.C02_roundtrip_wire S Swf serialize parse_bytes codec
                v reg name cid attrs sel kw v_ge_1 Hb Hf Hnd Hadm)
      as (m0 & m' & Hc0 & Hp & Hh & _).
    rewrite Hc in Hc0. injection Hc0 as <-. rewrite Hp. exact Hh.
  Qed.

  Definition wire_item (x : bytes * (string * H.pb)) : bytes * F.payload :=
    (fst x, serialize (snd (snd x))).

  Definition sent_ok (x : bytes * (string * H.pb)) : Prop :=
    F.marker_free (fst x) = true /\ sendable (fst (snd x)) (snd (snd x)) /\
    (0 < nlen (serialize (snd (snd x))) < 65536)%N.

  Lemma dispatch_all_messages xs :
    Forall sent_ok xs ->
    F.dispatch hub_parser (map snd (map wire_item xs)) = (map snd (map wire_item xs), false).
  Proof.
    induction 1 as [|x xs (_ & Hs & _) _ IH]; [reflexivity|].
    cbn [map F.dispatch]. unfold wire_item at 1. cbn [snd fst].
    unfold hub_parser at 1. rewrite (sendable_parses _ _ Hs), IH. reflexivity.
  Qed.

  (** Exactly once, in order, under every chunking, whatever marker-free noise lies between
      the frames; and what is delivered is a message of the class that was sent. *)
  Theorem receive_exactly_what_was_sent :
    forall (xs : list (bytes * (string * H.pb))) (gn : bytes) (chunks : list bytes),
      Forall sent_ok xs -> F.marker_free gn = true ->
      List.concat chunks = F.stream (map wire_item xs) gn ->
      F.observe (F.run hub_parser (F.Live []) chunks) = Some (map snd (map wire_item xs), false)
      /\ Forall (fun x => H.hub_parse S v (parse_bytes (snd (wire_item x))) = H.Msg (fst (snd x))) xs.
  Proof.
    intros xs gn chunks Hall Hgn Hcat. split.
    - rewrite (Whad.C01.Property.C01_frames_exactly_once hub_parser (map wire_item xs) gn chunks),
        dispatch_all_messages; [reflexivity|assumption| |assumption|assumption].
      apply Forall_map. revert Hall. apply Forall_impl. intros x (Hm & _ & Hsz). split; assumption.
    - revert Hall. apply Forall_impl. intros x (_ & Hs & _). apply sendable_parses, Hs.
  Qed.

  (** For arbitrary bytes under any chunking the reader thread survives. *)
  Theorem receive_never_dies :
    forall chunks : list bytes, exists buf,
      F.run hub_parser (F.Live []) chunks
      = F.Done (F.delivered_of hub_parser (F.deliver (List.concat chunks))) (F.Live buf).
  Proof. exact (Whad.C01.Property.C01_ingest_total hub_parser hub_parser_total). Qed.
End EndToEnd.
