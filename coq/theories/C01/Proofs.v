(** C01 — lemmas about the framing model.

    The specification [scan] is read one frame at a time through [front]; it is incremental
    ([scanS_app]); one call of the transcribed loops [refines] it, and [refines] is closed
    under feeding further chunks ([refines_more]).  The theorems about framed streams come
    from what [deliver] does on a header followed by enough bytes ([deliver_window]). *)
From Coq Require Import List NArith ZArith Arith Bool Lia ZifyBool ZifyN ZifyNat.
From Whad Require Import Lib.Bytes C01.Model.
Import ListNotations.

Lemma resync_cons2 a b t :
  resync (a :: b :: t) = if is_marker a b then a :: b :: t else resync (b :: t).
Proof.
  change (resync (a :: b :: t))
    with (if negb (N.eqb a 172) || negb (N.eqb b 190) then resync (b :: t) else a :: b :: t).
  unfold is_marker. destruct (N.eqb a 172), (N.eqb b 190); reflexivity.
Qed.

Lemma resync_one a : resync [a] = [a].
Proof. reflexivity. Qed.

Lemma is_marker_true a b : is_marker a b = true -> a = 172%N /\ b = 190%N.
Proof.
  unfold is_marker. intros H. apply andb_true_iff in H as [H1 H2].
  apply N.eqb_eq in H1. apply N.eqb_eq in H2. split; assumption.
Qed.

Lemma resync_length d : length (resync d) <= length d.
Proof.
  induction d as [|a d IH]; [apply le_n|].
  destruct d as [|b t]; [apply le_n|].
  rewrite resync_cons2. destruct (is_marker a b); [apply le_n|].
  cbn [length] in *. lia.
Qed.

Lemma resync_progress d :
  2 <= length d -> is_marker (nth 0 d 0%N) (nth 1 d 0%N) = false -> length (resync d) < length d.
Proof.
  intros L M. destruct d as [|a [|b t]]; try (cbn [length] in L; lia).
  cbn [nth] in M. rewrite resync_cons2, M. pose proof (resync_length (b :: t)). cbn [length] in *. lia.
Qed.

Lemma resync_idem d : resync (resync d) = resync d.
Proof.
  induction d as [|a d IH]; [reflexivity|].
  destruct d as [|b t]; [reflexivity|].
  rewrite resync_cons2. destruct (is_marker a b) eqn:E; [|exact IH].
  rewrite resync_cons2, E. reflexivity.
Qed.

(** The inner loop is incremental: bytes appended later do not change what was
    (or would have been) dropped. *)
Lemma resync_app d c : resync (d ++ c) = resync (resync d ++ c).
Proof.
  induction d as [|a d IH]; [reflexivity|].
  destruct d as [|b t]; [reflexivity|].
  cbn [app]. rewrite (resync_cons2 a b t), (resync_cons2 a b (t ++ c)).
  destruct (is_marker a b) eqn:E.
  - cbn [app]. rewrite resync_cons2, E. reflexivity.
  - exact IH.
Qed.

Lemma resync_shape d : length (resync d) < 2 \/ exists t, resync d = 172%N :: 190%N :: t.
Proof.
  induction d as [|a d IH]; [left; cbn; lia|].
  destruct d as [|b t]; [left; cbn; lia|].
  rewrite resync_cons2. destruct (is_marker a b) eqn:E; [right|exact IH].
  apply is_marker_true in E as [-> ->]. eexists; reflexivity.
Qed.

(** The complete frame at the front of [s], if there is one: its payload and what follows. *)
Definition front (s : bytes) : option (payload * bytes) :=
  match resync s with
  | a :: b :: lo :: hi :: body =>
      let n := N.to_nat (lo + 256 * hi)%N in
      if is_marker a b && (lo + 256 * hi <=? nlen body)%N && negb (length body =? 0)
      then Some (firstn n body, skipn n body) else None
  | _ => None
  end.

Lemma scan_S f s :
  scan (S f) s = match front s with
                 | Some (p, rest) => let '(ps, r) := scan f rest in (p :: ps, r)
                 | None => ([], resync s)
                 end.
Proof.
  unfold front. cbn [scan].
  destruct (resync s) as [|a [|b [|lo [|hi body]]]]; try reflexivity.
  destruct (is_marker a b && (lo + 256 * hi <=? nlen body)%N && negb (length body =? 0));
    reflexivity.
Qed.

Lemma front_Some s p rest :
  front s = Some (p, rest) <->
  exists lo hi body,
    resync s = 172%N :: 190%N :: lo :: hi :: body
    /\ N.to_nat (lo + 256 * hi) <= length body /\ body <> []
    /\ p = firstn (N.to_nat (lo + 256 * hi)) body /\ rest = skipn (N.to_nat (lo + 256 * hi)) body.
Proof.
  unfold front. split.
  - destruct (resync s) as [|a [|b [|lo [|hi body]]]]; try discriminate. cbv zeta.
    destruct (is_marker a b) eqn:M; [|discriminate]. apply is_marker_true in M as [-> ->].
    destruct (lo + 256 * hi <=? nlen body)%N eqn:L; [|discriminate].
    destruct body as [|x body]; [discriminate|]. intros [= <- <-].
    exists lo, hi, (x :: body). unfold nlen in L. repeat split; [lia|discriminate].
  - intros (lo & hi & body & -> & L & B & -> & ->). cbv zeta.
    destruct body as [|x body]; [congruence|].
    replace (lo + 256 * hi <=? nlen (x :: body))%N with true by (unfold nlen; lia).
    reflexivity.
Qed.

Lemma front_rest_shorter s p rest : front s = Some (p, rest) -> length rest < length s.
Proof.
  intros F. apply front_Some in F as (lo & hi & body & R & _ & _ & _ & ->).
  pose proof (resync_length s) as L. rewrite R in L.
  rewrite skipn_length. cbn [length] in L. lia.
Qed.

Lemma front_short s : length s <= 4 -> front s = None.
Proof.
  intros H. destruct (front s) as [[p rest]|] eqn:F; [|reflexivity].
  apply front_Some in F as (lo & hi & body & R & _ & B & _).
  pose proof (resync_length s) as L. rewrite R in L.
  destruct body; [congruence|cbn [length] in L; lia].
Qed.

Lemma front_app s c p rest : front s = Some (p, rest) -> front (s ++ c) = Some (p, rest ++ c).
Proof.
  intros F. apply front_Some in F as (lo & hi & body & R & L & B & -> & ->).
  apply front_Some. exists lo, hi, (body ++ c).
  rewrite resync_app, R, app_length, firstn_app, skipn_app.
  replace (N.to_nat (lo + 256 * hi) - length body) with 0 by lia.
  cbn [firstn skipn]. rewrite app_nil_r.
  repeat split; [lia|]. destruct body; [congruence|discriminate].
Qed.

Lemma scan_fuel f1 : forall f2 s, length s < f1 -> length s < f2 -> scan f1 s = scan f2 s.
Proof.
  induction f1 as [|f1 IH]; intros [|f2] s H1 H2; try lia.
  rewrite !scan_S. destruct (front s) as [[p rest]|] eqn:F; [|reflexivity].
  apply front_rest_shorter in F. rewrite (IH f2 rest) by lia. reflexivity.
Qed.

Lemma scanS_front s :
  scanS s = match front s with
            | Some (p, rest) => let '(ps, r) := scanS rest in (p :: ps, r)
            | None => ([], resync s)
            end.
Proof.
  unfold scanS at 1. rewrite scan_S. destruct (front s) as [[p rest]|] eqn:F; [|reflexivity].
  apply front_rest_shorter in F. unfold scanS.
  rewrite (scan_fuel (length s) (S (length rest))) by lia. reflexivity.
Qed.

Lemma deliver_front s :
  deliver s = match front s with Some (p, rest) => p :: deliver rest | None => [] end.
Proof.
  unfold deliver. rewrite scanS_front.
  destruct (front s) as [[p rest]|]; [destruct (scanS rest)|]; reflexivity.
Qed.

Lemma scanS_same_resync s1 s2 : resync s1 = resync s2 -> scanS s1 = scanS s2.
Proof.
  intros H. rewrite (scanS_front s1), (scanS_front s2). unfold front. rewrite H. reflexivity.
Qed.

Lemma scanS_resync s : scanS (resync s) = scanS s.
Proof. apply scanS_same_resync, resync_idem. Qed.

Lemma deliver_resync s : deliver (resync s) = deliver s.
Proof. unfold deliver. rewrite scanS_resync. reflexivity. Qed.

Lemma deliver_short d : length d <= 4 -> deliver d = [].
Proof. intros H. rewrite deliver_front, front_short by exact H. reflexivity. Qed.

(** ** The specification is incremental (the heart of chunking invariance) *)
Lemma scanS_app s : forall c,
  scanS (s ++ c) = let '(o, r) := scanS s in let '(o', r') := scanS (r ++ c) in (o ++ o', r').
Proof.
  remember (length s) as n eqn:Hn. revert s Hn.
  induction n as [n IH] using lt_wf_ind. intros s -> c.
  rewrite (scanS_front s). destruct (front s) as [[p rest]|] eqn:F.
  - rewrite scanS_front, (front_app _ c _ _ F), (IH _ (front_rest_shorter _ _ _ F) rest eq_refl).
    destruct (scanS rest) as [ps r]. destruct (scanS (r ++ c)). reflexivity.
  - rewrite (scanS_same_resync _ _ (resync_app s c)).
    destruct (scanS (resync s ++ c)). reflexivity.
Qed.

Lemma deliver_app s c : deliver (s ++ c) = deliver s ++ deliver (pending s ++ c).
Proof.
  unfold deliver, pending. rewrite scanS_app.
  destruct (scanS s) as [o r]. cbn [fst snd]. destruct (scanS (r ++ c)). reflexivity.
Qed.

Lemma pending_app s c : pending (s ++ c) = pending (pending s ++ c).
Proof.
  unfold pending. rewrite scanS_app.
  destruct (scanS s) as [o r]. cbn [snd]. destruct (scanS (r ++ c)). reflexivity.
Qed.

Lemma scanS_pending_fix s : scanS (pending s) = ([], pending s).
Proof.
  pose proof (scanS_app s []) as H. rewrite app_nil_r in H. unfold pending.
  destruct (scanS s) as [o r]. cbn [snd]. rewrite app_nil_r in H.
  destruct (scanS r) as [o' r']. injection H as Ho <-.
  rewrite <- (app_nil_r o) in Ho at 1. apply app_inv_head in Ho as <-. reflexivity.
Qed.

(** ** The transcribed loops refine the specification *)

Lemma front_at_marker d :
  is_marker (nth 0 d 0%N) (nth 1 d 0%N) = true -> 4 < length d ->
  front d = let m := un_le16 (skipn 2 d) in
            if (m + 4 <=? nlen d)%N
            then Some (slice 4 (4 + N.to_nat m) d, skipn (N.to_nat m + 4) d) else None.
Proof.
  intros M L. destruct d as [|a [|b [|lo [|hi [|x body]]]]]; try (cbn [length] in L; lia).
  cbn [nth] in M. unfold front. rewrite resync_cons2, M. cbv beta iota zeta. rewrite M.
  cbn [skipn un_le16 length Nat.eqb negb andb]. rewrite andb_true_r.
  set (n := N.to_nat (lo + 256 * hi)). unfold nlen, slice.
  replace (4 + n - 4) with n by lia. replace (n + 4) with (S (S (S (S n)))) by lia. cbn [skipn].
  replace (_ + 4 <=? _)%N with (lo + 256 * hi <=? N.of_nat (S (length body)))%N
    by (cbn [length]; lia).
  reflexivity.
Qed.

Section WithParse.
  Variable parse : payload -> parse_outcome.

  Lemma dispatch_app a b :
    dispatch parse (a ++ b)
    = let '(o1, dead) := dispatch parse a in
      if dead then (o1, true)
      else let '(o2, dead2) := dispatch parse b in (o1 ++ o2, dead2).
  Proof.
    induction a as [|p a IH]; cbn [app dispatch].
    - destruct (dispatch parse b); reflexivity.
    - destruct (parse p); [|exact IH|reflexivity].
      rewrite IH. destruct (dispatch parse a) as [o1 [|]]; [reflexivity|].
      destruct (dispatch parse b); reflexivity.
  Qed.

  Lemma dispatch_no_raise : (forall p, parse p <> PRaise) ->
    forall ps, dispatch parse ps = (delivered_of parse ps, false).
  Proof.
    intros NR ps. induction ps as [|p ps IH]; [reflexivity|].
    cbn [dispatch delivered_of flat_map]. fold (delivered_of parse ps).
    destruct (parse p) eqn:P; [rewrite IH; reflexivity|exact IH|destruct (NR p P)].
  Qed.

  (** [r] is what the loops may return once the bytes [d] have gone through them: the
      deliveries of the specification on [d]; and, while the thread lives, a buffer that holds
      nothing complete and scans to the residue of [d].  The buffer need not BE that residue:
      the outer loop stops at two bytes without running the inner one, so after 05 06 07 then
      08 it is 07 08 where a single chunk leaves 08. *)
  Definition refines (d : bytes) (r : loop_result) : Prop :=
    match r with
    | OutOfFuel => False
    | Done o Dead => dispatch parse (deliver d) = (o, true)
    | Done o (Live b') => dispatch parse (deliver d) = (o, false) /\ scanS b' = ([], pending d)
    end.

  Lemma refines_observe d r : refines d r -> observe r = Some (dispatch parse (deliver d)).
  Proof.
    destruct r as [o [b'|]|]; cbn [refines observe]; [intros [-> _]|intros ->|intros []];
      reflexivity.
  Qed.

  Lemma refines_quiet d : deliver d = [] -> refines d (Done [] (Live d)).
  Proof.
    intros H. cbn [refines]. rewrite H. split; [reflexivity|].
    unfold deliver, pending in *. destruct (scanS d) as [o r]. cbn [fst snd] in *. subst. reflexivity.
  Qed.

  Lemma refines_resync d r : refines (resync d) r -> refines d r.
  Proof. unfold refines, deliver, pending. rewrite scanS_resync. exact (fun x => x). Qed.

  Lemma refines_frame d p rest r :
    front d = Some (p, rest) -> refines rest r ->
    refines d match parse p with
              | PRaise => Done [] Dead
              | PNone => r
              | PMsg m => match r with Done o st => Done (m :: o) st | OutOfFuel => OutOfFuel end
              end.
  Proof.
    intros F. unfold refines, deliver, pending. rewrite (scanS_front d), F.
    destruct (scanS rest) as [ps q]. cbn [fst snd dispatch].
    destruct (parse p) as [m| |]; [|exact (fun x => x)|reflexivity].
    destruct r as [o [b'|]|]; [intros [-> R]; split; [reflexivity|exact R]|intros ->; reflexivity|].
    exact (fun x => x).
  Qed.

  Lemma ingest_loop_refines fuel : forall d, length d < fuel -> refines d (ingest_loop parse fuel d).
  Proof.
    induction fuel as [|fuel IH]; intros d H; [lia|].
    cbn [ingest_loop].
    change (N.eqb (nth 0 d 0%N) 172 && N.eqb (nth 1 d 0%N) 190) with (is_marker (nth 0 d 0%N) (nth 1 d 0%N)).
    destruct (2 <? length d) eqn:L2; [|apply refines_quiet, deliver_short; lia].
    destruct (is_marker _ _) eqn:M.
    2: { apply refines_resync, IH. pose proof (resync_progress d ltac:(lia) M). lia. }
    destruct (4 <? length d) eqn:L4; [|apply refines_quiet, deliver_short; lia].
    pose proof (front_at_marker d M ltac:(lia)) as F. cbv zeta in F |- *.
    destruct (_ + 4 <=? nlen d)%N; [|apply refines_quiet; rewrite deliver_front, F; reflexivity].
    apply (refines_frame _ _ _ _ F), IH. apply front_rest_shorter in F. lia.
  Qed.

  Lemma ingest_fuel_enough st chunk : ingest parse st chunk <> OutOfFuel.
  Proof.
    destruct st as [buf|]; cbn [ingest]; [|discriminate].
    pose proof (ingest_loop_refines _ (buf ++ chunk) (Nat.lt_succ_diag_r _)) as R.
    intros E. rewrite E in R. exact R.
  Qed.

  Lemma refines_more d o b' c r :
    refines d (Done o (Live b')) -> refines (b' ++ c) r ->
    refines (d ++ c) match r with Done o2 st => Done (o ++ o2) st | OutOfFuel => OutOfFuel end.
  Proof.
    unfold refines, deliver, pending. intros [D Q].
    rewrite (scanS_app d c), (scanS_app b' c), Q.
    destruct (scanS d) as [ps q]. cbn [fst snd] in *.
    destruct (scanS (q ++ c)) as [ps' q']. cbn [fst snd app].
    rewrite dispatch_app, D.
    destruct r as [o2 [b2|]|]; [intros [-> R]; split; [reflexivity|exact R]|intros ->; reflexivity|].
    exact (fun x => x).
  Qed.

  Lemma refines_dead d o c : refines d (Done o Dead) -> refines (d ++ c) (Done o Dead).
  Proof. cbn [refines]. intros D. rewrite deliver_app, dispatch_app, D. reflexivity. Qed.

  Lemma run_dead chunks : run parse Dead chunks = Done [] Dead.
  Proof. induction chunks as [|c cs IH]; [reflexivity|]. cbn [run ingest]. rewrite IH. reflexivity. Qed.

  Lemma run_refines chunks : forall buf, deliver buf = [] ->
    refines (buf ++ concat chunks) (run parse (Live buf) chunks).
  Proof.
    induction chunks as [|c cs IH]; intros buf Q; cbn [run ingest concat].
    - rewrite app_nil_r. apply refines_quiet, Q.
    - rewrite app_assoc.
      pose proof (ingest_loop_refines _ (buf ++ c) (Nat.lt_succ_diag_r _)) as R.
      destruct (ingest_loop parse _ (buf ++ c)) as [o [b'|]|]; [| |destruct R].
      + apply (refines_more _ _ _ _ _ R), IH.
        destruct R as [_ R]. unfold deliver. rewrite R. reflexivity.
      + rewrite run_dead, app_nil_r. apply refines_dead, R.
  Qed.

  Theorem ingest_refines_deliver chunks :
    observe (run parse (Live []) chunks) = Some (dispatch parse (deliver (concat chunks))).
  Proof. exact (refines_observe _ _ (run_refines chunks [] eq_refl)). Qed.

  Lemma run_same_concat chunks1 chunks2 : concat chunks1 = concat chunks2 ->
    observe (run parse (Live []) chunks1) = observe (run parse (Live []) chunks2).
  Proof. intros E. rewrite !ingest_refines_deliver, E. reflexivity. Qed.

  Lemma concat_nonempty (l : list bytes) :
    concat (filter (fun b => negb (length b =? 0)) l) = concat l.
  Proof.
    induction l as [|b l IH]; [reflexivity|].
    cbn [filter concat]. destruct b as [|x b]; cbn [length Nat.eqb negb]; [exact IH|].
    cbn [concat]. rewrite IH. reflexivity.
  Qed.

  Lemma run_same_nonempty chunks1 chunks2 :
    filter (fun b => negb (length b =? 0)) chunks1 = filter (fun b => negb (length b =? 0)) chunks2 ->
    observe (run parse (Live []) chunks1) = observe (run parse (Live []) chunks2).
  Proof.
    intros E. apply run_same_concat. rewrite <- (concat_nonempty chunks1), E. apply concat_nonempty.
  Qed.

  Theorem run_fuel_enough chunks : run parse (Live []) chunks <> OutOfFuel.
  Proof.
    pose proof (ingest_refines_deliver chunks) as H. intros E. rewrite E in H. discriminate.
  Qed.

  Theorem ingest_total : (forall p, parse p <> PRaise) ->
    forall chunks, exists buf,
      run parse (Live []) chunks = Done (delivered_of parse (deliver (concat chunks))) (Live buf).
  Proof.
    intros NR chunks. pose proof (ingest_refines_deliver chunks) as H.
    rewrite (dispatch_no_raise NR) in H.
    destruct (run parse (Live []) chunks) as [o [buf|]|]; cbn [observe] in H; try discriminate.
    injection H as ->. exists buf. reflexivity.
  Qed.

  (** DevOutThread.run over schedules with empty reads: a [None] read is skipped. *)
  Lemma run_loop_run reads : forall st,
    run_loop parse st reads = run parse st (chunks_of reads).
  Proof.
    induction reads as [|r rs IH]; intros st; [reflexivity|].
    destruct st as [buf|].
    2: { cbn [run_loop]. symmetry. apply run_dead. }
    destruct r as [b|].
    - change (chunks_of (Some b :: rs)) with (b :: chunks_of rs).
      cbn [run_loop run_step run].
      destruct (ingest parse (Live buf) b) as [o1 st1|]; [|reflexivity].
      rewrite IH. reflexivity.
    - change (chunks_of (None :: rs)) with (chunks_of rs).
      cbn [run_loop run_step]. rewrite IH.
      destruct (run parse (Live buf) (chunks_of rs)); reflexivity.
  Qed.
End WithParse.

Lemma resync_gap_end g : marker_free g = true -> length (resync g) <= 1.
Proof.
  induction g as [|a g IH]; intros H; [cbn; lia|].
  destruct g as [|b g']; [cbn; lia|].
  cbn [marker_free] in H. apply andb_true_iff in H as [H1 H2].
  rewrite resync_cons2. destruct (is_marker a b); [discriminate|]. exact (IH H2).
Qed.

Lemma resync_gap g t : marker_free g = true ->
  resync (g ++ 172%N :: 190%N :: t) = 172%N :: 190%N :: t.
Proof.
  intros H. apply resync_gap_end in H. rewrite resync_app.
  destruct (resync g) as [|x [|y r]]; [reflexivity| |cbn [length] in H; lia].
  (* at most a trailing AC is left of the gap *)
  cbn [app]. rewrite resync_cons2. unfold is_marker. rewrite andb_false_r. reflexivity.
Qed.

Lemma deliver_gap_end g : marker_free g = true -> deliver g = [].
Proof.
  intros H. apply resync_gap_end in H. rewrite <- deliver_resync. apply deliver_short. lia.
Qed.

Lemma le16_header (n : N) : (n < 65536)%N -> (n mod 256 + 256 * ((n / 256) mod 256))%N = n.
Proof. intros H. lia. Qed.

(** A marker followed by a 16-bit value [n] and at least [n] bytes: those [n] bytes are
    taken as one payload whatever they are, and reception continues after them. *)
Lemma deliver_window lo hi w rest :
  length w = N.to_nat (lo + 256 * hi) -> (w <> [] \/ rest <> []) ->
  deliver ([172; 190; lo; hi]%N ++ w ++ rest) = w :: deliver rest.
Proof.
  intros Hw Hne. rewrite deliver_front.
  replace (front _) with (Some (w, rest)); [reflexivity|].
  symmetry. apply front_Some. exists lo, hi, (w ++ rest).
  rewrite <- Hw, firstn_app, skipn_app, Nat.sub_diag, firstn_all, skipn_all, app_length.
  cbn [firstn skipn app]. rewrite app_nil_r.
  repeat split; [lia|]. intros E. apply app_eq_nil in E. destruct Hne; tauto.
Qed.

Lemma deliver_gap_frame g p rest :
  marker_free g = true -> (nlen p < 65536)%N -> (p <> [] \/ rest <> []) ->
  deliver (g ++ frame p ++ rest) = p :: deliver rest.
Proof.
  intros Hg Hp Hne. rewrite <- deliver_resync. unfold frame. cbn [app].
  rewrite resync_gap by exact Hg. apply (deliver_window _ _ p rest); [|exact Hne].
  rewrite le16_header by exact Hp. unfold nlen. rewrite Nat2N.id. reflexivity.
Qed.

Lemma stream_app a b t : stream (a ++ b) t = stream a (stream b t).
Proof.
  induction a as [|[g p] a IH]; [reflexivity|]. cbn [app stream]. rewrite IH. reflexivity.
Qed.

Lemma stream_nil items t : stream items t = [] -> items = [] /\ t = [].
Proof.
  destruct items as [|[g p] r]; [split; [reflexivity|assumption]|].
  cbn [stream]. intros E. apply app_eq_nil in E as [_ E]. discriminate E.
Qed.

Lemma wf_item_inv it : wf_item it -> wf_item0 it /\ snd it <> [].
Proof.
  intros [H1 H2]. split; [split; [exact H1|lia]|].
  intros E. rewrite E in H2. cbn in H2. lia.
Qed.

(** Frames with possibly empty payloads followed by anything: an empty payload is
    recognised as long as something follows it. *)
Lemma deliver_stream items t :
  Forall wf_item0 items -> (t <> [] \/ Forall (fun it => snd it <> []) items) ->
  deliver (stream items t) = map snd items ++ deliver t.
Proof.
  induction 1 as [|[g p] items [Wg Wp] W IH]; intros Hne; [reflexivity|].
  cbn [fst snd] in *. cbn [stream map snd app].
  rewrite deliver_gap_frame, IH; [reflexivity| |exact Wg|exact Wp|].
  - destruct Hne as [Ht|Hp]; [left; exact Ht|right; exact (Forall_inv_tail Hp)].
  - destruct Hne as [Ht|Hp]; [right|left; exact (Forall_inv Hp)].
    intros E. apply stream_nil in E. tauto.
Qed.

Theorem deliver_frames items gn :
  Forall wf_item items -> marker_free gn = true -> deliver (stream items gn) = map snd items.
Proof.
  intros W Hgn. rewrite deliver_stream, (deliver_gap_end gn Hgn); [apply app_nil_r| |right].
  - exact (Forall_impl _ (fun it H => proj1 (wf_item_inv it H)) W).
  - exact (Forall_impl _ (fun it H => proj2 (wf_item_inv it H)) W).
Qed.

Theorem deliver_skip_undecodable items g p gn :
  Forall wf_item0 items -> wf_item (g, p) -> marker_free gn = true ->
  deliver (stream (items ++ [(g, p)]) gn) = map snd items ++ [p].
Proof.
  intros W Wl Hgn. apply wf_item_inv in Wl as [[Wg Wp] Wne]. cbn [fst snd] in *.
  rewrite stream_app, deliver_stream; [|exact W|left; intros E; apply stream_nil in E as [E _]; discriminate E].
  cbn [stream]. rewrite deliver_gap_frame, (deliver_gap_end gn Hgn) by (assumption || (left; exact Wne)).
  reflexivity.
Qed.

Theorem truncated_refuted :
  exists p k good, (0 < nlen p < 65536)%N /\ (0 < nlen good < 65536)%N /\ k < length (frame p)
    /\ deliver (firstn k (frame p) ++ frame good) <> [good].
Proof.
  exists [18; 2; 10; 0]%N, 5, [18; 2; 10; 0]%N.
  split; [vm_compute; split; reflexivity|]. split; [vm_compute; split; reflexivity|].
  split; [vm_compute; lia|]. vm_compute. discriminate.
Qed.

(** The header of [frame p] got through, so the [length p] bytes after it are the payload:
    what arrived of [p] followed by the bytes [sw] that stand where the rest should be. *)
Theorem truncated_partial p k sw items gn :
  (0 < nlen p < 65536)%N -> 4 <= k -> k <= length (frame p) ->
  length sw + (k - 4) = length p ->
  Forall wf_item items -> marker_free gn = true ->
  deliver (firstn k (frame p) ++ sw ++ stream items gn) = (firstn (k - 4) p ++ sw) :: map snd items.
Proof.
  intros Hp Hk1 Hk2 Hsw W Hgn.
  replace k with (S (S (S (S (k - 4))))) at 1 by lia.
  unfold frame in *. cbn [app firstn length] in *.
  rewrite <- (deliver_frames items gn W Hgn), app_assoc.
  apply (deliver_window _ _ (firstn (k - 4) p ++ sw)).
  - rewrite le16_header by lia. unfold nlen. rewrite Nat2N.id, app_length, firstn_length. lia.
  - left. intros E. apply (f_equal (@length N)) in E. rewrite app_length, firstn_length in E.
    unfold nlen in Hp. cbn [length] in E. lia.
Qed.
