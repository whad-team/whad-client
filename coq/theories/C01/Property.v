(** C01 — the theorems of the property, each a lemma of Proofs.v or a few lines from one.
    [parse] (ProtocolHub.parse) is universally quantified in every theorem: they hold
    for whatever the real parser does on each payload (message / None / raise). *)
From Coq Require Import List NArith Arith.
From Whad Require Import Lib.Bytes C01.Model C01.Proofs.
From Whad Require Lib.PyOps.
Import ListNotations.

(** The fuel the model gives to the transcribed loops is never exhausted. *)
Theorem C01_ingest_fuel_enough :
  forall parse st chunk, ingest parse st chunk <> OutOfFuel.
Proof. exact ingest_fuel_enough. Qed.

(** (1) Chunking invariance, for every byte stream and EVERY partition into read()
    chunks: what the two nested loops hand to put_message over the chunks (and whether
    an exception escapes) is what the declarative wire-format specification yields on
    the concatenation ... *)
Theorem C01_ingest_refines_deliver :
  forall parse (chunks : list bytes),
    observe (run parse (Live []) chunks) = Some (dispatch parse (deliver (concat chunks))).
Proof. exact ingest_refines_deliver. Qed.

(** ... hence the same as when the transport delivers everything in a single chunk. *)
Theorem C01_chunking_invariant :
  forall parse (chunks : list bytes),
    observe (run parse (Live []) chunks) = observe (run parse (Live []) [concat chunks]).
Proof.
  intros parse chunks. apply run_same_concat. cbn [concat]. rewrite app_nil_r. reflexivity.
Qed.

(** DevOutThread.run over schedules of read() results that include empty reads — None (the
    select() timeout of the uart/tcp/unix transports) and b'' — at arbitrary positions
    (between frames, inside headers, inside payloads): what is delivered is the specification
    on the bytes carried, ... *)
Theorem C01_run_loop_refines_deliver :
  forall parse (reads : list (option bytes)),
    observe (run_loop parse (Live []) reads)
    = Some (dispatch parse (deliver (concat (chunks_of reads)))).
Proof. intros parse reads. rewrite run_loop_run. apply ingest_refines_deliver. Qed.

(** ... so an empty read is a no-op: inserting or removing None / b'' reads anywhere changes
    nothing, and a schedule with empty reads behaves like the chunk list without them. *)
Theorem C01_empty_reads_noop :
  forall parse (reads1 reads2 : list (option bytes)),
    nonempty_data reads1 = nonempty_data reads2 ->
    observe (run_loop parse (Live []) reads1) = observe (run_loop parse (Live []) reads2).
Proof. intros parse reads1 reads2 H. rewrite !run_loop_run. apply run_same_nonempty, H. Qed.

Theorem C01_run_loop_insert_empties :
  forall parse (chunks : list bytes) (reads : list (option bytes)),
    nonempty_data reads = filter (fun b => negb (length b =? 0)) chunks ->
    observe (run_loop parse (Live []) reads) = observe (run parse (Live []) chunks).
Proof. intros parse chunks reads H. rewrite run_loop_run. apply run_same_nonempty, H. Qed.

(** (2) Self-resynchronisation: frames (0 < payload < 65536 bytes) separated by gaps
    that contain no adjacent AC BE (a gap may end in AC or start with BE) are each
    recognised exactly once, in order, with their payload intact. *)
Theorem C01_deliver_frames :
  forall (items : list (bytes * payload)) (gn : bytes),
    Forall wf_item items -> marker_free gn = true ->
    deliver (stream items gn) = map snd items.
Proof. exact deliver_frames. Qed.

(** (1)+(2): under every chunking of such a stream the reader thread hands to
    put_message exactly the parsed payloads, in order. *)
Theorem C01_frames_exactly_once :
  forall parse items gn (chunks : list bytes),
    Forall wf_item items -> marker_free gn = true -> concat chunks = stream items gn ->
    observe (run parse (Live []) chunks) = Some (dispatch parse (map snd items)).
Proof.
  intros parse items gn chunks W Hgn E.
  rewrite ingest_refines_deliver, E, deliver_frames by assumption. reflexivity.
Qed.

(** (3) Totality: if parse never raises (C02; repaired by commit 808478d), then for
    ARBITRARY bytes under any chunking the reader thread stays alive and has delivered
    exactly the messages of the payloads the specification finds. *)
Theorem C01_ingest_total :
  forall parse, (forall p, parse p <> PRaise) ->
    forall chunks : list bytes, exists buf,
      run parse (Live []) chunks = Done (delivered_of parse (deliver (concat chunks))) (Live buf).
Proof. exact ingest_total. Qed.

(** Empty payloads are allowed in the stream (a zero-length frame is consumed as soon as
    one more byte follows); payloads parse maps to None deliver nothing and every other
    frame is still delivered. *)
Theorem C01_deliver_skip_undecodable :
  forall items g p gn,
    Forall wf_item0 items -> wf_item (g, p) -> marker_free gn = true ->
    deliver (stream (items ++ [(g, p)]) gn) = map snd items ++ [p].
Proof. exact deliver_skip_undecodable. Qed.

Theorem C01_ingest_skip_undecodable :
  forall parse, (forall p, parse p <> PRaise) ->
    forall items g p gn (chunks : list bytes),
      Forall wf_item0 items -> wf_item (g, p) -> marker_free gn = true ->
      concat chunks = stream (items ++ [(g, p)]) gn ->
      exists buf, run parse (Live []) chunks
                  = Done (delivered_of parse (map snd items ++ [p])) (Live buf).
Proof.
  intros parse NR items g p gn chunks W Wl Hgn E.
  destruct (ingest_total parse NR chunks) as [buf H]. exists buf.
  rewrite H, E, deliver_skip_undecodable by assumption. reflexivity.
Qed.

(** The [len(data) > 4] test: a zero-length frame alone stays in the buffer; it is
    consumed (empty payload) as soon as any further byte arrives. No message is lost. *)
Theorem C01_empty_frame_quirk :
  deliver (frame []) = [] /\ pending (frame []) = frame []
  /\ forall x rest, deliver (frame [] ++ x :: rest) = [] :: deliver (x :: rest).
Proof.
  split; [reflexivity|]. split; [reflexivity|]. intros x rest.
  apply (deliver_gap_frame [] [] (x :: rest)); [reflexivity|reflexivity|right; discriminate].
Qed.

(** (4) FULL STATEMENT of the truncated-frame clause: a truncated frame never causes the
    following well-formed frame to be lost.  Refuted by the wire format itself
    (KNOWN-FINDING truncated-frame-swallows-following-bytes). *)
Definition C01_truncated_statement : Prop :=
  forall p k good, (0 < nlen p < 65536)%N -> (0 < nlen good < 65536)%N ->
    k < length (frame p) -> deliver (firstn k (frame p) ++ frame good) = [good].

Theorem C01_truncated_refuted :
  exists p k good, (0 < nlen p < 65536)%N /\ (0 < nlen good < 65536)%N /\ k < length (frame p)
    /\ deliver (firstn k (frame p) ++ frame good) <> [good].
Proof. exact truncated_refuted. Qed.

Theorem C01_truncated_statement_false : ~ C01_truncated_statement.
Proof.
  intros H. destruct truncated_refuted as (p & k & good & Hp & Hg & Hk & Hd).
  exact (Hd (H p k good Hp Hg Hk)).
Qed.

(** The part that holds: a frame cut after k >= 4 bytes swallows exactly the missing
    [length p - (k-4)] bytes [sw] that follow (they are handed to parse together with
    the received part as one payload), after which reception continues: every frame
    lying wholly after the swallowed window and after a marker-free gap is delivered —
    under any chunking. *)
Theorem C01_truncated_partial :
  forall p k sw items gn,
    (0 < nlen p < 65536)%N -> 4 <= k -> k <= length (frame p) ->
    length sw + (k - 4) = length p ->
    Forall wf_item items -> marker_free gn = true ->
    deliver (firstn k (frame p) ++ sw ++ stream items gn) = (firstn (k - 4) p ++ sw) :: map snd items.
Proof. exact truncated_partial. Qed.

Theorem C01_truncated_partial_ingest :
  forall parse p k sw items gn (chunks : list bytes),
    (0 < nlen p < 65536)%N -> 4 <= k -> k <= length (frame p) ->
    length sw + (k - 4) = length p ->
    Forall wf_item items -> marker_free gn = true ->
    concat chunks = firstn k (frame p) ++ sw ++ stream items gn ->
    observe (run parse (Live []) chunks)
    = Some (dispatch parse ((firstn (k - 4) p ++ sw) :: map snd items)).
Proof.
  intros parse p k sw items gn chunks Hp Hk1 Hk2 Hsw W Hgn E.
  rewrite ingest_refines_deliver, E, truncated_partial by assumption. reflexivity.
Qed.

(** The arithmetic in the model is the bit arithmetic of the code
    ([len & 0xff], [(len >> 8) & 0xff], [data[2] | (data[3] << 8)]). *)
Theorem C01_header_bitops :
  forall n : N, N.land n 255 = (n mod 256)%N /\ N.land (N.shiftr n 8) 255 = ((n / 256) mod 256)%N.
Proof. intros n. rewrite !PyOps.py_land_255, PyOps.py_shiftr_8. split; reflexivity. Qed.

Theorem C01_size_bitops :
  forall lo hi : N, (lo < 256)%N -> N.lor lo (N.shiftl hi 8) = (lo + 256 * hi)%N.
Proof. exact PyOps.py_lor_shiftl_8. Qed.

(** Non-vacuity: a concrete stream (noise ending in AC, a frame, a zero-length frame, a
    lone BE, a frame) meets the hypotheses and is delivered under 1-byte chunking. *)
Example C01_nonvacuous :
  let parse := fun p : payload => match p with [] => PNone | _ => PMsg p end in
  let items := [([1; 2; 172]%N, [18; 2; 10; 0]%N); ([], []); ([190]%N, [5]%N)] in
  Forall wf_item0 items /\ marker_free [172%N] = true
  /\ run parse (Live []) (map (fun b => [b]) (stream items [172%N]))
     = Done [[18; 2; 10; 0]%N; [5]%N] (Live [172%N]).
Proof.
  cbv zeta. split; [|split; vm_compute; reflexivity].
  repeat constructor; vm_compute; reflexivity.
Qed.
