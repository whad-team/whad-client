(** C09 — lemmas about the model of the GATT client procedures and server handlers. *)
From Coq Require Import List NArith ZArith Arith Bool Lia ZifyBool ZifyN ZifyNat.
From Whad Require Import Lib.Lists Lib.Bytes C09.Model.
Import ListNotations.

Lemma slice_end (a b : nat) (l : bytes) : length l <= a -> slice a b l = [].
Proof. intros H. unfold slice. rewrite skipn_all2 by lia. apply firstn_nil. Qed.

Lemma firstn_firstn_length {A} n (l : list A) : firstn (length (firstn n l)) l = firstn n l.
Proof.
  rewrite firstn_length. destruct (Nat.min_spec n (length l)) as [[_ ->]|[H ->]]; [reflexivity|].
  now rewrite firstn_all, firstn_all2.
Qed.

Lemma firstn_slice (v : bytes) off cs :
  firstn off v ++ slice off (off + cs) v = firstn (off + length (slice off (off + cs) v)) v.
Proof.
  unfold slice. replace (off + cs - off) with cs by lia.
  now rewrite firstn_add, firstn_firstn_length.
Qed.

(** a value written over an old one from offset 0, as the server's [splice] does it *)
Lemma overwrite_length (v old : bytes) :
  length (v ++ skipn (length v) old) = Nat.max (length v) (length old).
Proof. rewrite app_length, skipn_length. lia. Qed.

Lemma tail_nil (v old : bytes) : length old <= length v -> v ++ skipn (length v) old = v.
Proof. intros H. rewrite skipn_all2 by lia. apply app_nil_r. Qed.

Lemma lookup_update d h a h' :
  lookup (update d h a) h'
  = if (h =? h')%N then option_map (fun _ => a) (lookup d h) else lookup d h'.
Proof.
  induction d as [|[k x] d IH]; cbn [lookup update option_map]; [now destruct (h =? h')%N|].
  destruct (N.eqb_spec k h) as [->|Hk]; cbn [lookup].
  - now destruct (h =? h')%N.
  - rewrite IH. destruct (N.eqb_spec k h') as [->|]; [|reflexivity].
    destruct (N.eqb_spec h h'); [congruence | reflexivity].
Qed.

Lemma lookup_update_same d h a a0 :
  lookup d h = Some a0 -> lookup (update d h a) h = Some a.
Proof. intros H. now rewrite lookup_update, N.eqb_refl, H. Qed.

Lemma lookup_update_other d h a h' :
  h' <> h -> lookup (update d h a) h' = lookup d h'.
Proof. intros Hn. rewrite lookup_update. destruct (N.eqb_spec h h'); [congruence | reflexivity]. Qed.

Lemma lookup_update_none d h a h' : lookup d h' = None -> lookup (update d h a) h' = None.
Proof.
  intros H. rewrite lookup_update. destruct (N.eqb_spec h h') as [->|]; [now rewrite H | exact H].
Qed.

Lemma update_same d h a : lookup d h = Some a -> update d h a = d.
Proof.
  induction d as [|[k x] d IH]; cbn [lookup update]; [reflexivity|].
  destruct (N.eqb k h) eqn:E; intros H.
  - injection H as ->. reflexivity.
  - now rewrite IH.
Qed.

Lemma lookup_In d h a : lookup d h = Some a -> In (h, a) d.
Proof.
  induction d as [|[k x] d IH]; cbn [lookup]; [discriminate|].
  destruct (N.eqb k h) eqn:E; intros H.
  - apply N.eqb_eq in E. injection H as ->. subst. now left.
  - right. auto.
Qed.

Lemma lookup_stored_le d h a : lookup d h = Some a -> stored_len a <= max_len d.
Proof.
  unfold max_len. induction d as [|[k x] d IH]; cbn [lookup fold_right snd]; [discriminate|].
  destruct (N.eqb k h); intros H.
  - injection H as ->. lia.
  - specialize (IH H). lia.
Qed.

Lemma max_len_update d h a : max_len (update d h a) <= Nat.max (max_len d) (stored_len a).
Proof.
  unfold max_len. induction d as [|[k x] d IH]; cbn [update fold_right snd]; [lia|].
  destruct (N.eqb k h); cbn [fold_right snd]; lia.
Qed.

Lemma blob_value_length a : length (blob_value a) = stored_len a.
Proof. destruct a; reflexivity. Qed.

Definition mkc (m cm : nat) (q : list rsp) (l : bool) : client :=
  {| c_mtu := m; c_cmtu := cm; c_q := q; c_locked := l |}.

(** the state between two procedures *)
Record clean (c : client) (s : server) (mtu : nat) : Prop := {
  cl_lock : c_locked c = false;
  cl_q : c_q c = [];
  cl_wq : wq s = [];
  cl_crash : crashed s = false;
  cl_cmtu : c_mtu c = mtu;
  cl_smtu : s_cmtu s = mtu;
  cl_mtu : 23 <= mtu
}.

Definition cmd_only (q : list rsp) : Prop := Forall (fun m => is_cmd_err m = true) q.

(** the state between two procedures, as the repaired client leaves it: a refused Write Command
    may have left its Error Response in the queue *)
Record ready (c : client) (s : server) (mtu : nat) : Prop := {
  rd_lock : c_locked c = false;
  rd_q : cmd_only (c_q c);
  rd_wq : wq s = [];
  rd_crash : crashed s = false;
  rd_cmtu : c_mtu c = mtu;
  rd_smtu : s_cmtu s = mtu;
  rd_mtu : 23 <= mtu
}.

Definition flush (c : client) : client := set_q c [].

Lemma flush_clean c : c_q c = [] -> flush c = c.
Proof. destruct c. cbn. now intros ->. Qed.

Lemma clean_ready c s mtu : clean c s mtu -> ready c s mtu.
Proof. intros [H1 H2 H3 H4 H5 H6 H7]. constructor; auto. rewrite H2. constructor. Qed.

Lemma ready_flush c s mtu : ready c s mtu -> clean (flush c) s mtu.
Proof. intros [H1 H2 H3 H4 H5 H6 H7]. constructor; auto. Qed.

Lemma clean_init d : clean client_init (server_init d) 23.
Proof. constructor; cbn; auto. Qed.

Lemma fits16_N h : (h < 65536)%N -> fits16 h = true.
Proof. intros H. unfold fits16. now apply N.ltb_lt. Qed.

Lemma xfer_spec c s q :
  encodable q = true -> xfer c s q = Some (deliver c (snd (server_step s q)), fst (server_step s q)).
Proof. intros He. unfold xfer. rewrite He. now destruct (server_step s q). Qed.

Lemma wait_in_flush accept q l : cmd_only q -> wait_in accept (q ++ l) = wait_in accept l.
Proof.
  induction 1 as [|m q Hm _ IH]; cbn [app wait_in]; [reflexivity|]. now rewrite Hm.
Qed.

(** what [wait_for_message] returns once the server's reaction [r] to the request has been
    delivered, when nothing but stale command errors was queued before *)
Definition answer (accept : rsp -> bool) (r : option rsp) : option rsp :=
  match r with
  | Some m => if is_cmd_err m then None else if accept m then Some m else None
  | None => None
  end.

Lemma wait_deliver accept c r :
  cmd_only (c_q c) -> wait accept (deliver c r) = (answer accept r, flush c).
Proof.
  intros Hq. unfold wait. destruct r as [m|]; cbn [deliver set_q c_q answer].
  - rewrite wait_in_flush by assumption. cbn [wait_in].
    destruct (is_cmd_err m); [reflexivity|]. destruct (accept m); reflexivity.
  - rewrite <- (app_nil_r (c_q c)), wait_in_flush by assumption. reflexivity.
Qed.

Lemma wait_deliver_clean accept c r :
  c_q c = [] -> wait accept (deliver c r) = (answer accept r, c).
Proof.
  intros Hq. rewrite wait_deliver by (rewrite Hq; constructor). now rewrite flush_clean.
Qed.

Definition ask_outcome (accept : rsp -> bool) (k : rsp -> outcome val) (r : option rsp) : outcome val :=
  match answer accept r with
  | None => Raise ETimeout
  | Some (RErr _ _ code) => Raise (EAtt code)
  | Some m => k m
  end.

Lemma ask_spec accept q k c s :
  c_q c = [] -> encodable q = true ->
  ask accept q k c s = (ask_outcome accept k (snd (server_step s q)), c, fst (server_step s q)).
Proof.
  intros Hq He. unfold ask, ask_outcome. rewrite xfer_spec, wait_deliver_clean by assumption.
  destruct (answer accept (snd (server_step s q))) as [[]|]; reflexivity.
Qed.

Lemma proclock_clean body c s o s' :
  c_locked c = false -> body (set_lock c true) s = (o, set_lock c true, s') -> releases o = true ->
  proclock body c s = (o, c, s').
Proof.
  intros Hl Hb Hr. unfold proclock. rewrite Hl, Hb, Hr. destruct c. cbn in Hl |- *. now subst.
Qed.

(** the outcomes after which the next procedure can run: a value, an ATT error, a GATT timeout *)
Definition usable (o : outcome val) : Prop :=
  match o with Ok _ => True | Raise (EAtt _) => True | Raise ETimeout => True | _ => False end.

Lemma usable_releases o : usable o -> releases o = true.
Proof. destruct o as [x|[c| |]| |]; cbn; intros H; try reflexivity; contradiction. Qed.

Definition good_k (accept : rsp -> bool) (k : rsp -> outcome val) : Prop :=
  forall x, accept x = true -> is_err x = false -> exists r, k x = Ok r.

Lemma ask_outcome_usable accept k r : good_k accept k -> usable (ask_outcome accept k r).
Proof.
  intros Hk. unfold ask_outcome. destruct r as [x|]; cbn [answer]; [|exact I].
  destruct (is_cmd_err x); [exact I|].
  destruct (accept x) eqn:E; [|exact I].
  destruct x; try exact I; (destruct (Hk _ E eq_refl) as [r ->]; exact I).
Qed.

Lemma good_read : good_k acc_read (fun m => match m with RRead v => Ok (VBytes v) | _ => Raise EOther end).
Proof. intros x Ha He. destruct x; try discriminate; eauto. Qed.
Lemma good_blob : good_k acc_blob (fun m => match m with RBlob v => Ok (VBytes v) | _ => Raise EOther end).
Proof. intros x Ha He. destruct x; try discriminate; eauto. Qed.
Lemma good_write : good_k acc_write (fun m => match m with RWrite => Ok VTrue | _ => Raise EOther end).
Proof. intros x Ha He. destruct x; try discriminate; eauto. Qed.
Lemma good_exec : good_k acc_exec (fun m => match m with RExec => Ok VTrue | _ => Raise EOther end).
Proof. intros x Ha He. destruct x; try discriminate; eauto. Qed.

Lemma ask_procedure accept q k c s :
  c_locked c = false -> c_q c = [] -> encodable q = true -> good_k accept k ->
  proclock (ask accept q k) c s
  = (ask_outcome accept k (snd (server_step s q)), c, fst (server_step s q)).
Proof.
  intros Hl Hq He Hk. apply proclock_clean; [exact Hl | now apply ask_spec |].
  now apply usable_releases, ask_outcome_usable.
Qed.

Definition readable_target (d : db) (h : N) (S : bytes) : Prop :=
  h <> 0%N /\
  ((exists u p, lookup d h = Some (AValue u S) /\ owner_props d h = Some p /\ readable p = true)
   \/ lookup d h = Some (ACccd S)
   \/ (exists u, lookup d h = Some (ADesc u S))).

Lemma srv_read_target s h S :
  readable_target (sdb s) h S ->
  server_step s (QRead h) = (s, Some (RRead (firstn (s_cmtu s - 1) S))).
Proof.
  intros [Hh H]. cbn [server_step]. unfold srv_read.
  apply N.eqb_neq in Hh. rewrite Hh.
  destruct H as [(u & p & H1 & H2 & H3) | [H1 | (u & H1)]]; rewrite H1; [|reflexivity..].
  now rewrite H2, H3.
Qed.

Lemma srv_blob_target s h S off :
  readable_target (sdb s) h S -> off <= length S ->
  server_step s (QBlob h off) = (s, Some (RBlob (slice off (off + (s_cmtu s - 1)) S))).
Proof.
  intros [Hh H] Hoff. cbn [server_step]. unfold srv_blob.
  apply N.eqb_neq in Hh. rewrite Hh.
  assert (Hans : (if off <? length S then (s, Some (RBlob (slice off (off + s_cmtu s - 1) S)))
                  else if off =? length S then (s, Some (RBlob []))
                  else (s, Some (RErr OP_READ_BLOB h E_INVALID_OFFSET)))
                 = (s, Some (RBlob (slice off (off + (s_cmtu s - 1)) S)))).
  { destruct (off <? length S) eqn:E.
    - unfold slice. do 4 f_equal. lia.
    - replace (off =? length S) with true by lia. now rewrite slice_end by lia. }
  destruct H as [(u & p & H1 & H2 & H3) | [H1 | (u & H1)]]; rewrite H1; cbn [blob_value];
    [rewrite H2, H3|..]; exact Hans.
Qed.

Lemma read_returns_prefix c s mtu h S :
  clean c s mtu -> (h < 65536)%N -> readable_target (sdb s) h S ->
  client_read h c s = (Ok (VBytes (firstn (mtu - 1) S)), c, s).
Proof.
  intros [Hl Hq _ _ _ Hm _] Hh Ht. unfold client_read.
  rewrite ask_procedure by (assumption || apply good_read || now apply fits16_N).
  rewrite (srv_read_target s h S Ht), Hm. reflexivity.
Qed.

(** the first request is a Read, the following ones Read Blob at the offset reached *)
Lemma read_long_request (S : bytes) off h :
  off <= length S ->
  match firstn off S with [] => QRead h | _ => QBlob h off end
  = if off =? 0 then QRead h else QBlob h off.
Proof. destruct off, S; cbn; intros; try lia; reflexivity. Qed.

Lemma read_long_loop_spec s h S c :
  c_q c = [] -> 2 <= c_mtu c -> s_cmtu s = c_mtu c -> (h < 65536)%N ->
  readable_target (sdb s) h S -> (N.of_nat (length S) < 65536)%N ->
  forall fuel off,
    off <= length S -> length S < off + fuel * (c_mtu c - 1) ->
    read_long_loop fuel h (c_mtu c) (firstn off S) off c s = (Ok (VBytes S), c, s).
Proof.
  intros Hq Hmtu Hm Hh Ht HS. set (m := c_mtu c - 1).
  induction fuel as [|f IH]; intros off Hoff Hfuel; [lia|].
  (* both kinds of request are answered with the next [m] bytes *)
  assert (Hcont : let d := firstn m (skipn off S) in
            (if length d <? m then (Ok (VBytes (firstn off S ++ d)), c, s)
             else read_long_loop f h (c_mtu c) (firstn off S ++ d) (off + length d) c s)
            = (Ok (VBytes S), c, s)).
  { cbv zeta. rewrite <- firstn_add, firstn_length, skipn_length.
    destruct (Nat.ltb_spec (Nat.min m (length S - off)) m).
    - now rewrite firstn_all2 by lia.
    - replace (off + Nat.min m (length S - off)) with (off + m) by lia. apply IH; lia. }
  cbn [read_long_loop]. rewrite read_long_request by assumption.
  destruct (Nat.eqb_spec off 0) as [->|Hpos].
  - rewrite xfer_spec, (srv_read_target s h S Ht), Hm by now apply fits16_N.
    cbn [fst snd]. rewrite wait_deliver_clean by assumption.
    cbn [answer is_cmd_err acc_read_or_blob]. exact Hcont.
  - rewrite xfer_spec, (srv_blob_target s h S off Ht Hoff), Hm
      by (cbn [encodable]; rewrite !fits16_N by lia; reflexivity).
    cbn [fst snd]. rewrite wait_deliver_clean by assumption.
    cbn [answer is_cmd_err acc_read_or_blob].
    unfold slice. replace (off + (c_mtu c - 1) - off) with m by lia. exact Hcont.
Qed.

Lemma readable_target_len d h S : readable_target d h S -> length S <= max_len d.
Proof.
  intros [_ [(u & p & H & _) | [H | (u & H)]]]; apply lookup_stored_le in H; exact H.
Qed.

Lemma read_long_fuel_enough c s mtu h S fuel :
  clean c s mtu -> (h < 65536)%N -> readable_target (sdb s) h S ->
  (N.of_nat (length S) < 65536)%N ->
  length S / (mtu - 1) + 1 <= fuel ->
  client_read_long fuel h c s = (Ok (VBytes S), c, s).
Proof.
  intros [Hl Hq _ _ Hm1 Hm2 Hm] Hh Ht HS Hf. apply proclock_clean; [exact Hl | | reflexivity].
  apply (read_long_loop_spec s h S (set_lock c true)) with (off := 0);
    cbn [set_lock c_mtu c_q]; try assumption; try lia.
  rewrite Hm1. pose proof (Nat.mul_succ_div_gt (length S) (mtu - 1) ltac:(lia)) as H1.
  pose proof (Nat.mul_le_mono_l _ fuel (mtu - 1) Hf). lia.
Qed.

Lemma read_long_returns_stored c s mtu h S :
  clean c s mtu -> (h < 65536)%N -> readable_target (sdb s) h S ->
  (N.of_nat (length S) < 65536)%N ->
  client_read_long (read_long_fuel s) h c s = (Ok (VBytes S), c, s).
Proof.
  intros Hcl Hh Ht HS. apply read_long_fuel_enough with (mtu := mtu); try assumption.
  unfold read_long_fuel. pose proof (readable_target_len _ _ _ Ht).
  pose proof (Nat.div_le_compat_l (length S) 1 (mtu - 1)) as H1. rewrite Nat.div_1_r in H1.
  pose proof (cl_mtu _ _ _ Hcl). lia.
Qed.

Lemma read_refused c s mtu h code :
  clean c s mtu -> (h < 65536)%N ->
  server_step s (QRead h) = (s, Some (RErr OP_READ h code)) ->
  client_read h c s = (Raise (EAtt code), c, s)
  /\ client_read_long (read_long_fuel s) h c s = (Raise (EAtt code), c, s).
Proof.
  intros [Hl Hq _ _ _ _ _] Hh Hsrv. split.
  - unfold client_read.
    rewrite ask_procedure, Hsrv by (assumption || apply good_read || now apply fits16_N).
    reflexivity.
  - apply proclock_clean; [exact Hl | | reflexivity].
    unfold read_long_fuel. rewrite Nat.add_comm. cbn [Nat.add read_long_loop].
    rewrite xfer_spec, Hsrv by now apply fits16_N.
    cbn [fst snd]. now rewrite wait_deliver_clean by exact Hq.
Qed.

(** [h] holds a characteristic value whose declaration (properties [p]) is at [h-1] *)
Definition value_at (d : db) (h : N) (u old : bytes) (p : N) : Prop :=
  h <> 0%N /\ (h < 65536)%N /\ lookup d h = Some (AValue u old) /\ owner_props d h = Some p.

Lemma client_write_cases h v c s :
  client_write h v c s
  = if c_mtu c - 3 <? length v then client_write_long h v c s
    else proclock (ask acc_write (QWrite h v)
                       (fun m => match m with RWrite => Ok VTrue | _ => Raise EOther end)) c s.
Proof.
  unfold client_write, client_write_long, proclock.
  destruct (c_locked c); [now destruct (_ <? _)|].
  change (c_mtu (set_lock c true)) with (c_mtu c). now destruct (_ <? _).
Qed.

Lemma write_short c s mtu h v :
  clean c s mtu -> (h < 65536)%N -> length v <= mtu - 3 ->
  client_write h v c s
  = (ask_outcome acc_write (fun m => match m with RWrite => Ok VTrue | _ => Raise EOther end)
       (snd (server_step s (QWrite h v))), c, fst (server_step s (QWrite h v))).
Proof.
  intros [Hl Hq _ _ Hm1 _ _] Hh Hlen.
  rewrite client_write_cases, Hm1. replace (mtu - 3 <? length v) with false by lia.
  apply ask_procedure; [exact Hl | exact Hq | now apply fits16_N | exact good_write].
Qed.

Lemma write_plain c s mtu h u old p v :
  clean c s mtu -> value_at (sdb s) h u old p -> length v <= mtu - 3 ->
  client_write h v c s
  = if writeable p then (Ok VTrue, c, set_db s (update (sdb s) h (AValue u v)))
    else (Raise (EAtt E_WRITE_NOT_PERMITTED), c, s).
Proof.
  intros Hcl (Hh0 & Hh & Hlk & Hp) Hlen. apply N.eqb_neq in Hh0.
  rewrite (write_short c s mtu h v Hcl Hh Hlen). cbn [server_step]. unfold srv_write.
  rewrite Hh0, Hlk, Hp. now destruct (writeable p).
Qed.

(** the prepared writes the client sends: offset, chunk *)
Fixpoint chunks (n : nat) (v : bytes) (cs off : nat) : list (nat * bytes) :=
  match n with
  | O => []
  | S n' => let d := slice off (off + cs) v in (off, d) :: chunks n' v cs (off + length d)
  end.

(** queue holding only the writes of [h] *)
Definition pend (h : N) (ws : list (nat * bytes)) : list (N * list (nat * bytes)) :=
  match ws with [] => [] | _ => [(h, ws)] end.

Lemma wq_add_pend h ws w : wq_add (pend h ws) h w = pend h (ws ++ [w]).
Proof.
  destruct ws as [|x r]; cbn [pend wq_add app].
  - reflexivity.
  - rewrite N.eqb_refl. reflexivity.
Qed.

Lemma prep_loop_spec h v cs c u0 x0 :
  c_q c = [] -> (h < 65536)%N -> (N.of_nat (length v) < 65536)%N ->
  forall n off ws s,
    lookup (sdb s) h = Some (AValue u0 x0) -> wq s = pend h ws -> off <= length v ->
    prep_loop n h v cs off c s = (None, c, set_wq s (pend h (ws ++ chunks n v cs off))).
Proof.
  intros Hq Hh Hv. induction n as [|n IH]; intros off ws s Hlk Hwq Hoff; cbn [prep_loop chunks].
  - rewrite app_nil_r, <- Hwq. now destruct s.
  - set (d := slice off (off + cs) v).
    rewrite xfer_spec by (cbn [encodable]; rewrite !fits16_N by lia; reflexivity).
    cbn [server_step]. unfold srv_prepare. rewrite Hlk. cbn [fst snd].
    rewrite wait_deliver_clean by assumption. cbn [answer is_cmd_err acc_prep].
    rewrite Hwq, wq_add_pend.
    rewrite (IH (off + length d) (ws ++ [(off, d)])); [now rewrite <- app_assoc | exact Hlk | reflexivity |].
    unfold d. rewrite slice_length. lia.
Qed.

Lemma splice_append (pre d old : bytes) :
  splice (pre ++ skipn (length pre) old) (length pre) d
  = Some ((pre ++ d) ++ skipn (length pre + length d) old).
Proof.
  unfold splice. rewrite app_length, skipn_length.
  replace (length pre + (length old - length pre) <? length pre) with false by lia.
  rewrite firstn_app, Nat.sub_diag, firstn_O, app_nil_r, firstn_all.
  destruct (Nat.leb_spec (length pre + length d) (length pre + (length old - length pre))).
  - rewrite skipn_app, skipn_all2 by lia. cbn [app].
    replace (length pre + length d - length pre) with (length d) by lia.
    rewrite <- skipn_add, app_assoc. reflexivity.
  - rewrite (skipn_all2 old) by lia. now rewrite app_nil_r.
Qed.

Lemma apply_chunks v old cs : 0 < cs ->
  forall n off,
    off <= length v -> length v <= off + n * cs ->
    apply_writes (firstn off v ++ skipn off old) (chunks n v cs off)
    = (v ++ skipn (length v) old, true).
Proof.
  intros Hcs. induction n as [|n IH]; intros off Hoff Hcov; cbn [chunks apply_writes].
  - assert (off = length v) by lia. subst off. now rewrite firstn_all.
  - assert (Hf : length (firstn off v) = off) by (rewrite firstn_length; lia).
    pose proof (splice_append (firstn off v) (slice off (off + cs) v) old) as Hs.
    rewrite Hf in Hs. rewrite Hs, firstn_slice.
    apply IH; rewrite slice_length; lia.
Qed.

Lemma nb_chunks_cover len cs : 0 < cs -> len <= nb_chunks len cs * cs.
Proof.
  intros Hcs. unfold nb_chunks.
  pose proof (Nat.div_mod len cs ltac:(lia)) as Hdm.
  pose proof (Nat.mod_upper_bound len cs ltac:(lia)) as Hlt.
  destruct (0 <? len mod cs) eqn:E; lia.
Qed.

Lemma nb_chunks_zero len cs : 0 < cs -> nb_chunks len cs = 0 -> len = 0.
Proof. intros Hcs H. pose proof (nb_chunks_cover len cs Hcs). lia. Qed.

Lemma execute_pend s h u old p ws new :
  lookup (sdb s) h = Some (AValue u old) -> owner_props (sdb s) h = Some p ->
  ws <> [] -> apply_writes old ws = (new, true) ->
  server_step (set_wq s (pend h ws)) (QExec 1)
  = if writeable p then (set_wq (set_db s (update (sdb s) h (AValue u new))) [], Some RExec)
    else (set_wq s [], Some (RErr OP_EXECUTE h E_WRITE_NOT_PERMITTED)).
Proof.
  intros Hlk Hp Hne Ha. destruct ws as [|w ws]; [congruence|].
  cbn [server_step]. unfold srv_execute. cbn [N.eqb Pos.eqb pend set_wq wq sdb exec_queues].
  rewrite Hlk, Hp. destruct (writeable p); [rewrite Ha|]; reflexivity.
Qed.

Lemma exec_pend_other d h a ws :
  lookup d h = Some a -> (forall u v, a <> AValue u v) -> exec_queues d (pend h ws) = (d, ExDone).
Proof.
  intros Hlk Hn. destruct ws as [|w ws]; cbn [pend exec_queues]; [reflexivity|].
  rewrite Hlk. destruct a; try reflexivity. exfalso. eapply Hn. reflexivity.
Qed.

(** a zero-length long write sends no Prepare Write: the Execute Write finds an empty queue *)
Lemma write_long_nolock_empty h c s :
  c_q c = [] -> wq s = [] -> 6 <= c_mtu c ->
  write_long_nolock h [] c s = (Ok VTrue, c, set_wq (set_db s (sdb s)) []).
Proof.
  intros Hq Hwq Hm. unfold write_long_nolock, nb_chunks. cbn [length].
  rewrite Nat.div_0_l, Nat.mod_0_l by lia. cbn [Nat.ltb Nat.leb prep_loop].
  rewrite ask_spec by (assumption || reflexivity).
  cbn [server_step]. unfold srv_execute. cbn [N.eqb Pos.eqb]. now rewrite Hwq.
Qed.

(** MTU >= 6: a chunk of MTU-5 bytes holds at least one byte *)
Lemma write_long_nolock_value h u old p v c s :
  c_q c = [] -> wq s = [] -> 6 <= c_mtu c -> (h < 65536)%N -> (N.of_nat (length v) < 65536)%N ->
  lookup (sdb s) h = Some (AValue u old) -> owner_props (sdb s) h = Some p ->
  write_long_nolock h v c s
  = if writeable p || (length v =? 0)
    then (Ok VTrue, c, set_wq (set_db s (update (sdb s) h (AValue u (v ++ skipn (length v) old)))) [])
    else (Raise (EAtt E_WRITE_NOT_PERMITTED), c, set_wq s []).
Proof.
  intros Hq Hwq Hm Hh Hv Hlk Hp. destruct v as [|b v'].
  { rewrite write_long_nolock_empty, orb_true_r by assumption. cbn [app skipn length].
    now rewrite update_same. }
  set (v := b :: v') in *. replace (length v =? 0) with false by reflexivity. rewrite orb_false_r.
  unfold write_long_nolock. set (cs := c_mtu c - 5).
  destruct (nb_chunks (length v) cs) as [|n] eqn:En; [apply nb_chunks_zero in En; [discriminate|lia]|].
  assert (Ha : apply_writes old (chunks (S n) v cs 0) = (v ++ skipn (length v) old, true)).
  { apply (apply_chunks v old cs) with (off := 0); [lia | lia |].
    rewrite <- En. apply nb_chunks_cover. lia. }
  rewrite (prep_loop_spec h v cs c u old Hq Hh Hv _ 0 [] s Hlk Hwq) by lia. cbn [app].
  rewrite ask_spec by (assumption || reflexivity).
  rewrite (execute_pend s h u old p _ _ Hlk Hp) by (discriminate || exact Ha).
  destruct (writeable p); reflexivity.
Qed.

(** what Prepare Write answers for a handle that does not hold a characteristic value *)
Definition prep_refusal (r : option attr) : option N :=
  match r with
  | None => Some E_INVALID_HANDLE
  | Some (AValue _ _) => None
  | Some (ACccd _) => Some E_REQUEST_NOT_SUPP
  | Some _ => Some E_WRITE_NOT_PERMITTED
  end.

Lemma write_long_nolock_refused h v c s code :
  c_q c = [] -> wq s = [] -> 6 <= c_mtu c -> (h < 65536)%N ->
  prep_refusal (lookup (sdb s) h) = Some code ->
  write_long_nolock h v c s
  = match v with
    | [] => (Ok VTrue, c, set_wq (set_db s (sdb s)) [])
    | _ => (Raise (EAtt code), c, s)
    end.
Proof.
  intros Hq Hwq Hm Hh Hr. destruct v as [|b v]; [now apply write_long_nolock_empty|].
  unfold write_long_nolock.
  destruct (nb_chunks (length (b :: v)) (c_mtu c - 5)) as [|n] eqn:En.
  { apply nb_chunks_zero in En; [discriminate|lia]. }
  cbn [prep_loop]. rewrite xfer_spec by (cbn [encodable]; now rewrite fits16_N).
  cbn [server_step]. unfold srv_prepare.
  destruct (lookup (sdb s) h) as [[]|]; try discriminate Hr; injection Hr as <-;
    cbn [fst snd]; rewrite wait_deliver_clean by assumption; reflexivity.
Qed.

Lemma write_long_result c s mtu h u old p v :
  clean c s mtu -> value_at (sdb s) h u old p -> (N.of_nat (length v) < 65536)%N ->
  client_write_long h v c s
  = if writeable p || (length v =? 0)%nat
    then (Ok VTrue, c, set_wq (set_db s (update (sdb s) h (AValue u (v ++ skipn (length v) old)))) [])
    else (Raise (EAtt E_WRITE_NOT_PERMITTED), c, set_wq s []).
Proof.
  intros [Hl Hq Hw _ Hm1 _ Hm] (_ & Hh & Hlk & Hp) Hv.
  pose proof (write_long_nolock_value h u old p v (set_lock c true) s Hq Hw
                ltac:(cbn [set_lock c_mtu]; lia) Hh Hv Hlk Hp) as H.
  destruct (writeable p || (length v =? 0)); now apply proclock_clean.
Qed.

Lemma write_long_refused c s mtu h v code :
  clean c s mtu -> (h < 65536)%N -> prep_refusal (lookup (sdb s) h) = Some code ->
  client_write_long h v c s
  = match v with
    | [] => (Ok VTrue, c, set_wq (set_db s (sdb s)) [])
    | _ => (Raise (EAtt code), c, s)
    end.
Proof.
  intros [Hl Hq Hw _ Hm1 _ Hm] Hh Hr.
  pose proof (write_long_nolock_refused h v (set_lock c true) s code Hq Hw
                ltac:(cbn [set_lock c_mtu]; lia) Hh Hr) as H.
  destruct v; now apply proclock_clean.
Qed.

Lemma write_result c s mtu h u old p v :
  clean c s mtu -> value_at (sdb s) h u old p -> (N.of_nat (length v) < 65536)%N ->
  client_write h v c s
  = if writeable p
    then (Ok VTrue, c,
          if length v <=? mtu - 3 then set_db s (update (sdb s) h (AValue u v))
          else set_wq (set_db s (update (sdb s) h (AValue u (v ++ skipn (length v) old)))) [])
    else (Raise (EAtt E_WRITE_NOT_PERMITTED), c, if length v <=? mtu - 3 then s else set_wq s []).
Proof.
  intros Hcl Hva Hv. destruct (Nat.leb_spec (length v) (mtu - 3)) as [Hle|Hlt].
  - rewrite (write_plain c s mtu h u old p v Hcl Hva Hle). now destruct (writeable p).
  - rewrite client_write_cases, (cl_cmtu _ _ _ Hcl).
    replace (mtu - 3 <? length v) with true by lia.
    rewrite (write_long_result c s mtu h u old p v Hcl Hva Hv).
    replace (length v =? 0) with false by lia. now rewrite orb_false_r.
Qed.

Lemma write_command_spec h v c s :
  c_locked c = false -> (h < 65536)%N ->
  client_write_command h v c s
  = (Ok VTrue, deliver c (snd (server_step s (QWriteCmd h v))), fst (server_step s (QWriteCmd h v))).
Proof.
  intros Hl Hh. unfold client_write_command, proclock. rewrite Hl, xfer_spec by now apply fits16_N.
  destruct (snd (server_step s (QWriteCmd h v))), c; cbn in Hl |- *; now subst.
Qed.

Lemma set_mtu_spec c s mtu m :
  clean c s mtu -> 23 <= m -> (N.of_nat m < 65536)%N ->
  exists c' s', client_set_mtu m c s = (Ok (VNat m), c', s') /\ clean c' s' m
                /\ sdb s' = sdb s.
Proof.
  intros [Hl Hq Hw Hc Hm1 Hm2 Hm] H23 H16. pose proof H23 as E. apply Nat.leb_le in E.
  unfold client_set_mtu, proclock. rewrite Hl, E, xfer_spec by now apply fits16_N.
  cbn [server_step]. unfold srv_mtu. rewrite E.
  cbn [fst snd s_smtu]. rewrite wait_deliver_clean by exact Hq.
  cbn [answer is_cmd_err acc_mtu releases]. rewrite E.
  eexists _, _. split; [reflexivity|]. split; [|reflexivity].
  constructor; cbn; auto.
Qed.

(** well-formed databases (what Profile builds), and their shape: everything but the stored
    values *)
Definition wf_db (d : db) : Prop :=
  (forall h u v, lookup d h = Some (AValue u v) -> exists p, owner_props d h = Some p)
  /\ (forall h p vh u, lookup d h = Some (ADecl p vh u) -> exists u' v, lookup d vh = Some (AValue u' v)).

Lemma prep_refusal_cases d h :
  wf_db d ->
  (exists code, prep_refusal (lookup d h) = Some code)
  \/ (exists u old p, lookup d h = Some (AValue u old) /\ owner_props d h = Some p).
Proof.
  intros [W1 _]. destruct (lookup d h) as [[| |u old| |]|] eqn:E; cbn [prep_refusal]; eauto.
  right. destruct (W1 _ _ _ E) as [p Hp]. exists u, old, p. auto.
Qed.

Definition same_shape (d d' : db) : Prop :=
  forall x, match lookup d x, lookup d' x with
            | Some (AValue u _), Some (AValue u' _) => u = u'
            | Some (ACccd _), Some (ACccd _) => True
            | a, b => a = b
            end.

Lemma same_shape_refl d : same_shape d d.
Proof. intros x. destruct (lookup d x) as [[]|]; auto. Qed.

(** what a write puts in the place of [a0]: another value of the same characteristic, or of
    the CCCD *)
Definition restores (a0 a : attr) : Prop :=
  match a0, a with
  | AValue u _, AValue u' _ => u = u'
  | ACccd _, ACccd _ => True
  | _, _ => False
  end.

Lemma same_shape_update d h a0 a :
  lookup d h = Some a0 -> restores a0 a -> same_shape d (update d h a).
Proof.
  intros Hlk Hr x. destruct (N.eq_dec x h) as [->|Hn].
  - rewrite (lookup_update_same _ _ _ _ Hlk), Hlk. destruct a0, a; try contradiction; exact Hr.
  - rewrite lookup_update_other by assumption. apply same_shape_refl.
Qed.

Lemma wf_same_shape d d' : wf_db d -> same_shape d d' -> wf_db d'.
Proof.
  intros [W1 W2] Sh. split.
  - intros h u v H. pose proof (Sh h) as Sh1. rewrite H in Sh1.
    destruct (lookup d h) as [[]|] eqn:E; try discriminate.
    destruct (W1 _ _ _ E) as [p Hp]. exists p. unfold owner_props in *.
    pose proof (Sh (h - 1)%N) as Sh2.
    destruct (lookup d (h - 1)) as [[]|]; try discriminate.
    rewrite <- Sh2. exact Hp.
  - intros h p vh u H. pose proof (Sh h) as Sh1. rewrite H in Sh1.
    destruct (lookup d h) as [[]|] eqn:E; try discriminate.
    injection Sh1 as -> -> ->.
    destruct (W2 _ _ _ _ E) as (u' & v & Hv). pose proof (Sh vh) as Sh2. rewrite Hv in Sh2.
    destruct (lookup d' vh) as [[]|]; try discriminate. eauto.
Qed.

(** the server between two procedures *)
Record sinv (s : server) : Prop := {
  si_crash : crashed s = false;
  si_wq : wq s = [];
  si_wf : wf_db (sdb s);
  si_len : (N.of_nat (max_len (sdb s)) < 65536)%N
}.

(** storing [a], no longer than the longer of what was there and the [n] bytes received *)
Lemma sinv_store s h a0 a n :
  sinv s -> lookup (sdb s) h = Some a0 -> restores a0 a ->
  stored_len a <= Nat.max n (stored_len a0) -> (N.of_nat n < 65536)%N ->
  sinv (set_db s (update (sdb s) h a)).
Proof.
  intros [H1 H2 H3 H4] Hlk Hr Hl Hn. constructor; cbn [set_db crashed wq sdb]; auto.
  - eapply wf_same_shape; [exact H3|]. eapply same_shape_update; eassumption.
  - pose proof (max_len_update (sdb s) h a). apply lookup_stored_le in Hlk. lia.
Qed.

Lemma set_wq_nil s : wq s = [] -> set_wq s [] = s.
Proof. destruct s; cbn. intros ->. reflexivity. Qed.

(** a Read or Read Blob leaves the server as it is; [rl_resp bound off r]: its answer [r], when
    it carries bytes, carries none or stays within [bound] when placed at [off] *)
Definition rl_resp (bound off : nat) (r : option rsp) : Prop :=
  match r with
  | None => True
  | Some (RErr _ _ _) => True
  | Some (RRead v) | Some (RBlob v) => v = [] \/ off + length v <= bound
  | Some _ => False
  end.

Lemma srv_read_shape s h :
  sinv s ->
  fst (server_step s (QRead h)) = s /\ rl_resp (max_len (sdb s)) 0 (snd (server_step s (QRead h))).
Proof.
  intros [_ _ [W1 _] _]. cbn [server_step]. unfold srv_read.
  assert (Hok : forall x, length x <= max_len (sdb s) ->
            fst (s, Some (RRead x)) = s /\ rl_resp (max_len (sdb s)) 0 (snd (s, Some (RRead x))))
    by (intros x Hx; split; [reflexivity | now right]).
  destruct (N.eqb h 0); [now split|].
  destruct (lookup (sdb s) h) as [[]|] eqn:E; [..|now split];
    pose proof (lookup_stored_le _ _ _ E) as Hle; cbn [stored_len] in Hle.
  - now apply Hok.
  - now apply Hok.
  - destruct (W1 _ _ _ E) as [p ->]. destruct (readable p); [|now split].
    apply Hok. rewrite firstn_length. lia.
  - apply Hok. rewrite firstn_length. lia.
  - apply Hok. rewrite firstn_length. lia.
Qed.

Lemma srv_blob_shape s h off :
  sinv s ->
  fst (server_step s (QBlob h off)) = s
  /\ rl_resp (max_len (sdb s)) off (snd (server_step s (QBlob h off))).
Proof.
  intros [_ _ [W1 _] _]. cbn [server_step]. unfold srv_blob.
  destruct (N.eqb h 0); [now split|].
  destruct (lookup (sdb s) h) as [a|] eqn:E; [|now split].
  set (answer := if off <? length (blob_value a) then _ else _).
  assert (Hans : fst answer = s /\ rl_resp (max_len (sdb s)) off (snd answer)).
  { apply lookup_stored_le in E. rewrite <- blob_value_length in E. unfold answer.
    destruct (Nat.ltb_spec off (length (blob_value a))).
    - split; [reflexivity|]. right. rewrite slice_length. lia.
    - destruct (off =? _); split; (reflexivity || exact I || now left). }
  destruct a; try exact Hans.
  destruct (W1 _ _ _ E) as [p ->]. destruct (readable p); [exact Hans | now split].
Qed.

Lemma srv_write_state s h v :
  sinv s -> (N.of_nat (length v) < 65536)%N ->
  sinv (fst (server_step s (QWrite h v))) /\ s_cmtu (fst (server_step s (QWrite h v))) = s_cmtu s.
Proof.
  intros Hs Hv. pose proof (si_wf _ Hs) as [W1 _]. cbn [server_step]. unfold srv_write.
  destruct (N.eqb h 0); [auto|].
  destruct (lookup (sdb s) h) as [[]|] eqn:E; cbn [fst]; auto.
  - destruct (W1 _ _ _ E) as [p ->]. destruct (writeable p); cbn [fst]; auto.
    split; [|reflexivity]. apply (sinv_store s h _ _ (length v) Hs E);
      [reflexivity | apply Nat.le_max_l | exact Hv].
  - destruct (length v <=? 2); cbn [fst]; auto.
    split; [|reflexivity]. apply (sinv_store s h _ _ (length v) Hs E); [exact I | | exact Hv].
    cbn [stored_len]. now rewrite overwrite_length.
Qed.

Lemma srv_write_cmd_state s h v :
  sinv s -> (N.of_nat (length v) < 65536)%N ->
  sinv (fst (server_step s (QWriteCmd h v))) /\ s_cmtu (fst (server_step s (QWriteCmd h v))) = s_cmtu s
  /\ match snd (server_step s (QWriteCmd h v)) with Some m => is_cmd_err m = true | None => True end.
Proof.
  intros Hs Hv. pose proof (si_wf _ Hs) as [W1 _]. cbn [server_step]. unfold srv_write_cmd.
  destruct (N.eqb h 0); [cbn [fst snd]; auto|].
  destruct (lookup (sdb s) h) as [[]|] eqn:E; cbn [fst snd]; auto.
  - destruct (W1 _ _ _ E) as [p ->]. destruct (writeable p); cbn [fst snd]; auto.
    split; [|auto]. apply (sinv_store s h _ _ (length v) Hs E);
      [reflexivity | apply Nat.le_max_l | exact Hv].
  - destruct ((length v <=? 2) && negb (bytes_eqb v v0)); cbn [fst snd]; auto.
    split; [|auto]. apply (sinv_store s h _ _ (length v) Hs E); [exact I | | exact Hv].
    cbn [stored_len]. now rewrite overwrite_length.
Qed.

Definition steady (c : client) (s : server) (r : result) : Prop :=
  exists o s', r = (o, c, s') /\ usable o /\ sinv s' /\ s_cmtu s' = s_cmtu s.

Lemma steady_intro c s o s' :
  usable o -> sinv s' -> s_cmtu s' = s_cmtu s -> steady c s (o, c, s').
Proof. intros. exists o, s'. auto. Qed.

Lemma proclock_steady body c s mtu :
  clean c s mtu -> steady (set_lock c true) s (body (set_lock c true) s) ->
  exists out c' s', proclock body c s = (out, c', s') /\ usable out /\ clean c' s' mtu /\ sinv s'.
Proof.
  intros Hcl (o & s' & Hb & Hu & Hs & Hm). exists o, c, s'.
  split; [apply proclock_clean; [apply Hcl | exact Hb | now apply usable_releases]|].
  split; [exact Hu|]. split; [|exact Hs].
  destruct Hcl, Hs. constructor; auto. congruence.
Qed.

Lemma ask_steady accept q k c s :
  c_q c = [] -> encodable q = true -> good_k accept k ->
  sinv (fst (server_step s q)) /\ s_cmtu (fst (server_step s q)) = s_cmtu s ->
  steady c s (ask accept q k c s).
Proof.
  intros Hq He Hk [Hs Hm]. rewrite ask_spec by assumption.
  apply steady_intro; [now apply ask_outcome_usable | exact Hs | exact Hm].
Qed.

(** [read_long] towards ANY handle terminates within the fuel *)
Lemma read_long_loop_steady s h c :
  sinv s -> c_q c = [] -> 2 <= c_mtu c -> (h < 65536)%N ->
  forall fuel acc off,
    (acc = [] -> off = 0) -> off <= max_len (sdb s) -> max_len (sdb s) < fuel + off ->
    steady c s (read_long_loop fuel h (c_mtu c) acc off c s).
Proof.
  intros Hs Hq Hm Hh. pose proof (si_len _ Hs) as Hlen.
  induction fuel as [|f IH]; intros acc off Hacc Hoff Hfuel; [lia|].
  cbn [read_long_loop].
  set (q := match acc with [] => QRead h | _ :: _ => QBlob h off end).
  assert (Henc : encodable q = true).
  { unfold q. destruct acc; cbn [encodable]; rewrite fits16_N by assumption; [reflexivity|].
    now rewrite fits16_N by lia. }
  assert (Hsrv : fst (server_step s q) = s /\ rl_resp (max_len (sdb s)) off (snd (server_step s q))).
  { unfold q. destruct acc; [rewrite (Hacc eq_refl); now apply srv_read_shape | now apply srv_blob_shape]. }
  destruct Hsrv as [Hsrv Hr].
  rewrite xfer_spec, Hsrv, wait_deliver_clean by assumption.
  (* an answer that does not end the loop advances the offset *)
  assert (Hcont : forall v, v = [] \/ off + length v <= max_len (sdb s) ->
            steady c s (if length v <? c_mtu c - 1 then (Ok (VBytes (acc ++ v)), c, s)
                        else read_long_loop f h (c_mtu c) (acc ++ v) (off + length v) c s)).
  { intros v Hv. destruct (Nat.ltb_spec (length v) (c_mtu c - 1)).
    - now apply steady_intro.
    - destruct Hv as [->|Hv]; [cbn [length] in *; lia|]. apply IH; try lia.
      intros Hnil. apply app_eq_nil in Hnil as [_ ->]. cbn [length] in *. lia. }
  destruct (snd (server_step s q)) as [[]|]; cbn [rl_resp] in Hr; try contradiction;
    cbn [answer acc_read_or_blob is_err].
  - destruct (is_cmd_err _); now apply steady_intro.
  - now apply Hcont.
  - now apply Hcont.
  - now apply steady_intro.
Qed.

Lemma write_long_nolock_steady h v c s :
  sinv s -> c_q c = [] -> 6 <= c_mtu c -> (h < 65536)%N -> (N.of_nat (length v) < 65536)%N ->
  steady c s (write_long_nolock h v c s).
Proof.
  intros Hs Hq Hm Hh Hv. pose proof Hs as [_ Hwq W _].
  assert (Hnil : sinv (set_wq s [])) by now rewrite set_wq_nil.
  destruct (prep_refusal_cases _ h W) as [[code Er] | (u & old & p & Elk & Hp)].
  - rewrite (write_long_nolock_refused h v c s code) by assumption.
    destruct v; now apply steady_intro.
  - rewrite (write_long_nolock_value h u old p v c s) by assumption.
    destruct (writeable p || (length v =? 0)); [|now apply steady_intro].
    apply steady_intro; [exact I | | reflexivity].
    apply (sinv_store (set_wq s []) h _ _ (length v) Hnil Elk); [reflexivity | | exact Hv].
    cbn [stored_len]. now rewrite overwrite_length.
Qed.

(** A procedure that starts with an exchange does exactly what it would do with the stale
    command errors removed from the queue: [wait_deliver] on both sides. *)

Lemma ask_flush accept q k c s :
  cmd_only (c_q c) -> encodable q = true -> ask accept q k c s = ask accept q k (flush c) s.
Proof.
  intros Hq He. unfold ask. rewrite !xfer_spec, !wait_deliver by (assumption || constructor).
  reflexivity.
Qed.

Lemma write_long_nolock_flush h v c s :
  cmd_only (c_q c) -> (h < 65536)%N ->
  write_long_nolock h v c s = write_long_nolock h v (flush c) s.
Proof.
  intros Hq Hh. unfold write_long_nolock. change (c_mtu (flush c)) with (c_mtu c).
  destruct (nb_chunks (length v) (c_mtu c - 5)) as [|n]; cbn [prep_loop].
  - now apply ask_flush.
  - rewrite !xfer_spec, !wait_deliver
      by (assumption || constructor || (cbn [encodable]; now rewrite fits16_N)).
    reflexivity.
Qed.

Lemma proclock_flush body c s :
  c_locked c = false -> body (set_lock c true) s = body (flush (set_lock c true)) s ->
  proclock body c s = proclock body (flush c) s.
Proof.
  intros Hl Hb. unfold proclock. change (c_locked (flush c)) with (c_locked c). rewrite Hl.
  change (set_lock (flush c) true) with (flush (set_lock c true)). now rewrite Hb.
Qed.

(** arguments that fit the 16-bit fields of the request PDUs *)
Definition args_ok (o : op) : Prop :=
  match o with
  | OSetMtu m | OSrvMtu m => (N.of_nat m < 65536)%N
  | ORead h | OReadLong h => (h < 65536)%N
  | OReadBlob h off => (h < 65536)%N /\ (N.of_nat off < 65536)%N
  | OWrite h v | OWriteLong h v | OWriteCmd h v => (h < 65536)%N /\ (N.of_nat (length v) < 65536)%N
  end.

Definition waits (o : op) : bool :=
  match o with
  | OSetMtu m => 23 <=? m
  | OWriteCmd _ _ => false
  | OSrvMtu _ => false
  | _ => true
  end.

Lemma run_op_flush o c s mtu :
  ready c s mtu -> args_ok o -> waits o = true ->
  run_op o c s = run_op o (flush c) s.
Proof.
  intros [Hl Hq _ _ _ _ _] Ha Hw.
  destruct o as [m | h | h off | h | h v | h v | h v | m]; cbn [run_op args_ok waits] in *;
    try discriminate; (apply proclock_flush; [exact Hl|]); cbn beta.
  - rewrite Hw, !xfer_spec, !wait_deliver by (assumption || constructor || now apply fits16_N).
    reflexivity.
  - apply ask_flush; [assumption | now apply fits16_N].
  - apply ask_flush; [assumption | cbn [encodable]; now rewrite !fits16_N].
  - unfold read_long_fuel. rewrite Nat.add_comm. cbn [Nat.add read_long_loop].
    rewrite !xfer_spec, !wait_deliver by (assumption || constructor || now apply fits16_N).
    reflexivity.
  - change (c_mtu (flush (set_lock c true))) with (c_mtu (set_lock c true)).
    destruct (_ <? _); [now apply write_long_nolock_flush|].
    apply ask_flush; [assumption | now apply fits16_N].
  - now apply write_long_nolock_flush.
Qed.

(** the server does not answer this Write Command (it does answer the commands it refuses,
    with an Error Response that [wait] drops) *)
Definition cmd_not_refused (o : op) (s : server) : Prop :=
  match o with OWriteCmd h v => snd (server_step s (QWriteCmd h v)) = None | _ => True end.

Lemma run_op_wait o c s mtu :
  clean c s mtu -> sinv s -> args_ok o -> waits o = true ->
  exists out c' s', run_op o c s = (out, c', s') /\ usable out /\ clean c' s' (next_mtu o mtu) /\ sinv s'.
Proof.
  intros Hcl Hs Ha Hw. pose proof Hcl as [Hl Hq _ _ Hm1 Hm2 Hm].
  destruct o as [m | h | h off | h | h v | h v | h v | m]; cbn [run_op args_ok waits next_mtu] in *;
    try discriminate.
  - rewrite Hw. apply Nat.leb_le in Hw.
    destruct (set_mtu_spec c s mtu m Hcl Hw Ha) as (c' & s' & He & Hcl' & Hdb).
    exists (Ok (VNat m)), c', s'. split; [exact He|]. split; [exact I|]. split; [exact Hcl'|].
    destruct Hcl', Hs. constructor; rewrite ?Hdb; auto.
  - apply proclock_steady; [exact Hcl|].
    apply ask_steady; [exact Hq | now apply fits16_N | exact good_read |].
    now rewrite (proj1 (srv_read_shape s h Hs)).
  - apply proclock_steady; [exact Hcl|].
    apply ask_steady; [exact Hq | cbn [encodable]; now rewrite !fits16_N | exact good_blob |].
    now rewrite (proj1 (srv_blob_shape s h off Hs)).
  - apply proclock_steady; [exact Hcl|].
    apply read_long_loop_steady; cbn [set_lock c_mtu]; unfold read_long_fuel; auto; lia.
  - destruct Ha as [Hh Hv]. apply proclock_steady; [exact Hcl|]. cbn beta.
    destruct (_ <? _).
    + apply write_long_nolock_steady; cbn [set_lock c_mtu]; auto; lia.
    + apply ask_steady; [exact Hq | now apply fits16_N | exact good_write | now apply srv_write_state].
  - destruct Ha as [Hh Hv]. apply proclock_steady; [exact Hcl|].
    apply write_long_nolock_steady; cbn [set_lock c_mtu]; auto; lia.
Qed.

Lemma run_op_nowait o c s mtu :
  ready c s mtu -> sinv s -> args_ok o -> waits o = false ->
  exists out c' s', run_op o c s = (out, c', s') /\ usable out /\ ready c' s' (next_mtu o mtu) /\ sinv s'
                    /\ (cmd_not_refused o s -> c_q c' = c_q c).
Proof.
  intros Hr Hs Ha Hw. pose proof Hr as [Hl Hq Hwq Hc Hm1 Hm2 Hm].
  destruct o as [m | h | h off | h | h v | h v | h v | m];
    cbn [run_op args_ok waits next_mtu cmd_not_refused] in *; try discriminate.
  - (* set_mtu below 23: nothing is sent *)
    rewrite Hw. exists (Ok VNone), c, s.
    split; [apply proclock_clean; [exact Hl | now rewrite Hw | reflexivity]|]. split; [exact I|]. auto.
  - destruct Ha as [Hh Hv]. destruct (srv_write_cmd_state s h v Hs Hv) as (Hs' & Hmtu & Herr).
    rewrite (write_command_spec h v c s Hl Hh).
    destruct (server_step s (QWriteCmd h v)) as [s' r]. cbn [fst snd] in *.
    eexists _, _, _. split; [reflexivity|]. split; [exact I|].
    split; [|split; [exact Hs'|now intros ->]]. destruct Hs' as [Hc' Hwq' _ _].
    destruct r as [m|]; constructor; cbn [deliver set_q c_q c_locked c_mtu]; auto; try congruence.
    apply Forall_app. split; [exact Hq|]. constructor; [exact Herr | constructor].
  - (* MTU exchange initiated by the server: the client's queue is not involved *)
    unfold server_set_mtu. cbn [c_cmtu]. rewrite fits16_N by assumption.
    destruct (23 <=? m) eqn:E; [apply Nat.leb_le in E|]; eexists _, _, _;
      (split; [reflexivity|]); (split; [exact I|]); [|now auto].
    destruct Hs. split; [|split]; constructor; auto.
Qed.

Lemma run_op_usable o c s mtu :
  clean c s mtu -> sinv s -> args_ok o -> cmd_not_refused o s ->
  exists out c' s', run_op o c s = (out, c', s') /\ usable out /\ clean c' s' (next_mtu o mtu) /\ sinv s'.
Proof.
  intros Hcl Hs Ha Hn. destruct (waits o) eqn:Hw; [now apply run_op_wait|].
  destruct (run_op_nowait o c s mtu (clean_ready _ _ _ Hcl) Hs Ha Hw)
    as (out & c' & s' & He & Hu & Hr & Hs' & Hq).
  exists out, c', s'. split; [exact He|]. split; [exact Hu|]. split; [|exact Hs'].
  destruct Hr. constructor; auto. rewrite (Hq Hn). apply Hcl.
Qed.

Fixpoint no_refused_cmd (ops : list op) (c : client) (s : server) : Prop :=
  match ops with
  | [] => True
  | o :: r => cmd_not_refused o s /\ (let '(_, c1, s1) := run_op o c s in no_refused_cmd r c1 s1)
  end.

Lemma run_ops_usable ops : forall c s mtu,
  clean c s mtu -> sinv s -> Forall args_ok ops -> no_refused_cmd ops c s ->
  exists outs c' s', run_ops ops c s = (outs, c', s') /\ Forall usable outs
                     /\ clean c' s' (mtu_after ops mtu) /\ sinv s'.
Proof.
  induction ops as [|o r IH]; intros c s mtu Hcl Hs Ha Hn; cbn [run_ops mtu_after fold_left].
  - exists [], c, s. auto.
  - inversion Ha as [|? ? Ha1 Ha2]; subst. destruct Hn as [Hn1 Hn2].
    destruct (run_op_usable o c s mtu Hcl Hs Ha1 Hn1) as (out & c1 & s1 & He & Hu & Hcl1 & Hs1).
    rewrite He in Hn2 |- *.
    destruct (IH c1 s1 _ Hcl1 Hs1 Ha2 Hn2) as (outs & c2 & s2 & He2 & Hu2 & Hcl2 & Hs2).
    rewrite He2. exists (out :: outs), c2, s2. auto.
Qed.

Lemma run_op_ready o c s mtu :
  ready c s mtu -> sinv s -> args_ok o ->
  exists out c' s', run_op o c s = (out, c', s') /\ usable out /\ ready c' s' (next_mtu o mtu) /\ sinv s'.
Proof.
  intros Hr Hs Ha. destruct (waits o) eqn:Hw.
  - (* as from the flushed state *)
    rewrite (run_op_flush o c s mtu Hr Ha Hw).
    destruct (run_op_wait o (flush c) s mtu (ready_flush _ _ _ Hr) Hs Ha Hw)
      as (out & c' & s' & He & Hu & Hcl & Hs').
    exists out, c', s'. auto using clean_ready.
  - destruct (run_op_nowait o c s mtu Hr Hs Ha Hw) as (out & c' & s' & He & Hu & Hr' & Hs' & _).
    exists out, c', s'. auto.
Qed.

Lemma run_ops_ready ops : forall c s mtu,
  ready c s mtu -> sinv s -> Forall args_ok ops ->
  exists outs c' s', run_ops ops c s = (outs, c', s') /\ Forall usable outs
                     /\ ready c' s' (mtu_after ops mtu) /\ sinv s'.
Proof.
  induction ops as [|o r IH]; intros c s mtu Hr Hs Ha; cbn [run_ops mtu_after fold_left].
  - exists [], c, s. auto.
  - inversion Ha as [|? ? Ha1 Ha2]; subst.
    destruct (run_op_ready o c s mtu Hr Hs Ha1) as (out & c1 & s1 & He & Hu & Hr1 & Hs1).
    rewrite He.
    destruct (IH c1 s1 _ Hr1 Hs1 Ha2) as (outs & c2 & s2 & He2 & Hu2 & Hr2 & Hs2).
    rewrite He2. exists (out :: outs), c2, s2. auto.
Qed.

Lemma wf_dbb_sound d : wf_dbb d = true -> wf_db d.
Proof.
  unfold wf_dbb. rewrite forallb_forall. intros H. split.
  - intros h u v Hlk. specialize (H _ (lookup_In _ _ _ Hlk)). cbn [fst snd] in H.
    destruct (owner_props d h); [eauto|discriminate].
  - intros h p vh u Hlk. specialize (H _ (lookup_In _ _ _ Hlk)). cbn [fst snd] in H.
    destruct (lookup d vh) as [[]|]; try discriminate. eauto.
Qed.

Lemma sinv_init d : wf_dbb d = true -> (N.of_nat (max_len d) < 65536)%N -> sinv (server_init d).
Proof. intros H1 H2. constructor; cbn; auto. now apply wf_dbb_sound. Qed.

Lemma value_at_wit : value_at d_wit 3 [0; 42]%N (repeat 9%N 30) 10.
Proof. repeat split; try reflexivity. discriminate. Qed.

Lemma nonvacuous :
  let v := repeat 5%N 329 in
  clean client_init (server_init d_wit) 23 /\ sinv (server_init d_wit)
  /\ value_at d_wit 3 [0; 42]%N (repeat 9%N 30) 10
  /\ readable_target d_wit 3 (repeat 9%N 30)
  /\ (let '(o, _, s') := client_write 3 v client_init (server_init d_wit) in
      o = Ok VTrue /\ lookup (sdb s') 3 = Some (AValue [0; 42]%N v)
      /\ fst (fst (client_read_long (read_long_fuel s') 3 client_init s')) = Ok (VBytes v)).
Proof.
  intros v. pose proof (clean_init d_wit) as Hcl.
  assert (Hv : length v = 329) by apply repeat_length.
  assert (Ht : forall x, readable_target (update d_wit 3 (AValue [0; 42]%N x)) 3 x).
  { split; [discriminate|]. left. exists [0; 42]%N, 10%N. repeat split; reflexivity. }
  split; [exact Hcl|]. split; [apply sinv_init; reflexivity|].
  split; [exact value_at_wit|]. split; [exact (Ht (repeat 9%N 30))|].
  (* the theorems apply: what [write] stores, then what [read_long] returns *)
  rewrite (write_result _ _ 23 3 _ _ 10 v Hcl value_at_wit), Hv by (rewrite Hv; reflexivity).
  change (writeable 10) with true. change (329 <=? 23 - 3) with false. cbv iota.
  rewrite tail_nil by (rewrite Hv; apply Nat.leb_le; reflexivity).
  set (s1 := set_wq _ []). split; [reflexivity|]. split; [reflexivity|].
  assert (Hcl1 : clean client_init s1 23) by (constructor; reflexivity || apply Hcl).
  now rewrite (read_long_returns_stored client_init s1 23 3 v Hcl1 eq_refl (Ht v))
    by (rewrite Hv; reflexivity).
Qed.
