(** C09 — property theorems only, each a few lines from the lemmas of Proofs.v.
    Setting of every statement: [clean c s mtu] = between two procedures (procedure lock
    free, GATT message queue empty, no prepared write pending, both sides agree on an MTU
    >= 23); [value_at d h u old p] = handle [h] holds the characteristic value [old] whose
    declaration, with properties [p], is at [h-1]; value lengths are only bounded by the
    16-bit offset field (< 65536). *)
From Coq Require Import List NArith Arith Bool.
From Whad Require Import Lib.Bytes C09.Model C09.Proofs.
Import ListNotations.

(** ** plain write *)

(** A Write Request (value of at most MTU-3 bytes) to a writable characteristic stores exactly
    the written bytes; to a non-writable one it raises WRITE_NOT_PERMITTED and stores nothing. *)
Theorem C09_write_plain_stores :
  forall c s mtu h u old p v,
    clean c s mtu -> value_at (sdb s) h u old p -> length v <= mtu - 3 ->
    client_write h v c s
    = if writeable p then (Ok VTrue, c, set_db s (update (sdb s) h (AValue u v)))
      else (Raise (EAtt E_WRITE_NOT_PERMITTED), c, s).
Proof. exact write_plain. Qed.

(** FULL STATEMENT: a [write] that reports success has stored exactly the written bytes.
    Refuted by the faithful model when the value needs a long write and is shorter than the
    stored one (KNOWN-FINDING long-write-keeps-old-tail). *)
Definition C09_write_ok_stores_statement : Prop :=
  forall c s mtu h u old p v c' s',
    clean c s mtu -> value_at (sdb s) h u old p -> (N.of_nat (length v) < 65536)%N ->
    client_write h v c s = (Ok VTrue, c', s') ->
    lookup (sdb s') h = Some (AValue u v).

Theorem C09_write_ok_stores_refuted :
  exists c s mtu h u old p v c' s',
    clean c s mtu /\ value_at (sdb s) h u old p /\ (N.of_nat (length v) < 65536)%N
    /\ client_write h v c s = (Ok VTrue, c', s')
    /\ lookup (sdb s') h <> Some (AValue u v).
Proof.
  set (r := client_write 3 (repeat 7%N 21) client_init (server_init d_wit)).
  exists client_init, (server_init d_wit), 23, 3%N, [0; 42]%N, (repeat 9%N 30), 10%N, (repeat 7%N 21),
         (snd (fst r)), (snd r).
  split; [apply clean_init|]. split; [exact value_at_wit|]. split; [reflexivity|].
  split; [vm_compute; reflexivity|]. vm_compute. intros H. discriminate H.
Qed.

Theorem C09_write_ok_stores_partial :
  forall c s mtu h u old p v c' s',
    clean c s mtu -> value_at (sdb s) h u old p -> (N.of_nat (length v) < 65536)%N ->
    (length v <= mtu - 3 \/ length old <= length v) ->
    client_write h v c s = (Ok VTrue, c', s') ->
    lookup (sdb s') h = Some (AValue u v).
Proof.
  intros c s mtu h u old p v c' s' Hcl Hva Hv Hcase He. pose proof Hva as (_ & _ & Hlk & _).
  rewrite (write_result c s mtu h u old p v Hcl Hva Hv) in He.
  destruct (writeable p); [|discriminate]. injection He as <- <-.
  destruct (length v <=? mtu - 3) eqn:E; cbn [set_db set_wq sdb].
  - now apply lookup_update_same with (a0 := AValue u old).
  - destruct Hcase as [H|H]; [apply Nat.leb_le in H; congruence|].
    rewrite tail_nil by exact H. now apply lookup_update_same with (a0 := AValue u old).
Qed.

(** what a successful [write] stores in every case, and that it touches nothing else *)
Theorem C09_write_stored_value :
  forall c s mtu h u old p v c' s',
    clean c s mtu -> value_at (sdb s) h u old p -> (N.of_nat (length v) < 65536)%N ->
    client_write h v c s = (Ok VTrue, c', s') ->
    c' = c /\ writeable p = true
    /\ lookup (sdb s') h = Some (AValue u (if length v <=? mtu - 3 then v else v ++ skipn (length v) old))
    /\ (forall h', h' <> h -> lookup (sdb s') h' = lookup (sdb s) h')
    /\ wq s' = [] /\ crashed s' = false.
Proof.
  intros c s mtu h u old p v c' s' Hcl Hva Hv He. pose proof Hva as (_ & _ & Hlk & _).
  rewrite (write_result c s mtu h u old p v Hcl Hva Hv) in He.
  destruct (writeable p); [|discriminate]. injection He as <- <-.
  split; [reflexivity|]. split; [reflexivity|].
  destruct (length v <=? mtu - 3); cbn [set_db set_wq sdb wq crashed];
    (split; [now apply lookup_update_same with (a0 := AValue u old)|]);
    (split; [intros; now apply lookup_update_other|]); split; auto; apply Hcl.
Qed.

(** a write of any length to a writable characteristic value does report success *)
Theorem C09_write_succeeds :
  forall c s mtu h u old p v,
    clean c s mtu -> value_at (sdb s) h u old p -> (N.of_nat (length v) < 65536)%N ->
    writeable p = true -> exists s', client_write h v c s = (Ok VTrue, c, s').
Proof.
  intros c s mtu h u old p v Hcl Hva Hv Hw.
  rewrite (write_result c s mtu h u old p v Hcl Hva Hv), Hw. eauto.
Qed.

(** ** long write *)

Definition C09_write_long_ok_stores_statement : Prop :=
  forall c s mtu h u old p v c' s',
    clean c s mtu -> value_at (sdb s) h u old p -> (N.of_nat (length v) < 65536)%N ->
    client_write_long h v c s = (Ok VTrue, c', s') ->
    lookup (sdb s') h = Some (AValue u v).

Theorem C09_write_long_ok_stores_refuted :
  exists c s mtu h u old p v c' s',
    clean c s mtu /\ value_at (sdb s) h u old p /\ (N.of_nat (length v) < 65536)%N
    /\ client_write_long h v c s = (Ok VTrue, c', s')
    /\ lookup (sdb s') h <> Some (AValue u v).
Proof.
  set (r := client_write_long 3 [1; 2]%N client_init (server_init d_wit)).
  exists client_init, (server_init d_wit), 23, 3%N, [0; 42]%N, (repeat 9%N 30), 10%N, [1; 2]%N,
         (snd (fst r)), (snd r).
  split; [apply clean_init|]. split; [exact value_at_wit|]. split; [reflexivity|].
  split; [vm_compute; reflexivity|]. vm_compute. intros H. discriminate H.
Qed.

(** every long write to a characteristic value, every value length, every MTU >= 23, in one
    equation: executed only when the characteristic is writable (or nothing was queued) *)
Theorem C09_write_long_result :
  forall c s mtu h u old p v,
    clean c s mtu -> value_at (sdb s) h u old p -> (N.of_nat (length v) < 65536)%N ->
    client_write_long h v c s
    = if writeable p || (length v =? 0)
      then (Ok VTrue, c, set_wq (set_db s (update (sdb s) h (AValue u (v ++ skipn (length v) old)))) [])
      else (Raise (EAtt E_WRITE_NOT_PERMITTED), c, set_wq s []).
Proof. exact write_long_result. Qed.

(** for every value length and every MTU >= 23: the long write succeeds, all chunks arrive
    (none lost, none duplicated), the prepared queue is empty afterwards, nothing else changes;
    the stored value is the written one followed by what the old value had beyond its length *)
Theorem C09_write_long_stored_value :
  forall c s mtu h u old p v,
    clean c s mtu -> value_at (sdb s) h u old p -> writeable p = true ->
    (N.of_nat (length v) < 65536)%N ->
    exists s', client_write_long h v c s = (Ok VTrue, c, s')
      /\ lookup (sdb s') h = Some (AValue u (v ++ skipn (length v) old))
      /\ (forall h', h' <> h -> lookup (sdb s') h' = lookup (sdb s) h')
      /\ wq s' = [] /\ crashed s' = false.
Proof.
  intros c s mtu h u old p v Hcl Hva Hw Hv. pose proof Hva as (_ & _ & Hlk & _).
  eexists. split; [rewrite (write_long_result c s mtu h u old p v Hcl Hva Hv), Hw; reflexivity|].
  cbn [set_db set_wq sdb wq crashed].
  split; [now apply lookup_update_same with (a0 := AValue u old)|].
  split; [intros; now apply lookup_update_other|]. split; [reflexivity | apply Hcl].
Qed.

Theorem C09_write_long_ok_stores_partial :
  forall c s mtu h u old p v c' s',
    clean c s mtu -> value_at (sdb s) h u old p -> (N.of_nat (length v) < 65536)%N ->
    length old <= length v ->
    client_write_long h v c s = (Ok VTrue, c', s') ->
    lookup (sdb s') h = Some (AValue u v).
Proof.
  intros c s mtu h u old p v c' s' Hcl Hva Hv Hlen He. pose proof Hva as (_ & _ & Hlk & _).
  rewrite (write_long_result c s mtu h u old p v Hcl Hva Hv) in He.
  destruct (writeable p || (length v =? 0)); [|discriminate]. injection He as <- <-.
  cbn [set_db set_wq sdb]. rewrite tail_nil by exact Hlen.
  now apply lookup_update_same with (a0 := AValue u old).
Qed.

(** ** reads *)

Theorem C09_read_long_returns_stored :
  forall c s mtu h S,
    clean c s mtu -> (h < 65536)%N -> readable_target (sdb s) h S ->
    (N.of_nat (length S) < 65536)%N ->
    client_read_long (read_long_fuel s) h c s = (Ok (VBytes S), c, s).
Proof. exact read_long_returns_stored. Qed.

(** termination: any fuel of one request per MTU-1 bytes plus one is enough *)
Theorem C09_read_long_fuel_enough :
  forall c s mtu h S fuel,
    clean c s mtu -> (h < 65536)%N -> readable_target (sdb s) h S ->
    (N.of_nat (length S) < 65536)%N ->
    length S / (mtu - 1) + 1 <= fuel ->
    client_read_long fuel h c s = (Ok (VBytes S), c, s).
Proof. exact read_long_fuel_enough. Qed.

Theorem C09_read_returns_prefix :
  forall c s mtu h S,
    clean c s mtu -> (h < 65536)%N -> readable_target (sdb s) h S ->
    client_read h c s = (Ok (VBytes (firstn (mtu - 1) S)), c, s).
Proof. exact read_returns_prefix. Qed.

Theorem C09_read_blob_returns_slice :
  forall c s mtu h S off,
    clean c s mtu -> (h < 65536)%N -> readable_target (sdb s) h S -> off <= length S ->
    (N.of_nat off < 65536)%N ->
    client_read_blob h off c s = (Ok (VBytes (slice off (off + (mtu - 1)) S)), c, s).
Proof.
  intros c s mtu h S off [Hl Hq _ _ _ Hm _] Hh Ht Hoff Ho16. unfold client_read_blob.
  rewrite ask_procedure
    by (assumption || apply good_blob || (cbn [encodable]; now rewrite !fits16_N)).
  rewrite (srv_blob_target s h S off Ht Hoff), Hm. reflexivity.
Qed.

(** ** write command, MTU exchange *)

Theorem C09_write_command_stores :
  forall c s mtu h u old p v,
    clean c s mtu -> value_at (sdb s) h u old p -> writeable p = true ->
    client_write_command h v c s = (Ok VTrue, c, set_db s (update (sdb s) h (AValue u v))).
Proof.
  intros c s mtu h u old p v Hcl (Hh0 & Hh & Hlk & Hp) Hwr. apply N.eqb_neq in Hh0.
  rewrite (write_command_spec h v c s (cl_lock _ _ _ Hcl) Hh).
  cbn [server_step]. unfold srv_write_cmd. now rewrite Hh0, Hlk, Hp, Hwr.
Qed.

Theorem C09_set_mtu_agrees :
  forall c s mtu m,
    clean c s mtu -> 23 <= m -> (N.of_nat m < 65536)%N ->
    exists c' s', client_set_mtu m c s = (Ok (VNat m), c', s') /\ clean c' s' m /\ sdb s' = sdb s.
Proof. exact set_mtu_spec. Qed.

(** ** failure is an error, never a truncation or a false success; the client stays usable *)

(** [ready c s mtu] = between two procedures as the client really leaves it: like [clean], but
    the GATT message queue may hold Error Responses the server sent for refused Write Commands
    (nobody waits for those).

    ANY procedure with ANY arguments on ANY well-formed database, from any ready state: the
    outcome is a value, an ATT error or a GATT timeout (never another exception, never out of
    fuel, never blocked), and the connection is ready again (lock free, no prepared write
    pending, nothing in the queue that a later procedure could take for its answer). *)
Theorem C09_failure_is_error_client_usable :
  forall o c s mtu,
    ready c s mtu -> sinv s -> args_ok o ->
    exists out c' s',
      run_op o c s = (out, c', s') /\ usable out /\ ready c' s' (next_mtu o mtu) /\ sinv s'.
Proof. exact run_op_ready. Qed.

(** "after any outcome the client is able to run the next procedure", over ANY sequence of
    procedures with any arguments (FULL statement; it was refuted by the write-command
    desynchronisation until wait_for_message was repaired) *)
Theorem C09_client_usable_after :
  forall ops c s mtu,
    ready c s mtu -> sinv s -> Forall args_ok ops ->
    exists outs c' s',
      run_ops ops c s = (outs, c', s') /\ Forall usable outs /\ ready c' s' (mtu_after ops mtu) /\ sinv s'.
Proof. exact run_ops_ready. Qed.

(** MTU HISTORIES.  Operations include the MTU exchange in both directions: [OSetMtu m]
    (GattClient.set_mtu) and [OSrvMtu m] (GattServer.set_mtu, handled on the client by
    GattClient.on_exch_mtu_request).  After ANY history -- exchanges initiated by either end, in
    any order, with any values (below 23: not sent), mixed with any procedures -- both ends use
    the same MTU [mtu_after ops mtu] (the value of the last valid exchange; the code keeps the
    last requested value, it takes no minimum), a long read returns exactly the stored value and
    a long write to a writable characteristic stores the written bytes (followed by the old
    tail, the recorded finding). *)
Theorem C09_any_mtu_history_transfers_exact :
  forall ops c s mtu,
    ready c s mtu -> sinv s -> Forall args_ok ops ->
    exists outs c' s',
      run_ops ops c s = (outs, c', s') /\ Forall usable outs
      /\ c_mtu c' = mtu_after ops mtu /\ s_cmtu s' = mtu_after ops mtu /\ 23 <= mtu_after ops mtu
      /\ (forall h S, (h < 65536)%N -> readable_target (sdb s') h S -> (N.of_nat (length S) < 65536)%N ->
            client_read_long (read_long_fuel s') h c' s' = (Ok (VBytes S), flush c', s'))
      /\ (forall h u old p v, value_at (sdb s') h u old p -> writeable p = true ->
            (N.of_nat (length v) < 65536)%N ->
            client_write_long h v c' s'
            = (Ok VTrue, flush c', set_wq (set_db s' (update (sdb s') h (AValue u (v ++ skipn (length v) old)))) [])).
Proof.
  intros ops c s mtu Hr Hs Ha.
  destruct (run_ops_ready ops c s mtu Hr Hs Ha) as (outs & c' & s' & He & Hu & Hr' & Hs').
  exists outs, c', s'. split; [exact He|]. split; [exact Hu|].
  pose proof Hr' as [_ _ _ _ M1 M2 M3]. pose proof (ready_flush _ _ _ Hr') as Hcl.
  repeat split; auto.
  - intros h S Hh Ht HS.
    change (client_read_long (read_long_fuel s') h c' s') with (run_op (OReadLong h) c' s').
    rewrite (run_op_flush (OReadLong h) c' s' _ Hr' Hh eq_refl).
    now apply read_long_returns_stored with (mtu := mtu_after ops mtu).
  - intros h u old p v Hva Hw Hv. pose proof Hva as (_ & Hh & _).
    change (client_write_long h v c' s') with (run_op (OWriteLong h v) c' s').
    rewrite (run_op_flush (OWriteLong h v) c' s' _ Hr' (conj Hh Hv) eq_refl). cbn [run_op].
    now rewrite (write_long_result _ s' _ h u old p v Hcl Hva Hv), Hw.
Qed.

(** a concrete history: server-initiated exchanges above / equal / below the client's value and
    below 23, interleaved with client-initiated ones; 300 bytes written and read long at each
    stage come back whole *)
Theorem C09_mtu_history_example :
  let v := repeat 6%N 300 in
  let '(outs, c', s') :=
    run_ops [OSrvMtu 100; OWrite 3 v; OReadLong 3; OSetMtu 50; OReadLong 3; OSrvMtu 50; OSrvMtu 30;
             OWriteLong 3 v; OReadLong 3; OSetMtu 247; OSrvMtu 22; OReadLong 3]
            client_init (server_init d_wit) in
  nth 2 outs Blocked = Ok (VBytes v) /\ nth 4 outs Blocked = Ok (VBytes v)
  /\ nth 8 outs Blocked = Ok (VBytes v) /\ nth 11 outs Blocked = Ok (VBytes v)
  /\ c_mtu c' = 247 /\ s_cmtu s' = 247.
Proof. vm_compute. repeat split; reflexivity. Qed.

(** a procedure that waits for an answer behaves EXACTLY as if the stale command errors were
    not in the queue: all the theorems stated from a [clean] state apply from a [ready] one *)
Theorem C09_stale_command_errors_ignored :
  forall o c s mtu,
    ready c s mtu -> args_ok o -> waits o = true ->
    run_op o c s = run_op o (flush c) s /\ clean (flush c) s mtu.
Proof.
  intros o c s mtu Hr Ha Hw. split; [now apply run_op_flush with (mtu := mtu) | now apply ready_flush].
Qed.

(** the former witness of the desynchronisation (refused Write Command, then reads of two
    attributes) now returns each attribute's own value; a second refused command followed by a
    long write and a long read works as well *)
Theorem C09_refused_command_regression :
  run_ops [OWriteCmd 99 [1%N]; ORead 3; ORead 4; OWriteCmd 0 []; OWriteLong 3 (repeat 5%N 40); OReadLong 3]
          client_init (server_init d_wit)
  = ([Ok VTrue; Ok (VBytes (repeat 9%N 22)); Ok (VBytes [1; 2]%N); Ok VTrue; Ok VTrue; Ok (VBytes (repeat 5%N 40))],
     client_init,
     server_init (update d_wit 3 (AValue [0; 42]%N (repeat 5%N 40)))).
Proof. vm_compute. reflexivity. Qed.

(** procedures that cannot complete do raise *)
Theorem C09_read_not_permitted_raises :
  forall c s mtu h u v p,
    clean c s mtu -> value_at (sdb s) h u v p -> readable p = false ->
    client_read h c s = (Raise (EAtt E_READ_NOT_PERMITTED), c, s)
    /\ client_read_long (read_long_fuel s) h c s = (Raise (EAtt E_READ_NOT_PERMITTED), c, s).
Proof.
  intros c s mtu h u v p Hcl (Hh0 & Hh & Hlk & Hp) Hr. apply N.eqb_neq in Hh0.
  apply read_refused with (mtu := mtu); [exact Hcl | exact Hh |].
  cbn [server_step]. unfold srv_read. now rewrite Hh0, Hlk, Hp, Hr.
Qed.

Theorem C09_unknown_handle_raises :
  forall c s mtu h v,
    clean c s mtu -> (h < 65536)%N -> h <> 0%N -> lookup (sdb s) h = None -> length v <= mtu - 3 ->
    client_read h c s = (Raise (EAtt E_ATTR_NOT_FOUND), c, s)
    /\ client_write h v c s = (Raise (EAtt E_ATTR_NOT_FOUND), c, s).
Proof.
  intros c s mtu h v Hcl Hh Hh0 Hlk Hlen. apply N.eqb_neq in Hh0. split.
  - apply read_refused with (mtu := mtu); [exact Hcl | exact Hh |].
    cbn [server_step]. unfold srv_read. now rewrite Hh0, Hlk.
  - rewrite (write_short c s mtu h v Hcl Hh Hlen). cbn [server_step]. unfold srv_write.
    now rewrite Hh0, Hlk.
Qed.

Theorem C09_write_descriptor_raises :
  forall c s mtu h u x v,
    clean c s mtu -> (h < 65536)%N -> h <> 0%N -> lookup (sdb s) h = Some (ADesc u x) ->
    length v <= mtu - 3 ->
    client_write h v c s = (Raise (EAtt E_WRITE_NOT_PERMITTED), c, s).
Proof.
  intros c s mtu h u x v Hcl Hh Hh0 Hlk Hlen. apply N.eqb_neq in Hh0.
  rewrite (write_short c s mtu h v Hcl Hh Hlen). cbn [server_step]. unfold srv_write.
  now rewrite Hh0, Hlk.
Qed.

Theorem C09_write_long_not_permitted_raises :
  forall c s mtu h u old p v,
    clean c s mtu -> value_at (sdb s) h u old p -> writeable p = false -> v <> [] ->
    (N.of_nat (length v) < 65536)%N ->
    client_write_long h v c s = (Raise (EAtt E_WRITE_NOT_PERMITTED), c, set_wq s []).
Proof.
  intros c s mtu h u old p v Hcl Hva Hw Hne Hv.
  rewrite (write_long_result c s mtu h u old p v Hcl Hva Hv), Hw. now destruct v.
Qed.

(** A long write (and a [write] taking the long path) to anything but a characteristic value is
    refused by the first Prepare Write and raises: unknown handle INVALID_HANDLE, CCCD
    REQUEST_NOT_SUPPORTED, service / declaration / other descriptor WRITE_NOT_PERMITTED; nothing
    is queued, nothing stored ([prep_refusal] gives the code). *)
Theorem C09_write_long_non_value_raises :
  forall c s mtu h v code,
    clean c s mtu -> (h < 65536)%N -> prep_refusal (lookup (sdb s) h) = Some code -> v <> [] ->
    client_write_long h v c s = (Raise (EAtt code), c, s)
    /\ (mtu - 3 < length v -> client_write h v c s = (Raise (EAtt code), c, s)).
Proof.
  intros c s mtu h v code Hcl Hh Hr Hne.
  assert (H : client_write_long h v c s = (Raise (EAtt code), c, s))
    by (rewrite (write_long_refused c s mtu h v code Hcl Hh Hr); now destruct v).
  split; [exact H|]. intros Hlen. apply Nat.ltb_lt in Hlen.
  now rewrite client_write_cases, (cl_cmtu _ _ _ Hcl), Hlen.
Qed.

(** WHATEVER the handle holds: a long write that reports success has stored the written bytes in
    a characteristic value, followed by what the old value had beyond their length (the only
    recorded exception to "stored = written", KNOWN-FINDING long-write-keeps-old-tail), and
    touched nothing else; or there was no byte to write and nothing changed. *)
Theorem C09_write_long_ok_stores_any_attribute :
  forall c s mtu h v c' s',
    clean c s mtu -> (h < 65536)%N -> h <> 0%N -> wf_db (sdb s) -> (N.of_nat (length v) < 65536)%N ->
    client_write_long h v c s = (Ok VTrue, c', s') ->
    (exists u old, lookup (sdb s) h = Some (AValue u old)
                   /\ lookup (sdb s') h = Some (AValue u (v ++ skipn (length v) old))
                   /\ (forall h', h' <> h -> lookup (sdb s') h' = lookup (sdb s) h'))
    \/ (v = [] /\ sdb s' = sdb s).
Proof.
  intros c s mtu h v c' s' Hcl Hh Hh0 W Hv He.
  destruct (prep_refusal_cases _ h W) as [[code Er] | (u & old & p & Elk & Hp)].
  - (* not a characteristic value: only the empty write succeeds *)
    right. rewrite (write_long_refused c s mtu h v code Hcl Hh Er) in He.
    destruct v; [now injection He as <- <- | discriminate].
  - left. exists u, old. split; [exact Elk|].
    rewrite (write_long_result c s mtu h u old p v Hcl (conj Hh0 (conj Hh (conj Elk Hp))) Hv) in He.
    destruct (writeable p || (length v =? 0)); [|discriminate]. injection He as <- <-.
    cbn [set_db set_wq sdb].
    split; [now apply lookup_update_same with (a0 := AValue u old) | intros; now apply lookup_update_other].
Qed.

(** Non-vacuity: a concrete database meets the hypotheses; 329 bytes at MTU 23 (19 chunks) are
    stored entirely and read back entirely (15 requests). *)
Example C09_nonvacuous :
  let v := repeat 5%N 329 in
  clean client_init (server_init d_wit) 23 /\ sinv (server_init d_wit)
  /\ value_at d_wit 3 [0; 42]%N (repeat 9%N 30) 10
  /\ readable_target d_wit 3 (repeat 9%N 30)
  /\ (let '(o, _, s') := client_write 3 v client_init (server_init d_wit) in
      o = Ok VTrue /\ lookup (sdb s') 3 = Some (AValue [0; 42]%N v)
      /\ fst (fst (client_read_long (read_long_fuel s') 3 client_init s')) = Ok (VBytes v)).
Proof. exact nonvacuous. Qed.
