(** C13 — property theorems only, each a lemma of Proofs.v or a few lines from them.
    Every theorem holds for an ARBITRARY block function [E] with 16-byte outputs
    (AES-128 in the implementation): nothing about AES is assumed. *)
From Coq Require Import List NArith Arith Bool Lia.
From Whad Require Import Lib.Bytes Lib.Xor Lib.Aes Lib.Ccm C13.Model C13.Proofs.
Import ListNotations.

(** Inverse: a PDU (header, length, payload; any payload length, in particular 0..251)
    encrypted by a manager is decrypted to the original header and payload by a manager in
    the same state, for every key material, direction, counter value and tolerance >= 1;
    the receiver's counters are left where they were (the caller increments). *)
Theorem C13_decrypt_encrypt :
  forall E, (forall k b, length (E k b) = 16) ->
  forall (st : mgr) (pdu : bytes) (d : dir) (tol : nat),
    2 <= length pdu -> 1 <= tol ->
    exists c, encrypt E st pdu d = Ok c /\ decrypt E st c d tol = (st, Ok (pdu, true)).
Proof. exact decrypt_encrypt. Qed.

(** The same when the sender's counter is ahead by k < tolerance (k PDUs were lost):
    the receiver recovers the PDU and its counter catches up with the sender's. The
    premise [rejects_from] says the MIC is not valid at the k earlier counters the receiver
    tries first (a 32-bit MAC collision there would be accepted; see
    [C13_tamper_always_fails_refuted]). *)
Theorem C13_decrypt_encrypt_skew :
  forall E, (forall k b, length (E k b) = 16) ->
  forall (tx rx : mgr) (pdu : bytes) (d : dir) (tol k : nat) (c : bytes),
    2 <= length pdu -> sk tx = sk rx -> iv tx = iv rx ->
    cnt tx d = (cnt rx d + N.of_nat k)%N -> k < tol ->
    encrypt E tx pdu d = Ok c ->
    rejects_from E rx d (cnt rx d) k c = true ->
    decrypt E rx c d tol = (set_cnt rx d (cnt tx d), Ok (pdu, true)).
Proof.
  intros E HE tx rx pdu d tol k c Hl Hk Hi Hc Hlt He Hr. destruct (two_bytes pdu Hl) as (h & l & rest & ->).
  rewrite encrypt_shape in He. injection He as He.
  exact (decrypt_genuine E HE tx rx h l rest d tol k c Hk Hi Hc Hlt (eq_sym He) Hr).
Qed.

(** Histories: any sequence of PDUs in both directions with arbitrary per-direction loss
    patterns ([link_ok]: fewer than [tol] consecutive losses per direction, no MIC collision
    at the skipped counters). Every delivered PDU is recovered exactly, in order. *)
Theorem C13_decrypt_encrypt_sequence :
  forall E, (forall k b, length (E k b) = 16) ->
  forall (tol : nat) (st : mgr) (evs : list event),
    pdus_ok evs -> link_ok E tol st st evs = true ->
    run_link E tol st st evs = delivered_pdus evs.
Proof. intros E HE tol st evs. apply (run_link_correct E HE), follows_refl. Qed.

(** Without losses nothing is assumed at all. *)
Theorem C13_decrypt_encrypt_sequence_no_loss :
  forall E, (forall k b, length (E k b) = 16) ->
  forall (tol : nat) (st : mgr) (evs : list event),
    1 <= tol -> pdus_ok evs -> Forall (fun e : event => snd e = true) evs ->
    run_link E tol st st evs = delivered_pdus evs.
Proof.
  intros E HE tol st evs Ht Hp Hall.
  apply (run_link_correct E HE); [apply follows_refl|exact Hp|]. apply link_ok_no_loss; assumption.
Qed.

(** decrypt (the retry loop with counter increments and the restore) computes exactly:
    try cnt, cnt+1, .., cnt+tol-1; accept at the first counter whose recomputed MIC equals
    the received one, leaving the counter there; else fail with the state unchanged. *)
Theorem C13_decrypt_is_spec :
  forall E, (forall k b, length (E k b) = 16) ->
  forall (st : mgr) (pdu : bytes) (d : dir) (tol : nat),
    decrypt E st pdu d tol = decrypt_spec_of E st pdu d tol.
Proof. exact decrypt_spec. Qed.

(** Decryption succeeds IFF the received MIC equals the MIC recomputed from
    (session key, IV, direction, counter, masked header, decrypted payload) for one of the
    tolerated counters. *)
Theorem C13_accept_iff_tag :
  forall E, (forall k b, length (E k b) = 16) ->
  forall (st : mgr) (pdu : bytes) (d : dir) (tol : nat), pdu <> [] ->
    (exists st' p, decrypt E st pdu d tol = (st', Ok (p, true))) <->
    (exists k, k < tol /\
       mic_of pdu = mic_for E st d (cnt st d + N.of_nat k) (hd 0%N pdu)
                            (plain_at E st d (cnt st d + N.of_nat k) (body_of pdu))).
Proof. exact accept_iff_tag. Qed.

Theorem C13_accept_result :
  forall E, (forall k b, length (E k b) = 16) ->
  forall (st : mgr) (pdu : bytes) (d : dir) (tol : nat) (st' : mgr) (p : bytes), pdu <> [] ->
    decrypt E st pdu d tol = (st', Ok (p, true)) <->
    exists k, k < tol /\ rejects_from E st d (cnt st d) k pdu = true /\
              accepts_at E st d (cnt st d + N.of_nat k) pdu = true /\
              st' = set_cnt st d (cnt st d + N.of_nat k) /\
              p = firstn 2 pdu ++ plain_at E st d (cnt st d + N.of_nat k) (body_of pdu).
Proof.
  intros E HE st pdu d tol st' p Hne. rewrite (decrypt_success_iff E HE) by exact Hne. split.
  - intros (c & Hf & -> & ->). apply (first_accept_some E HE) in Hf as (k & Hk & -> & Hr & Ha).
    exists k. auto.
  - intros (k & Hk & Hr & Ha & -> & ->). eexists. split; [|auto].
    apply (first_accept_some E HE). exists k. auto.
Qed.

(** None of IV, direction, counter (39 bits), masked header bits, payload is left out of
    what the MIC is computed over: the CBC-MAC input is injective in all of them. *)
Theorem C13_format_injective :
  forall (ivb ivb' : bytes) (d d' : dir) (c c' h h' : N) (pt pt' : bytes),
    length ivb = length ivb' -> (c < two39)%N -> (c' < two39)%N ->
    (N.of_nat (length pt) < 65536)%N -> (N.of_nat (length pt') < 65536)%N ->
    auth_blocks_of ivb d c h pt = auth_blocks_of ivb' d' c' h' pt' ->
    ivb = ivb' /\ d = d' /\ c = c' /\ N.land h header_mask = N.land h' header_mask /\ pt = pt'.
Proof. exact format_injective. Qed.

(** ... and the session key input / IV are injective in (SKDm, IVm, SKDs, IVs). *)
Theorem C13_session_material_injective :
  forall (m m' : material),
    (m_skd m < two64)%N -> (s_skd m < two64)%N -> (m_iv m < two32)%N -> (s_iv m < two32)%N ->
    (m_skd m' < two64)%N -> (s_skd m' < two64)%N -> (m_iv m' < two32)%N -> (s_iv m' < two32)%N ->
    session_skd m = session_skd m' -> session_iv m = session_iv m' -> m = m'.
Proof.
  intros m m' A1 A2 A3 A4 B1 B2 B3 B4 Hs Hi.
  apply session_skd_inj in Hs as [? ?]; try assumption. apply session_iv_inj in Hi as [? ?]; try assumption.
  destruct m, m'; cbn in *; subst; reflexivity.
Qed.

(** Tamper evidence, conditional: if the received MIC differs from the MIC recomputed over
    the received (tampered) data at each tolerated counter, decryption reports failure and
    the manager is unchanged. Covers ciphertext, MIC and masked-header changes, a wrong
    key, IV or direction (they all change what is recomputed). *)
Theorem C13_tamper_fails_if_mac_differs :
  forall E, (forall k b, length (E k b) = 16) ->
  forall (st : mgr) (pdu : bytes) (d : dir) (tol : nat),
    pdu <> [] -> 1 <= tol ->
    rejects_from E st d (cnt st d) tol pdu = true ->
    exists p, decrypt E st pdu d tol = (st, Ok (p, false)).
Proof. exact tamper_fails_if_mac_differs. Qed.

(** Unconditional special case: changing only the integrity code is always detected at the
    sender's counter. *)
Theorem C13_mic_change_rejected :
  forall E, (forall k b, length (E k b) = 16) ->
  forall (st : mgr) (h l : N) (rest : bytes) (d : dir) (mic' : bytes),
    length mic' = 4 -> mic' <> mic_for E st d (cnt st d) h rest ->
    accepts_at E st d (cnt st d)
      (h :: l :: ccm_keystream_xor E 2 (sk st) (generate_nonce st d) rest ++ mic') = false.
Proof.
  intros E HE st h l rest d mic' H4 Hne. rewrite (accepts_at_shape E HE) by exact H4.
  change (ccm_keystream_xor E 2 (sk st) (generate_nonce st d) rest) with (plain_at E st d (cnt st d) rest).
  rewrite (plain_at_involutive E HE). apply not_true_iff_false. rewrite bytes_eqb_eq. exact Hne.
Qed.

(** A decryption that does not succeed (reported failure or exception) leaves the whole
    manager state, hence both counters, unchanged. Unconditional. *)
Theorem C13_counters_unchanged_on_failure :
  forall E, (forall k b, length (E k b) = 16) ->
  forall (st : mgr) (pdu : bytes) (d : dir) (tol : nat) (st' : mgr) (o : outcome (bytes * bool)),
    decrypt E st pdu d tol = (st', o) -> (forall p, o <> Ok (p, true)) -> st' = st.
Proof. exact counters_unchanged_on_failure. Qed.

(** A counter further off than the tolerated skew: rejected, state unchanged (conditional on
    the MIC not colliding at the tol counters tried). *)
Theorem C13_skew_beyond_tolerance_rejected :
  forall E, (forall k b, length (E k b) = 16) ->
  forall (tx rx : mgr) (pdu : bytes) (d : dir) (tol : nat) (c : bytes),
    sk tx = sk rx -> iv tx = iv rx -> 1 <= tol ->
    (cnt rx d + N.of_nat tol <= cnt tx d)%N ->
    encrypt E tx pdu d = Ok c ->
    rejects_from E rx d (cnt rx d) tol c = true ->
    exists p, decrypt E rx c d tol = (rx, Ok (p, false)).
Proof. exact skew_beyond_tolerance_rejected. Qed.

(** The passive decryptor, given the right key and the material of the connection, starting
    from an empty cache, recovers exactly the plaintext PDU (header, length, payload) of every
    captured PDU of a connection, both directions interleaved, the sniffer missing at most
    one PDU in a row per direction ([capture_ok]: also no MIC collision at the counters /
    direction tried before the right one). *)
Theorem C13_decryptor_recovers_plaintext :
  forall E, (forall k b, length (E k b) = 16) ->
  forall (key : bytes) (mat : material) (st0 : mgr) (evs : list event),
    mk_manager E key mat = Ok st0 ->
    pdus_ok evs -> capture_ok E st0 st0 evs = true ->
    snd (attempt_all E {| keys := [key]; mats := [mat]; managers := [] |} (capture E st0 evs))
    = captured_plain evs.
Proof. exact decryptor_recovers_plaintext. Qed.

(** The decryptor's lists: materials are tried in order (index i) and, for each, the keys in
    order; managers are cached per (key, material index). Combinations tried before the right
    one do not matter as long as they reject the PDU and leave the cache as it is
    ([combo_rejects]); the first accepting combination gives the result. Arbitrary state. *)
Theorem C13_decryptor_material_list :
  forall E, (forall k b, length (E k b) = 16) ->
  forall (ds : dstate) (pdu : bytes) (ms1 : list material) (mat : material) (ms2 : list material)
         (ks1 : list bytes) (key : bytes) (ks2 : list bytes) (mgrs' : list ((bytes * N) * mgr)) (p : bytes),
    mats ds = ms1 ++ mat :: ms2 -> keys ds = ks1 ++ key :: ks2 ->
    (N.eqb (nth 1 pdu 0%N) 0 && N.eqb (N.land (nth 0 pdu 0%N) 3) 1)%bool = false ->
    Forall (fun im => Forall (combo_rejects E (managers ds) pdu (fst im) (snd im)) (keys ds)) (indexed 0 ms1) ->
    Forall (combo_rejects E (managers ds) pdu (N.of_nat (length ms1)) mat) ks1 ->
    try_key E (managers ds) key (N.of_nat (length ms1)) mat pdu = (mgrs', Ok (Some p)) ->
    attempt E ds pdu = ({| keys := keys ds; mats := mats ds; managers := mgrs' |}, Ok (Some p)).
Proof. exact attempt_material_list. Qed.

(** Per PDU, from an arbitrary decryptor state: a captured PDU of ANY session whose key and
    material the decryptor holds, anywhere in its lists, is recovered exactly. *)
Theorem C13_decryptor_recovers_multi_session_pdu :
  forall E, (forall k b, length (E k b) = 16) ->
  forall (ds : dstate) (ms1 : list material) (mat : material) (ms2 : list material)
         (ks1 : list bytes) (key : bytes) (ks2 : list bytes) (tx rx : mgr) (d : dir) (h l : N) (rest c : bytes),
    mats ds = ms1 ++ mat :: ms2 -> keys ds = ks1 ++ key :: ks2 ->
    match lookup key (N.of_nat (length ms1)) (managers ds) with Some m => Ok m | None => mk_manager E key mat end = Ok rx ->
    sk tx = sk rx -> iv tx = iv rx -> (cnt rx d <= cnt tx d)%N ->
    encrypt E tx (h :: l :: rest) d = Ok c ->
    let a := air_pdu c in
    let gap := N.to_nat (cnt tx d - cnt rx d) in
    gap < 2 -> rejects_from E rx d (cnt rx d) gap a = true ->
    match d with M2S => true | S2M => rejects_from E rx M2S (cnt rx M2S) 2 a end = true ->
    Forall (fun im => Forall (combo_rejects E (managers ds) a (fst im) (snd im)) (keys ds)) (indexed 0 ms1) ->
    Forall (combo_rejects E (managers ds) a (N.of_nat (length ms1)) mat) ks1 ->
    attempt E ds a
    = ({| keys := keys ds; mats := mats ds;
          managers := store key (N.of_nat (length ms1)) (incr (set_cnt rx d (cnt tx d)) d) (managers ds) |},
       Ok (Some (h :: l :: rest))).
Proof. exact decryptor_multi_session_pdu. Qed.

(** Whole captures made of several successive sessions (induction over the list of sessions,
    each by induction over its PDUs): for ANY list of sessions whose keys and materials sit
    anywhere in the decryptor's lists ([sess_wf]; keys may repeat, e.g. the same LTK with fresh
    SKD/IV), from ANY cache state, every captured PDU of every session is recovered, in
    order. [sessions_ok]: no manager is cached yet for a session's (key, material) when it
    starts, and its PDUs are rejected by the combinations tried before the right one (MAC
    condition, as in [capture_ok]). *)
Theorem C13_decryptor_recovers_sessions :
  forall E, (forall k b, length (E k b) = 16) ->
  forall (ks : list bytes) (ms : list material) (l : list sess) (mgrs : list ((bytes * N) * mgr)),
    Forall (sess_wf E ks ms) l -> sessions_ok E mgrs l ->
    snd (attempt_all E {| keys := ks; mats := ms; managers := mgrs |}
                     (concat (map (fun s => capture E (s_st0 s) (s_evs s)) l)))
    = concat (map (fun s => captured_plain (s_evs s)) l).
Proof. exact decryptor_recovers_sessions. Qed.

(** The formerly refuted statement: two successive sessions under the SAME key with fresh
    SKD/IV (reconnection of bonded devices) are both recovered (managers cached per key AND
    material). The second session's PDUs are first tried with the first session's cached
    manager, where they must be rejected (MAC condition [session_ok]). *)
Definition C13_decryptor_same_key_sessions_statement : Prop :=
  forall E, (forall k b, length (E k b) = 16) ->
  forall (key : bytes) (m1 m2 : material) (st1 st2 : mgr) (evs1 evs2 : list event),
    mk_manager E key m1 = Ok st1 -> mk_manager E key m2 = Ok st2 ->
    pdus_ok evs1 -> pdus_ok evs2 ->
    capture_ok E st1 st1 evs1 = true -> capture_ok E st2 st2 evs2 = true ->
    session_ok E [] key [] [m1] m2 (session_final key [] [] st1 st1 evs1) st2 st2 evs2 ->
    snd (attempt_all E {| keys := [key]; mats := [m1; m2]; managers := [] |}
                     (capture E st1 evs1 ++ capture E st2 evs2))
    = captured_plain evs1 ++ captured_plain evs2.

Theorem C13_decryptor_same_key_sessions : C13_decryptor_same_key_sessions_statement.
Proof. exact same_key_sessions. Qed.

Theorem C13_decryptor_ignores_empty_pdu :
  forall E (ds : dstate) (h : N) (rest : bytes),
    mats ds <> [] -> keys ds <> [] -> N.land h 3 = 1%N ->
    attempt E ds (h :: 0%N :: rest) = (ds, Ok None).
Proof.
  intros E ds h rest Hm Hks Hl. unfold attempt. destruct (mats ds); [contradiction|]. destruct (keys ds); [contradiction|].
  cbn [nth]. rewrite Hl. reflexivity.
Qed.

(** The stack (LinkLayer of whad/ble/stack/llm, crypto manager kept per connection handle).
    For ALL sequences of encryption start procedures run one after the other — any number,
    same or different connection handles, central (start_encryption, LL_ENC_RSP,
    LL_START_ENC_REQ) or peripheral (LL_ENC_REQ) side, any LTK/SKD/IV/rand/ediv, from ANY
    link-layer state in which the handles are registered — the k-th [set_encryption] handed to
    the PHY carries exactly e(LTK, SKDs || SKDm), IVm || IVs, LTK, rand, ediv of the k-th
    procedure: nothing of an earlier procedure survives into a later one. *)
Theorem C13_stack_procedures :
  forall E (procs : list proc) (st : lls),
    Forall (fun p => proc_wfb p = true /\ registered (p_h p) st = true) procs ->
    set_enc_only (snd (ll_run E false st (concat (map proc_events procs)))) = map (proc_expected E) procs.
Proof. exact stack_procedures. Qed.

(** What happens on a handle depends only on the events of that handle: the outputs of the
    events of [h] during a run of an ARBITRARY event sequence are the outputs of running the
    events of [h] alone (from any state agreeing with the start state on [h]). *)
Theorem C13_stack_handle_independence :
  forall E (h : N) (evs : list levent) (st : lls),
    outs_of E false h st evs = snd (ll_run E false st (on_handle h evs)).
Proof. intros E h evs st. apply handle_independence, agree_refl. Qed.

(** Arbitrary interleavings: whatever events of other handles (procedures, registrations,
    disconnections, stray PDUs) are interleaved, in whatever order, with the procedures [procs]
    run on handle [h], the PHY is given for [h] exactly the material of each of them. *)
Theorem C13_stack_interleavings :
  forall E (h : N) (procs : list proc) (evs : list levent) (st : lls),
    registered h st = true ->
    Forall (fun p => proc_wfb p = true /\ p_h p = h) procs ->
    on_handle h evs = concat (map proc_events procs) ->
    set_enc_only (outs_of E false h st evs) = map (proc_expected E) procs.
Proof.
  intros E h procs evs st Hreg Hall Hev. rewrite (handle_independence E h evs st st (agree_refl h st)), Hev.
  apply stack_procedures. eapply Forall_impl; [|exact Hall].
  intros p [Hw Hh]. rewrite Hh. auto.
Qed.

(** The statement that used to be refuted (two central procedures on different handles, PDUs
    interleaved) now holds ... *)
Definition C13_stack_interleaved_statement : Prop := stack_interleaved_statement_for false.

Theorem C13_stack_interleaved : C13_stack_interleaved_statement.
Proof. intros E _ st p q. apply stack_interleaved. Qed.

(** ... and is still false for the behaviour before the repair (one manager attribute shared by
    all handles): regression anchor for seeded/C13/revert-llcm-per-handle. *)
Theorem C13_stack_shared_manager_refuted : ~ stack_interleaved_statement_for true.
Proof. exact stack_shared_manager_refuted. Qed.

(** A disconnection drops the manager of the handle: a new connection reusing the handle is
    never given the previous connection's material. *)
Theorem C13_stack_no_manager_after_disconnect :
  forall E (h : N) (st : lls),
    snd (ll_run E false st [EDisc h; EConn h; EStartEncReq h]) = [LNone; LNone; LRaise AttributeError].
Proof.
  intros E h st. cbn [ll_run ll_step with_conns conns llcm mkey].
  rewrite cfind_cset, mfind_mdel, N.eqb_refl. reflexivity.
Qed.

(** Central and peripheral side of one procedure hand the same session key and IV to their PHY. *)
Theorem C13_stack_both_roles_same_key :
  forall E (p q : proc) (st st' : lls),
    proc_wfb p = true -> registered (p_h p) st = true -> registered (p_h q) st' = true ->
    p_central p = true -> p_central q = false ->
    p_h q = p_h p -> p_key q = p_key p -> p_rand q = p_rand p -> p_ediv q = p_ediv p ->
    p_skdm q = p_skdm p -> p_ivm q = p_ivm p -> p_skds q = p_skds p -> p_ivs q = p_ivs p ->
    set_enc_only (snd (ll_run E false st (proc_events p))) = set_enc_only (snd (ll_run E false st' (proc_events q))).
Proof.
  intros E p q st st' Hwf Hr Hr' _ _ Hh Hk H1 H2 H3 H4 H5 H6.
  assert (Hwfq : proc_wfb q = true) by (unfold proc_wfb in *; rewrite Hk, H3, H4, H5, H6; exact Hwf).
  rewrite (proj1 (proc_run E p st Hwf Hr)), (proj1 (proc_run E q st' Hwfq Hr')).
  unfold proc_expected, proc_mat. rewrite Hh, Hk, H1, H2, H3, H4, H5, H6. reflexivity.
Qed.

(** "Changing ANY protected bit makes decryption fail", for every block function: not a
    theorem. It is false for some [E] (below: the constant function, for which every MIC is
    0000), and for AES it is a statement about the collision probability of a 32-bit MAC,
    which no proof assistant can give unconditionally. What is proved instead: the check IS
    made over every protected bit ([C13_accept_iff_tag], [C13_format_injective]); the
    every-single-bit sweep runs on the real implementation in the oracle. *)
Definition C13_tamper_always_fails_statement : Prop := tamper_always_fails_statement.

Theorem C13_tamper_always_fails_refuted : ~ C13_tamper_always_fails_statement.
Proof. exact tamper_always_fails_refuted. Qed.

(** The premises of the conditional theorems are met by concrete connections (AES-128):
    a link with a lost PDU in each direction, and a capture with both directions and a
    missed PDU ([nv_key], [nv_mat], [nv_evs] in Model.v). *)
Example C13_nonvacuous :
  match mk_manager aes128_enc nv_key nv_mat with
  | Ok st0 => link_ok aes128_enc 2 st0 st0 nv_evs = true /\ capture_ok aes128_enc st0 st0 nv_evs = true
              /\ pdus_ok nv_evs
              /\ length (delivered_pdus nv_evs) = 4
  | Raise _ => False
  end.
Proof.
  (* [capture_ok] is evaluated (AES-CCM on six PDUs); [link_ok] follows from it *)
  assert (Hp : pdus_ok nv_evs) by (repeat constructor).
  assert (C : match mk_manager aes128_enc nv_key nv_mat with
              | Ok st0 => capture_ok aes128_enc st0 st0 nv_evs = true
              | Raise _ => False
              end) by (vm_compute; reflexivity).
  destruct (mk_manager aes128_enc nv_key nv_mat) as [st0|]; [|exact C].
  repeat split; [|exact C|exact Hp].
  exact (capture_ok_link_ok aes128_enc aes128_enc_length nv_evs st0 st0 Hp C).
Qed.
