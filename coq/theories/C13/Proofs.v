(** C13 — lemmas: the manager ([decrypt] is its specification; success and failure read off it;
    PDUs that [encrypt] produced; connections with losses), the authenticated encoding, the
    passive decryptor, the stack's encryption start procedure. [E] is an arbitrary block function;
    manager and decryptor need its outputs to be 16 bytes long. *)
From Coq Require Import List NArith ZArith Arith Bool Lia ZifyBool ZifyN ZifyNat.
From Whad Require Import Lib.Lists Lib.Bytes Lib.PyOps Lib.Xor Lib.Aes Lib.Ccm C13.Model.
Import ListNotations.

Lemma set_cnt_same st d : set_cnt st d (cnt st d) = st.
Proof. destruct st, d; reflexivity. Qed.

Lemma cnt_set_cnt st d v : cnt (set_cnt st d v) d = v.
Proof. destruct st, d; reflexivity. Qed.

Lemma set_cnt_set_cnt st d a b : set_cnt (set_cnt st d a) d b = set_cnt st d b.
Proof. destruct st, d; reflexivity. Qed.

Lemma sk_set_cnt st d v : sk (set_cnt st d v) = sk st.
Proof. destruct st, d; reflexivity. Qed.

Lemma iv_set_cnt st d v : iv (set_cnt st d v) = iv st.
Proof. destruct st, d; reflexivity. Qed.

Lemma cnt_set_cnt_other st d d' v : d <> d' -> cnt (set_cnt st d v) d' = cnt st d'.
Proof. destruct st, d, d'; intros H; try reflexivity; contradiction H; reflexivity. Qed.

Lemma set_cnt_incr st d v : set_cnt (incr st d) d v = set_cnt st d v.
Proof. apply set_cnt_set_cnt. Qed.

Lemma cnt_incr st d : cnt (incr st d) d = (cnt st d + 1)%N.
Proof. apply cnt_set_cnt. Qed.

Lemma cnt_incr_other st d d' : d <> d' -> cnt (incr st d) d' = cnt st d'.
Proof. apply cnt_set_cnt_other. Qed.

Lemma sk_incr st d : sk (incr st d) = sk st.
Proof. apply sk_set_cnt. Qed.

Lemma iv_incr st d : iv (incr st d) = iv st.
Proof. apply iv_set_cnt. Qed.

Lemma dir_eq_dec (a b : dir) : {a = b} + {a <> b}.
Proof. decide equality. Qed.

(** the invariant of a connection, whether a PDU is lost or delivered: [rx] decrypts what [tx] encrypts *)
Definition follows (tx rx : mgr) : Prop :=
  sk tx = sk rx /\ iv tx = iv rx /\ forall d, (cnt rx d <= cnt tx d)%N.

Lemma follows_refl st : follows st st.
Proof. repeat split. intros d. apply N.le_refl. Qed.

Lemma follows_lost tx rx d : follows tx rx -> follows (incr tx d) rx.
Proof.
  intros (Hk & Hi & Hle). repeat split.
  - rewrite sk_incr. exact Hk.
  - rewrite iv_incr. exact Hi.
  - intros d'. specialize (Hle d'). destruct (dir_eq_dec d d') as [<-|Hne].
    + rewrite cnt_incr. lia.
    + rewrite cnt_incr_other by exact Hne. exact Hle.
Qed.

Lemma follows_delivered tx rx d :
  follows tx rx -> follows (incr tx d) (incr (set_cnt rx d (cnt tx d)) d).
Proof.
  intros (Hk & Hi & Hle). repeat split.
  - rewrite !sk_incr, sk_set_cnt. exact Hk.
  - rewrite !iv_incr, iv_set_cnt. exact Hi.
  - intros d'. destruct (dir_eq_dec d d') as [<-|Hne].
    + rewrite !cnt_incr, cnt_set_cnt. apply N.le_refl.
    + rewrite !cnt_incr_other, cnt_set_cnt_other by exact Hne. apply Hle.
Qed.

(** the number of PDUs the receiver missed, as [link_ok] and [capture_ok] compute it *)
Lemma gap_spec (a b : N) : (b <= a)%N -> a = (b + N.of_nat (N.to_nat (a - b)))%N.
Proof. lia. Qed.

Lemma two_bytes (pdu : bytes) : 2 <= length pdu -> exists h l rest, pdu = h :: l :: rest.
Proof. destruct pdu as [|h [|l rest]]; cbn [length]; [lia|lia|eauto]. Qed.

Lemma body_of_shape h l (ct mic : bytes) : length mic = 4 -> body_of (h :: l :: ct ++ mic) = ct.
Proof.
  intros Hm. unfold body_of, slice. cbn [length skipn].
  apply firstn_app_exact. rewrite app_length, Hm. lia.
Qed.

Lemma mic_of_shape h l (ct mic : bytes) : length mic = 4 -> mic_of (h :: l :: ct ++ mic) = mic.
Proof.
  intros Hm. unfold mic_of. apply (skipn_app_exact _ (h :: l :: ct)).
  cbn [length]. rewrite app_length, Hm. lia.
Qed.

Section Proofs.
  Variable E : bytes -> bytes -> bytes.
  Hypothesis E_length : forall k b, length (E k b) = 16.
  (* Lemmas take the length hypothesis whether their proof uses it or not, as the theorems of
     Property.v are stated: left to Coq it would come and go with the tactics of each proof
     ([lia] picks it up). The few that say [Proof using.] take [E] alone. *)
  Local Set Default Proof Using "E_length".

  Notation encrypt := (encrypt E).
  Notation decrypt := (decrypt E).
  Notation dec_loop := (dec_loop E).
  Notation mic_for := (mic_for E).
  Notation plain_at := (plain_at E).
  Notation accepts_at := (accepts_at E).
  Notation rejects_from := (rejects_from E).
  Notation first_accept := (first_accept E).
  Notation decrypt_spec_of := (decrypt_spec_of E).

  Lemma plain_at_same_key st st' d c ct : sk st = sk st' -> iv st = iv st' ->
    plain_at st d c ct = plain_at st' d c ct.
  Proof using. intros Hk Hi. unfold Model.plain_at. rewrite Hk, Hi. reflexivity. Qed.

  Lemma accepts_at_same_key st st' d c pdu : sk st = sk st' -> iv st = iv st' ->
    accepts_at st d c pdu = accepts_at st' d c pdu.
  Proof using. intros Hk Hi. unfold Model.accepts_at, Model.mic_for, Model.plain_at. rewrite Hk, Hi. reflexivity. Qed.

  Lemma first_accept_same_key st st' d pdu : sk st = sk st' -> iv st = iv st' ->
    forall k c, first_accept st d c k pdu = first_accept st' d c k pdu.
  Proof.
    intros Hk Hi. induction k as [|k IH]; intros c; cbn [Model.first_accept]; [reflexivity|].
    rewrite IH, (accepts_at_same_key st st' d c pdu Hk Hi). reflexivity.
  Qed.

  Lemma rejects_from_set_cnt st d d' v k : forall c pdu,
    rejects_from (set_cnt st d' v) d c k pdu = rejects_from st d c k pdu.
  Proof using.
    induction k; intros; cbn [Model.rejects_from]; [reflexivity|].
    rewrite IHk, (accepts_at_same_key _ st) by (apply sk_set_cnt || apply iv_set_cnt). reflexivity.
  Qed.

  Lemma ccm_decrypt_round st d pdu :
    ccm_decrypt E 4 2 (sk st) (generate_nonce st d) (masked_header (hd 0%N pdu)) (body_of pdu) (mic_of pdu)
    = if accepts_at st d (cnt st d) pdu then Some (plain_at st d (cnt st d) (body_of pdu)) else None.
  Proof. reflexivity. Qed.

  Lemma dec_loop_spec pdu d : forall n st last,
    dec_loop n st d (masked_header (hd 0%N pdu)) (body_of pdu) (mic_of pdu) last =
    match first_accept st d (cnt st d) n pdu with
    | Some c => LSuccess (set_cnt st d c) (plain_at st d c (body_of pdu))
    | None => LFail (set_cnt st d (cnt st d + N.of_nat n))
                    (match n with O => last | S t => Some (plain_at st d (cnt st d + N.of_nat t) (body_of pdu)) end)
    end.
  Proof.
    induction n as [|n IH]; intros st last; cbn [Model.dec_loop Model.first_accept].
    - rewrite N.add_0_r, set_cnt_same. reflexivity.
    - rewrite ccm_decrypt_round. destruct (accepts_at st d (cnt st d) pdu).
      + rewrite set_cnt_same. reflexivity.
      + rewrite IH, cnt_incr, (first_accept_same_key _ st) by (apply sk_incr || apply iv_incr).
        replace (cnt st d + 1 + N.of_nat n)%N with (cnt st d + N.of_nat (S n))%N by lia.
        destruct (first_accept st d (cnt st d + 1) n pdu) as [c|]; rewrite set_cnt_incr; f_equal.
        * apply plain_at_same_key; [apply sk_incr|apply iv_incr].
        * destruct n as [|t]; [rewrite N.add_0_r; reflexivity|].
          replace (cnt st d + 1 + N.of_nat t)%N with (cnt st d + N.of_nat (S t))%N by lia.
          f_equal. apply plain_at_same_key; [apply sk_incr|apply iv_incr].
  Qed.

  Lemma decrypt_spec st pdu d tol : decrypt st pdu d tol = decrypt_spec_of st pdu d tol.
  Proof.
    unfold Model.decrypt, Model.decrypt_spec_of. destruct pdu as [|h r]; [reflexivity|].
    rewrite (dec_loop_spec (h :: r) d).
    destruct (first_accept st d (cnt st d) tol (h :: r)) as [c|]; [reflexivity|].
    rewrite set_cnt_set_cnt, set_cnt_same. destruct tol; reflexivity.
  Qed.

  Lemma first_accept_none st d pdu : forall k c,
    first_accept st d c k pdu = None <-> rejects_from st d c k pdu = true.
  Proof.
    induction k as [|k IH]; intros c; cbn [Model.first_accept Model.rejects_from]; [tauto|].
    destruct (accepts_at st d c pdu); cbn [negb andb].
    - split; discriminate.
    - apply IH.
  Qed.

  Lemma first_accept_some st d pdu : forall k c c',
    first_accept st d c k pdu = Some c' <->
    exists j, j < k /\ c' = (c + N.of_nat j)%N /\ rejects_from st d c j pdu = true /\ accepts_at st d c' pdu = true.
  Proof.
    induction k as [|k IH]; intros c c'; cbn [Model.first_accept].
    - split; [discriminate|]. intros (j & Hj & _). lia.
    - destruct (accepts_at st d c pdu) eqn:Ha.
      + split.
        * intros H. injection H as <-. exists 0. rewrite N.add_0_r. repeat split; [lia|exact Ha].
        * intros (j & Hj & -> & Hr & Hacc). destruct j; [rewrite N.add_0_r; reflexivity|].
          cbn [Model.rejects_from] in Hr. rewrite Ha in Hr. discriminate.
      + rewrite IH. split.
        * intros (j & Hj & -> & Hr & Hacc). exists (S j). repeat split; [lia|lia| |exact Hacc].
          cbn [Model.rejects_from]. rewrite Ha, Hr. reflexivity.
        * intros (j & Hj & -> & Hr & Hacc). destruct j.
          -- rewrite N.add_0_r in Hacc. congruence.
          -- cbn [Model.rejects_from] in Hr. apply andb_true_iff in Hr as [_ Hr].
             exists j. repeat split; [lia|lia|exact Hr|exact Hacc].
  Qed.

  Lemma rejects_from_at st d pdu : forall n c, rejects_from st d c n pdu = true -> forall i, i < n ->
    accepts_at st d (c + N.of_nat i) pdu = false.
  Proof.
    induction n as [|n IHn]; intros c Hr i Hi; [lia|].
    cbn [Model.rejects_from] in Hr. apply andb_true_iff in Hr as [H1 H2]. apply negb_true_iff in H1.
    destruct i; [rewrite N.add_0_r; exact H1|].
    replace (c + N.of_nat (S i))%N with (c + 1 + N.of_nat i)%N by lia. apply IHn; [exact H2|lia].
  Qed.

  Lemma accepts_at_iff st d c pdu :
    accepts_at st d c pdu = true <->
    mic_of pdu = mic_for st d c (hd 0%N pdu) (plain_at st d c (body_of pdu)).
  Proof. unfold Model.accepts_at. apply bytes_eqb_eq. Qed.

  Lemma decrypt_success_iff st pdu d tol st' p : pdu <> [] ->
    decrypt st pdu d tol = (st', Ok (p, true)) <->
    exists c, first_accept st d (cnt st d) tol pdu = Some c /\ st' = set_cnt st d c /\
              p = firstn 2 pdu ++ plain_at st d c (body_of pdu).
  Proof.
    intros Hne. rewrite decrypt_spec. unfold Model.decrypt_spec_of.
    destruct pdu as [|h r]; [contradiction|].
    destruct (first_accept st d (cnt st d) tol (h :: r)) as [c|].
    - split; [intros H; injection H as <- <-; eauto|].
      intros (c' & Hc & -> & ->). injection Hc as <-. reflexivity.
    - split; [destruct tol; discriminate|]. intros (c' & Hc & _). discriminate.
  Qed.

  Lemma accept_iff_tag st pdu d tol : pdu <> [] ->
    (exists st' p, decrypt st pdu d tol = (st', Ok (p, true))) <->
    (exists k, k < tol /\
       mic_of pdu = mic_for st d (cnt st d + N.of_nat k) (hd 0%N pdu)
                            (plain_at st d (cnt st d + N.of_nat k) (body_of pdu))).
  Proof.
    intros Hne. split.
    - intros (st' & p & H). apply (decrypt_success_iff _ _ _ _ _ _ Hne) in H as (c & Hf & _).
      apply first_accept_some in Hf as (j & Hj & -> & _ & Ha).
      exists j. split; [exact Hj|]. apply accepts_at_iff, Ha.
    - intros (k & Hk & Hm). apply accepts_at_iff in Hm.
      destruct (first_accept st d (cnt st d) tol pdu) as [c|] eqn:Hf.
      + do 2 eexists. apply (decrypt_success_iff _ _ _ _ _ _ Hne). eauto.
      + apply first_accept_none in Hf. rewrite (rejects_from_at _ _ _ _ _ Hf k Hk) in Hm. discriminate.
  Qed.

  Lemma tamper_fails_if_mac_differs st pdu d tol :
    pdu <> [] -> 1 <= tol ->
    rejects_from st d (cnt st d) tol pdu = true ->
    exists p, decrypt st pdu d tol = (st, Ok (p, false)).
  Proof.
    intros Hne Ht Hr. rewrite decrypt_spec. unfold Model.decrypt_spec_of.
    destruct pdu as [|h r]; [contradiction|].
    apply first_accept_none in Hr. rewrite Hr. destruct tol; [lia|]. eauto.
  Qed.

  Lemma counters_unchanged_on_failure st pdu d tol st' o :
    decrypt st pdu d tol = (st', o) -> (forall p, o <> Ok (p, true)) -> st' = st.
  Proof.
    rewrite decrypt_spec. unfold Model.decrypt_spec_of. intros H Hno.
    destruct pdu as [|h r]; [injection H as <- _; reflexivity|].
    destruct (first_accept st d (cnt st d) tol (h :: r)) as [c|].
    - injection H as _ <-. exfalso. eapply Hno. reflexivity.
    - destruct tol; injection H as <- _; reflexivity.
  Qed.

  (** whatever the PDU, the counter is left where it was or on one of the [tol] counters tried *)
  Lemma decrypt_depends_on_window st pdu d tol :
    fst (decrypt st pdu d tol) = st \/
    exists k, k < tol /\ fst (decrypt st pdu d tol) = set_cnt st d (cnt st d + N.of_nat k).
  Proof.
    rewrite decrypt_spec. unfold Model.decrypt_spec_of.
    destruct pdu as [|h r]; [left; reflexivity|].
    destruct (first_accept st d (cnt st d) tol (h :: r)) as [c|] eqn:Hf.
    - right. apply first_accept_some in Hf as (j & Hj & -> & _). exists j. split; [exact Hj|reflexivity].
    - left. destruct tol; reflexivity.
  Qed.

  Lemma mic_length st d c h pt : length (mic_for st d c h pt) = 4.
  Proof. unfold Model.mic_for. apply ccm_tag_length; [exact E_length|lia]. Qed.

  Lemma plain_at_involutive st d c x : plain_at st d c (plain_at st d c x) = x.
  Proof. apply ccm_keystream_xor_involutive, E_length. Qed.

  Lemma encrypt_shape st h l rest d :
    encrypt st (h :: l :: rest) d =
    Ok (h :: l :: plain_at st d (cnt st d) rest ++ mic_for st d (cnt st d) h rest).
  Proof using. reflexivity. Qed.

  Lemma encrypt_nonempty st pdu d c : encrypt st pdu d = Ok c -> c <> [].
  Proof. destruct pdu; [discriminate|]. intros H. injection H as <-. discriminate. Qed.

  (** the length byte plays no part in the check *)
  Lemma accepts_at_shape st d c h l ct mic : length mic = 4 ->
    accepts_at st d c (h :: l :: ct ++ mic) = bytes_eqb mic (mic_for st d c h (plain_at st d c ct)).
  Proof. intros Hm. unfold Model.accepts_at. rewrite body_of_shape, mic_of_shape by exact Hm. reflexivity. Qed.

  Lemma rejects_from_len_byte st d h l l' ct mic : length mic = 4 -> forall k c,
    rejects_from st d c k (h :: l :: ct ++ mic) = rejects_from st d c k (h :: l' :: ct ++ mic).
  Proof.
    intros Hm. induction k as [|k IH]; intros c; cbn [Model.rejects_from]; [reflexivity|].
    rewrite IH, !accepts_at_shape by exact Hm. reflexivity.
  Qed.

  Lemma decrypt_genuine tx rx h l' rest d tol k c :
    sk tx = sk rx -> iv tx = iv rx -> cnt tx d = (cnt rx d + N.of_nat k)%N -> k < tol ->
    c = h :: l' :: plain_at tx d (cnt tx d) rest ++ mic_for tx d (cnt tx d) h rest ->
    rejects_from rx d (cnt rx d) k c = true ->
    decrypt rx c d tol = (set_cnt rx d (cnt tx d), Ok (h :: l' :: rest, true)).
  Proof.
    intros Hk Hi Hc Hlt -> Hr.
    assert (Hm : length (mic_for tx d (cnt tx d) h rest) = 4) by apply mic_length.
    assert (Hp : plain_at rx d (cnt tx d) (plain_at tx d (cnt tx d) rest) = rest).
    { rewrite (plain_at_same_key rx tx) by (symmetry; assumption). apply plain_at_involutive. }
    rewrite decrypt_spec. unfold Model.decrypt_spec_of.
    rewrite (proj2 (first_accept_some rx d _ tol (cnt rx d) (cnt tx d))).
    - rewrite body_of_shape, Hp by exact Hm. reflexivity.
    - exists k. repeat split; [exact Hlt|exact Hc|exact Hr|].
      rewrite accepts_at_shape, Hp by exact Hm. apply bytes_eqb_eq.
      unfold Model.mic_for. rewrite Hk, Hi. reflexivity.
  Qed.

  Lemma decrypt_encrypt st pdu d tol :
    2 <= length pdu -> 1 <= tol ->
    exists c, encrypt st pdu d = Ok c /\ decrypt st c d tol = (st, Ok (pdu, true)).
  Proof.
    intros Hl Ht. destruct (two_bytes pdu Hl) as (h & l & rest & ->).
    eexists. split; [apply encrypt_shape|].
    rewrite (decrypt_genuine st st h l rest d tol 0) by (reflexivity || lia).
    rewrite set_cnt_same. reflexivity.
  Qed.

  Lemma skew_beyond_tolerance_rejected tx rx pdu d tol c :
    sk tx = sk rx -> iv tx = iv rx -> 1 <= tol ->
    (cnt rx d + N.of_nat tol <= cnt tx d)%N ->
    encrypt tx pdu d = Ok c ->
    rejects_from rx d (cnt rx d) tol c = true ->
    exists p, decrypt rx c d tol = (rx, Ok (p, false)).
  Proof.
    intros _ _ Ht _ He Hr. apply tamper_fails_if_mac_differs; try assumption.
    exact (encrypt_nonempty _ _ _ _ He).
  Qed.

  Definition pdus_ok (evs : list event) : Prop := Forall (fun e : event => 2 <= length (snd (fst e))) evs.

  Lemma pdus_ok_cons d pdu b evs : pdus_ok ((d, pdu, b) :: evs) ->
    (exists h l rest, pdu = h :: l :: rest) /\ pdus_ok evs.
  Proof using. intros H. apply Forall_cons_iff in H as [H1 H2]. split; [exact (two_bytes pdu H1)|exact H2]. Qed.

  Lemma run_link_correct tol : forall evs tx rx,
    follows tx rx -> pdus_ok evs -> link_ok E tol tx rx evs = true ->
    run_link E tol tx rx evs = delivered_pdus evs.
  Proof.
    induction evs as [|[[d pdu] delivered] r IH]; intros tx rx F Hp Hok; [reflexivity|].
    apply pdus_ok_cons in Hp as [(h & l & rest & ->) Hp].
    cbn [Model.run_link Model.link_ok Model.delivered_pdus] in *. rewrite encrypt_shape in *.
    destruct delivered; [|exact (IH _ _ (follows_lost tx rx d F) Hp Hok)].
    apply andb_true_iff in Hok as [Hok Hrest]. apply andb_true_iff in Hok as [Hgap Hrej].
    apply Nat.ltb_lt in Hgap. pose proof F as (Hk & Hi & Hle).
    rewrite (decrypt_genuine tx rx h l rest d tol _ _ Hk Hi (gap_spec _ _ (Hle d)) Hgap eq_refl Hrej).
    f_equal. exact (IH _ _ (follows_delivered tx rx d F) Hp Hrest).
  Qed.

  Lemma link_ok_no_loss tol : 1 <= tol -> forall evs st,
    pdus_ok evs -> Forall (fun e : event => snd e = true) evs -> link_ok E tol st st evs = true.
  Proof.
    intros Ht. induction evs as [|[[d pdu] delivered] r IH]; intros st Hp Hall; [reflexivity|].
    apply pdus_ok_cons in Hp as [(h & l & rest & ->) Hp]. apply Forall_cons_iff in Hall as [Ha1 Ha2].
    cbn [snd] in Ha1. subst delivered. cbn [Model.link_ok]. rewrite encrypt_shape, N.sub_diag, set_cnt_same.
    cbn [N.to_nat Model.rejects_from]. rewrite (proj2 (Nat.ltb_lt 0 tol)) by lia. apply IH; assumption.
  Qed.

  Lemma capture_ok_link_ok : forall evs tx rx,
    pdus_ok evs -> capture_ok E tx rx evs = true -> link_ok E 2 tx rx evs = true.
  Proof.
    induction evs as [|[[d pdu] captured] r IH]; intros tx rx Hp Hok; [reflexivity|].
    apply pdus_ok_cons in Hp as [(h & l & rest & ->) Hp]. cbn [Model.capture_ok Model.link_ok] in *.
    rewrite encrypt_shape in *. cbn [air_pdu] in Hok.
    destruct captured; [|exact (IH _ _ Hp Hok)].
    apply andb_true_iff in Hok as [Hok Hrest]. apply andb_true_iff in Hok as [Hok _].
    apply andb_true_iff in Hok as [Hgap Hrej].
    rewrite (rejects_from_len_byte _ _ _ _ l) in Hrej by apply mic_length.
    rewrite Hgap, Hrej. exact (IH _ _ Hp Hrest).
  Qed.
End Proofs.

Lemma nonce_of_length c d ivb : length (nonce_of c d ivb) = 5 + length ivb.
Proof. reflexivity. Qed.

(** the seven counter bits of the fifth byte leave the direction bit free *)
Lemma fifth_byte_inj a b d d' : (a < 128)%N -> (b < 128)%N ->
  (a + dir_byte d = b + dir_byte d')%N -> a = b /\ d = d'.
Proof. destruct d, d'; cbn [dir_byte]; intros Ha Hb H; split; try reflexivity; lia. Qed.

Lemma nonce_of_inj c c' d d' (ivb ivb' : bytes) :
  (c < two39)%N -> (c' < two39)%N ->
  nonce_of c d ivb = nonce_of c' d' ivb' -> c = c' /\ d = d' /\ ivb = ivb'.
Proof.
  intros Hc Hc' H. unfold nonce_of in H.
  rewrite !(N.mod_small _ two39) in H by assumption.
  apply app_inj_length in H as [Hlo Hrest]; [|reflexivity].
  injection Hrest as Hb Hiv.
  apply le32_inj in Hlo; [|apply N.mod_lt; discriminate..].
  assert (Hh : forall x, (x < two39)%N -> (x / two32 < 128)%N)
    by (intros x Hx; apply N.div_lt_upper_bound; [discriminate|exact Hx]).
  apply fifth_byte_inj in Hb as [Hhi ->]; [|apply Hh; assumption..].
  rewrite (N.div_mod' c two32), (N.div_mod' c' two32), Hlo, Hhi. auto.
Qed.

Lemma format_injective ivb ivb' d d' c c' h h' (pt pt' : bytes) :
  length ivb = length ivb' -> (c < two39)%N -> (c' < two39)%N ->
  (N.of_nat (length pt) < 65536)%N -> (N.of_nat (length pt') < 65536)%N ->
  auth_blocks_of ivb d c h pt = auth_blocks_of ivb' d' c' h' pt' ->
  ivb = ivb' /\ d = d' /\ c = c' /\ N.land h header_mask = N.land h' header_mask /\ pt = pt'.
Proof.
  intros Hl Hc Hc' Hp Hp' H. unfold auth_blocks_of in H.
  apply ccm_auth_blocks_injective in H.
  - destruct H as (Hn & Hh & Hpt). apply nonce_of_inj in Hn as (-> & -> & ->); try assumption.
    injection Hh as Hh. repeat split; assumption.
  - lia.
  - rewrite !nonce_of_length, Hl. reflexivity.
  - exact Hp.
  - exact Hp'.
  - cbn. lia.
  - cbn. lia.
Qed.

Lemma session_skd_inj (m m' : material) :
  (m_skd m < two64)%N -> (s_skd m < two64)%N -> (m_skd m' < two64)%N -> (s_skd m' < two64)%N ->
  session_skd m = session_skd m' -> m_skd m = m_skd m' /\ s_skd m = s_skd m'.
Proof.
  assert (P : (256 ^ N.of_nat 8)%N = two64) by (vm_compute; reflexivity).
  intros A1 A2 B1 B2 H. apply app_inj_length in H as [H1 H2]; [|rewrite !be_bytes_length; reflexivity].
  apply be_bytes_inj in H1, H2; rewrite ?P; auto.
Qed.

Lemma session_iv_inj (m m' : material) :
  (m_iv m < two32)%N -> (s_iv m < two32)%N -> (m_iv m' < two32)%N -> (s_iv m' < two32)%N ->
  session_iv m = session_iv m' -> m_iv m = m_iv m' /\ s_iv m = s_iv m'.
Proof.
  intros A1 A2 B1 B2 H. apply app_inj_length in H as [H1 H2]; [|reflexivity].
  apply (le32_inj _ _ A1 B1) in H1. apply (le32_inj _ _ A2 B2) in H2. split; assumption.
Qed.

Lemma lookup_store_same k i x l : lookup k i (store k i x l) = Some x.
Proof.
  induction l as [|[[k' i'] m] r IH]; cbn [lookup store].
  - rewrite bytes_eqb_refl, N.eqb_refl. reflexivity.
  - destruct (bytes_eqb k k' && N.eqb i i')%bool eqn:Eq; cbn [lookup]; rewrite Eq; [reflexivity|exact IH].
Qed.

Lemma lookup_store_other_idx k i x k' i' l : i <> i' -> lookup k' i' (store k i x l) = lookup k' i' l.
Proof.
  intros Hne. assert (Hf : N.eqb i' i = false) by (apply N.eqb_neq; congruence).
  induction l as [|[[k0 i0] m] r IH]; cbn [lookup store].
  - rewrite Hf, andb_false_r. reflexivity.
  - destruct (bytes_eqb k k0 && N.eqb i i0)%bool eqn:Eq; cbn [lookup].
    + apply andb_true_iff in Eq as [_ Ei]. apply N.eqb_eq in Ei. subst i0. rewrite Hf, andb_false_r. reflexivity.
    + rewrite IH. reflexivity.
Qed.

Lemma attempt_all_app E ds a b :
  attempt_all E ds (a ++ b) =
  let r := attempt_all E ds a in let r' := attempt_all E (fst r) b in (fst r', snd r ++ snd r').
Proof.
  revert ds. induction a as [|p a IH]; intros ds; cbn [app attempt_all fst snd].
  - destruct (attempt_all E ds b). reflexivity.
  - destruct (attempt E ds p) as [ds1 o]. rewrite IH.
    destruct (attempt_all E ds1 a) as [ds2 o1]. cbn [fst snd]. destruct (attempt_all E ds2 b). reflexivity.
Qed.

Fixpoint indexed (i : N) (l : list material) : list (N * material) :=
  match l with [] => [] | m :: r => (i, m) :: indexed (N.succ i) r end.

Section Decryptor.
  Variable E : bytes -> bytes -> bytes.
  Hypothesis E_length : forall k b, length (E k b) = 16.
  Local Set Default Proof Using "E_length".

  Definition combo_rejects (mgrs : list ((bytes * N) * mgr)) (pdu : bytes) (i : N) (mat : material) (k : bytes) : Prop :=
    try_key E mgrs k i mat pdu = (mgrs, Ok None).

  Lemma try_keys_skip i mat pdu mgrs ks2 : forall ks1,
    Forall (combo_rejects mgrs pdu i mat) ks1 ->
    try_keys E mgrs (ks1 ++ ks2) i mat pdu = try_keys E mgrs ks2 i mat pdu.
  Proof.
    induction ks1 as [|k r IH]; intros H; [reflexivity|].
    apply Forall_cons_iff in H as [Hk Hr]. cbn [app try_keys]. rewrite Hk. exact (IH Hr).
  Qed.

  Lemma try_keys_all_reject i mat pdu mgrs ks :
    Forall (combo_rejects mgrs pdu i mat) ks -> try_keys E mgrs ks i mat pdu = (mgrs, Ok None).
  Proof. intros H. rewrite <- (app_nil_r ks). exact (try_keys_skip i mat pdu mgrs [] ks H). Qed.

  Lemma try_mats_skip pdu mgrs ks ms2 : forall ms1 i,
    Forall (fun im => Forall (combo_rejects mgrs pdu (fst im) (snd im)) ks) (indexed i ms1) ->
    try_mats E mgrs ks i (ms1 ++ ms2) pdu = try_mats E mgrs ks (i + N.of_nat (length ms1))%N ms2 pdu.
  Proof.
    induction ms1 as [|m r IH]; intros i H.
    - cbn [app length]. rewrite N.add_0_r. reflexivity.
    - cbn [indexed] in H. apply Forall_cons_iff in H as [Hm Hr]. cbn [fst snd] in Hm. cbn [app try_mats].
      rewrite (try_keys_all_reject i m pdu mgrs ks Hm), (IH _ Hr).
      f_equal. cbn [length]. lia.
  Qed.

  Lemma attempt_material_list (ds : dstate) pdu ms1 mat ms2 ks1 key ks2 mgrs' p :
    mats ds = ms1 ++ mat :: ms2 -> keys ds = ks1 ++ key :: ks2 ->
    (N.eqb (nth 1 pdu 0%N) 0 && N.eqb (N.land (nth 0 pdu 0%N) 3) 1)%bool = false ->
    Forall (fun im => Forall (combo_rejects (managers ds) pdu (fst im) (snd im)) (keys ds)) (indexed 0 ms1) ->
    Forall (combo_rejects (managers ds) pdu (N.of_nat (length ms1)) mat) ks1 ->
    try_key E (managers ds) key (N.of_nat (length ms1)) mat pdu = (mgrs', Ok (Some p)) ->
    attempt E ds pdu = ({| keys := keys ds; mats := mats ds; managers := mgrs' |}, Ok (Some p)).
  Proof.
    intros Hm Hk Hne Hms Hks Hhit. unfold attempt.
    destruct (mats ds) as [|m0 mr] eqn:Em; [destruct ms1; discriminate|].
    destruct (keys ds) as [|k0 kr] eqn:Ek; [destruct ks1; discriminate|].
    rewrite Hne, Hm, try_mats_skip by exact Hms. rewrite N.add_0_l.
    cbn [try_mats]. rewrite Hk, try_keys_skip by exact Hks.
    cbn [try_keys]. rewrite Hhit, <- Hm, <- Hk. reflexivity.
  Qed.

  Definition manager_for (mgrs : list ((bytes * N) * mgr)) (key : bytes) (i : N) (mat : material) : outcome mgr :=
    match lookup key i mgrs with Some m => Ok m | None => mk_manager E key mat end.

  Lemma decryptor_multi_session_pdu (ds : dstate) ms1 mat ms2 ks1 key ks2 tx rx d h l rest c :
    mats ds = ms1 ++ mat :: ms2 -> keys ds = ks1 ++ key :: ks2 ->
    manager_for (managers ds) key (N.of_nat (length ms1)) mat = Ok rx ->
    sk tx = sk rx -> iv tx = iv rx -> (cnt rx d <= cnt tx d)%N ->
    encrypt E tx (h :: l :: rest) d = Ok c ->
    let a := air_pdu c in
    let gap := N.to_nat (cnt tx d - cnt rx d) in
    gap < 2 -> rejects_from E rx d (cnt rx d) gap a = true ->
    match d with M2S => true | S2M => rejects_from E rx M2S (cnt rx M2S) 2 a end = true ->
    Forall (fun im => Forall (combo_rejects (managers ds) a (fst im) (snd im)) (keys ds)) (indexed 0 ms1) ->
    Forall (combo_rejects (managers ds) a (N.of_nat (length ms1)) mat) ks1 ->
    attempt E ds a
    = ({| keys := keys ds; mats := mats ds;
          managers := store key (N.of_nat (length ms1)) (incr (set_cnt rx d (cnt tx d)) d) (managers ds) |},
       Ok (Some (h :: l :: rest))).
  Proof.
    intros Hm Hk Heff Hsk Hiv Hle He a gap Hgap Hrej Hcross Hms Hks.
    rewrite encrypt_shape in He. injection He as <-.
    eapply attempt_material_list; try eassumption.
    - (* the on-air length byte is at least 4: not an empty PDU *)
      unfold a, air_pdu. cbn [nth]. rewrite (proj2 (N.eqb_neq (l + 4) 0)) by lia. reflexivity.
    - (* the right combination: decrypt succeeds, after a failed M2S attempt for an S2M PDU *)
      pose proof (decrypt_genuine E E_length tx rx h (l + 4)%N rest d 2 gap a Hsk Hiv
                                  (gap_spec _ _ Hle) Hgap eq_refl Hrej) as Hd.
      unfold try_key. fold (manager_for (managers ds) key (N.of_nat (length ms1)) mat). rewrite Heff.
      destruct d.
      + rewrite Hd. cbn [strip_mic_len]. rewrite N.add_sub. reflexivity.
      + destruct (tamper_fails_if_mac_differs E E_length rx a M2S 2) as [q Hf];
          [discriminate|lia|exact Hcross|].
        rewrite Hf, Hd. cbn [strip_mic_len]. rewrite N.add_sub. reflexivity.
  Qed.

  Variables (ks1 : list bytes) (key : bytes) (ks2 : list bytes).
  Variables (ms1 : list material) (mat : material) (ms2 : list material).
  Let ks := ks1 ++ key :: ks2.
  Let ms := ms1 ++ mat :: ms2.
  Let idx := N.of_nat (length ms1).

  (** the combinations the loops try before (mat, key) reject this PDU *)
  Definition before_reject (mgrs : list ((bytes * N) * mgr)) (a : bytes) : Prop :=
    Forall (fun im => Forall (combo_rejects mgrs a (fst im) (snd im)) ks) (indexed 0 ms1) /\
    Forall (combo_rejects mgrs a idx mat) ks1.

  (** side condition along the session's capture: every captured PDU is rejected by the
      combinations tried before the right one, at the cache of that moment *)
  Fixpoint session_ok (mgrs : list ((bytes * N) * mgr)) (tx rx : mgr) (evs : list event) : Prop :=
    match evs with
    | [] => True
    | (d, pdu, captured) :: r =>
      match encrypt E tx pdu d with
      | Raise _ => False
      | Ok c =>
        if captured then
          let rx' := incr (set_cnt rx d (cnt tx d)) d in
          before_reject mgrs (air_pdu c) /\ session_ok (store key idx rx' mgrs) (incr tx d) rx' r
        else session_ok mgrs (incr tx d) rx r
      end
    end.

  (** the cache after the session *)
  Fixpoint session_final (mgrs : list ((bytes * N) * mgr)) (tx rx : mgr) (evs : list event)
    : list ((bytes * N) * mgr) :=
    match evs with
    | [] => mgrs
    | (d, pdu, captured) :: r =>
      if captured then
        let rx' := incr (set_cnt rx d (cnt tx d)) d in session_final (store key idx rx' mgrs) (incr tx d) rx' r
      else session_final mgrs (incr tx d) rx r
    end.

  Lemma session_recovered : forall evs tx rx mgrs,
    manager_for mgrs key idx mat = Ok rx -> follows tx rx ->
    pdus_ok evs -> capture_ok E tx rx evs = true -> session_ok mgrs tx rx evs ->
    attempt_all E {| keys := ks; mats := ms; managers := mgrs |} (capture E tx evs)
    = ({| keys := ks; mats := ms; managers := session_final mgrs tx rx evs |}, captured_plain evs).
  Proof.
    induction evs as [|[[d pdu] captured] r IH]; intros tx rx mgrs Heff F Hp Hok Hso; [reflexivity|].
    apply pdus_ok_cons in Hp as [(h & l & rest & ->) Hp2].
    cbn [capture capture_ok captured_plain session_ok session_final] in *.
    destruct (encrypt E tx (h :: l :: rest) d) as [c|e] eqn:He; [|discriminate].
    destruct captured; [|exact (IH _ _ _ Heff (follows_lost tx rx d F) Hp2 Hok Hso)].
    apply andb_true_iff in Hok as [Hok Hrest]. apply andb_true_iff in Hok as [Hok Hcross].
    apply andb_true_iff in Hok as [Hgap Hrej]. apply Nat.ltb_lt in Hgap.
    destruct Hso as [[Hb1 Hb2] Hso]. pose proof F as (Hk & Hi & Hle).
    cbn [attempt_all].
    rewrite (decryptor_multi_session_pdu {| keys := ks; mats := ms; managers := mgrs |}
               ms1 mat ms2 ks1 key ks2 tx rx d h l rest c eq_refl eq_refl Heff Hk Hi (Hle d) He
               Hgap Hrej Hcross Hb1 Hb2).
    cbn [keys mats managers]. fold idx.
    rewrite (fun H => IH _ _ _ H (follows_delivered tx rx d F) Hp2 Hrest Hso); [reflexivity|].
    unfold manager_for. rewrite lookup_store_same. reflexivity.
  Qed.
End Decryptor.

Lemma lookup_session_final_other key ms1 k' i' : i' <> N.of_nat (length ms1) ->
  forall evs mgrs tx rx, lookup k' i' (session_final key ms1 mgrs tx rx evs) = lookup k' i' mgrs.
Proof.
  intros Hne. induction evs as [|[[d pdu] cap] r IH]; intros mgrs tx rx; cbn [session_final]; [reflexivity|].
  destruct cap; rewrite IH; [|reflexivity]. apply lookup_store_other_idx. congruence.
Qed.

Section DecryptorTheorems.
  Variable E : bytes -> bytes -> bytes.
  Hypothesis E_length : forall k b, length (E k b) = 16.
  Local Set Default Proof Using "E_length".

  (** when nothing is tried before (first material, first key) the side condition is void *)
  Lemma session_ok_first key ks2 mat : forall evs mgrs tx rx,
    capture_ok E tx rx evs = true -> session_ok E [] key ks2 [] mat mgrs tx rx evs.
  Proof.
    induction evs as [|[[d pdu] cap] r IH]; intros mgrs tx rx H; cbn [session_ok capture_ok] in *; [exact I|].
    destruct (encrypt E tx pdu d); [|discriminate]. destruct cap; [|exact (IH _ _ _ H)].
    apply andb_true_iff in H as [_ H]. split; [split; constructor|]. exact (IH _ _ _ H).
  Qed.

  Lemma decryptor_recovers_plaintext key mat st0 evs :
    mk_manager E key mat = Ok st0 ->
    pdus_ok evs -> capture_ok E st0 st0 evs = true ->
    snd (attempt_all E {| keys := [key]; mats := [mat]; managers := [] |} (capture E st0 evs))
    = captured_plain evs.
  Proof.
    intros Hst Hp Hok.
    exact (f_equal snd (session_recovered E E_length [] key [] [] mat [] evs st0 st0 [] Hst
                                          (follows_refl st0) Hp Hok (session_ok_first key [] mat evs [] st0 st0 Hok))).
  Qed.

  Record sess := { s_ks1 : list bytes; s_key : bytes; s_ks2 : list bytes;
                   s_ms1 : list material; s_mat : material; s_ms2 : list material;
                   s_st0 : mgr; s_evs : list event }.

  Definition sess_wf (ks : list bytes) (ms : list material) (s : sess) : Prop :=
    ks = s_ks1 s ++ s_key s :: s_ks2 s /\ ms = s_ms1 s ++ s_mat s :: s_ms2 s /\
    mk_manager E (s_key s) (s_mat s) = Ok (s_st0 s) /\ pdus_ok (s_evs s) /\
    capture_ok E (s_st0 s) (s_st0 s) (s_evs s) = true.

  Definition sess_idx (s : sess) : N := N.of_nat (length (s_ms1 s)).

  Definition sess_final (mgrs : list ((bytes * N) * mgr)) (s : sess) :=
    session_final (s_key s) (s_ms1 s) mgrs (s_st0 s) (s_st0 s) (s_evs s).

  (** side condition along the capture: each session starts with no manager cached for its
      (key, material) and its PDUs are rejected by the combinations tried before (MAC condition) *)
  Fixpoint sessions_ok (mgrs : list ((bytes * N) * mgr)) (l : list sess) : Prop :=
    match l with
    | [] => True
    | s :: r => lookup (s_key s) (sess_idx s) mgrs = None /\
                session_ok E (s_ks1 s) (s_key s) (s_ks2 s) (s_ms1 s) (s_mat s) mgrs (s_st0 s) (s_st0 s) (s_evs s) /\
                sessions_ok (sess_final mgrs s) r
    end.

  Lemma decryptor_recovers_sessions ks ms : forall (l : list sess) mgrs,
    Forall (sess_wf ks ms) l -> sessions_ok mgrs l ->
    snd (attempt_all E {| keys := ks; mats := ms; managers := mgrs |}
                     (concat (map (fun s => capture E (s_st0 s) (s_evs s)) l)))
    = concat (map (fun s => captured_plain (s_evs s)) l).
  Proof.
    induction l as [|s r IH]; intros mgrs Hwf Hok; [reflexivity|].
    apply Forall_cons_iff in Hwf as [(-> & -> & Hst & Hp & Hc) Hrest].
    destruct Hok as (Hnone & Hso & Hnext).
    cbn [map concat]. rewrite attempt_all_app.
    assert (Heff : manager_for E mgrs (s_key s) (sess_idx s) (s_mat s) = Ok (s_st0 s))
      by (unfold manager_for; rewrite Hnone; exact Hst).
    rewrite (session_recovered E E_length _ _ _ _ _ _ _ _ _ mgrs Heff (follows_refl _) Hp Hc Hso).
    cbn [fst snd]. f_equal. exact (IH _ Hrest Hnext).
  Qed.

  Lemma same_key_sessions key m1 m2 st1 st2 evs1 evs2 :
    mk_manager E key m1 = Ok st1 -> mk_manager E key m2 = Ok st2 ->
    pdus_ok evs1 -> pdus_ok evs2 ->
    capture_ok E st1 st1 evs1 = true -> capture_ok E st2 st2 evs2 = true ->
    session_ok E [] key [] [m1] m2 (session_final key [] [] st1 st1 evs1) st2 st2 evs2 ->
    snd (attempt_all E {| keys := [key]; mats := [m1; m2]; managers := [] |}
                     (capture E st1 evs1 ++ capture E st2 evs2))
    = captured_plain evs1 ++ captured_plain evs2.
  Proof.
    intros H1 H2 Hp1 Hp2 Hc1 Hc2 Hso.
    pose (sa := {| s_ks1 := []; s_key := key; s_ks2 := []; s_ms1 := []; s_mat := m1; s_ms2 := [m2];
                   s_st0 := st1; s_evs := evs1 |}).
    pose (sb := {| s_ks1 := []; s_key := key; s_ks2 := []; s_ms1 := [m1]; s_mat := m2; s_ms2 := [];
                   s_st0 := st2; s_evs := evs2 |}).
    pose proof (decryptor_recovers_sessions [key] [m1; m2] [sa; sb] []) as R.
    cbn [map concat s_st0 s_evs sa sb] in R. rewrite !app_nil_r in R. apply R.
    - repeat constructor; cbn; assumption.
    - cbn [sessions_ok]. split; [reflexivity|]. split; [apply session_ok_first; exact Hc1|].
      split; [|split; [exact Hso|exact I]].
      unfold sess_final, sess_idx. cbn [s_key s_ms1 s_st0 s_evs sa sb length].
      rewrite lookup_session_final_other; [reflexivity|cbn; lia].
  Qed.
End DecryptorTheorems.

Lemma cfind_cupd h h' f l :
  cfind h' (cupd h f l) = if N.eqb h' h then option_map f (cfind h' l) else cfind h' l.
Proof.
  induction l as [|[h2 c] r IH]; cbn [cfind cupd]; [destruct (N.eqb h' h); reflexivity|].
  destruct (N.eqb_spec h h2) as [<-|Hn]; cbn [cfind].
  - destruct (N.eqb h' h); reflexivity.
  - rewrite IH. destruct (N.eqb_spec h' h2) as [->|]; [|reflexivity].
    rewrite (proj2 (N.eqb_neq h2 h)) by congruence. reflexivity.
Qed.

Lemma cfind_cset h h' c l : cfind h' (cset h c l) = if N.eqb h' h then Some c else cfind h' l.
Proof.
  induction l as [|[h2 c2] r IH]; cbn [cfind cset]; [reflexivity|].
  destruct (N.eqb_spec h h2) as [<-|Hn]; cbn [cfind].
  - destruct (N.eqb h' h); reflexivity.
  - rewrite IH. destruct (N.eqb_spec h' h2) as [->|]; [|reflexivity].
    rewrite (proj2 (N.eqb_neq h2 h)) by congruence. reflexivity.
Qed.

Lemma cfind_cdel h h' l : cfind h' (cdel h l) = if N.eqb h' h then None else cfind h' l.
Proof.
  unfold cdel. induction l as [|[h2 c] r IH]; cbn [filter fst cfind]; [destruct (N.eqb h' h); reflexivity|].
  destruct (N.eqb_spec h h2) as [<-|Hn]; cbn [negb cfind]; rewrite IH.
  - destruct (N.eqb h' h); reflexivity.
  - destruct (N.eqb_spec h' h2) as [->|]; [|reflexivity].
    rewrite (proj2 (N.eqb_neq h2 h)) by congruence. reflexivity.
Qed.

Lemma mfind_mset h h' m l : mfind h' (mset h m l) = if N.eqb h' h then Some m else mfind h' l.
Proof.
  induction l as [|[h2 m2] r IH]; cbn [mfind mset]; [reflexivity|].
  destruct (N.eqb_spec h h2) as [<-|Hn]; cbn [mfind].
  - destruct (N.eqb h' h); reflexivity.
  - rewrite IH. destruct (N.eqb_spec h' h2) as [->|]; [|reflexivity].
    rewrite (proj2 (N.eqb_neq h2 h)) by congruence. reflexivity.
Qed.

Lemma mfind_mdel h h' l : mfind h' (mdel h l) = if N.eqb h' h then None else mfind h' l.
Proof.
  unfold mdel. induction l as [|[h2 c] r IH]; cbn [filter fst mfind]; [destruct (N.eqb h' h); reflexivity|].
  destruct (N.eqb_spec h h2) as [<-|Hn]; cbn [negb mfind]; rewrite IH.
  - destruct (N.eqb h' h); reflexivity.
  - destruct (N.eqb_spec h' h2) as [->|]; [|reflexivity].
    rewrite (proj2 (N.eqb_neq h2 h)) by congruence. reflexivity.
Qed.

Lemma cfind_cupd_some h h' f l : (if cfind h' (cupd h f l) then true else false) = (if cfind h' l then true else false).
Proof. rewrite cfind_cupd. destruct (N.eqb h' h), (cfind h' l); reflexivity. Qed.

Section StackProofs.
  Variable E : bytes -> bytes -> bytes.

  Notation ll_step := (ll_step E false).
  Notation ll_run := (ll_run E false).
  Notation outs_of := (outs_of E false).

  (** symbolic run, one event further: resolve the dictionary lookups, with [known] rewriting
      the entries and handle comparisons the caller has as hypotheses *)
  Ltac look known :=
    progress (rewrite ?cfind_cupd, ?mfind_mset, ?N.eqb_refl; known;
              cbn [option_map set_key set_proc ckey cskd civ crand cediv with_conns conns llcm]).

  Lemma ll_run_app st a b :
    ll_run st (a ++ b) =
    let r := ll_run st a in let r' := ll_run (fst r) b in (fst r', snd r ++ snd r').
  Proof.
    revert st. induction a as [|ev a IH]; intros st; cbn [app Model.ll_run fst snd].
    - destruct (ll_run st b). reflexivity.
    - destruct (ll_step st ev) as [st1 o]. rewrite IH.
      destruct (ll_run st1 a) as [st2 o1]. cbn [fst snd]. destruct (ll_run st2 b). reflexivity.
  Qed.

  Lemma mk_manager_wf p : proc_wfb p = true ->
    exists m, mk_manager E (p_key p) (proc_mat p) = Ok m.
  Proof.
    unfold proc_wfb, mk_manager. intros H. apply andb_true_iff in H as [Hl Hr].
    cbn [m_skd m_iv s_skd s_iv proc_mat]. rewrite Hr, Hl. cbn [negb]. eauto.
  Qed.

  Lemma proc_run p st :
    proc_wfb p = true -> registered (p_h p) st = true ->
    set_enc_only (snd (ll_run st (proc_events p))) = [proc_expected E p] /\
    forall h, registered h (fst (ll_run st (proc_events p))) = registered h st.
  Proof.
    intros Hwf Hreg. destruct (mk_manager_wf p Hwf) as [m Hm].
    unfold registered in Hreg. destruct (cfind (p_h p) (conns st)) as [c|] eqn:Hc; [|discriminate].
    unfold proc_events. destruct (p_central p); cbn [Model.ll_run Model.ll_step with_conns conns llcm mkey].
    - repeat look ltac:(rewrite ?Hc). fold (proc_mat p). rewrite Hm. repeat look ltac:(rewrite ?Hc).
      split; [reflexivity|]. intros h. unfold registered. cbn [fst conns]. rewrite !cfind_cupd_some. reflexivity.
    - repeat look ltac:(rewrite ?Hc). fold (proc_mat p). rewrite Hm.
      split; [reflexivity|]. intros h. unfold registered. cbn [fst conns]. rewrite !cfind_cupd_some. reflexivity.
  Qed.

  Lemma stack_procedures : forall (procs : list proc) (st : lls),
    Forall (fun p => proc_wfb p = true /\ registered (p_h p) st = true) procs ->
    set_enc_only (snd (ll_run st (concat (map proc_events procs)))) = map (proc_expected E) procs.
  Proof.
    induction procs as [|p r IH]; intros st Hall; [reflexivity|].
    apply Forall_cons_iff in Hall as [[Hwf Hreg] Hrest].
    destruct (proc_run p st Hwf Hreg) as [Hout Hpres].
    cbn [map concat]. rewrite ll_run_app. cbn [snd]. unfold set_enc_only in *.
    rewrite filter_app, Hout, IH; [reflexivity|].
    eapply Forall_impl; [|exact Hrest]. intros q [Hq1 Hq2]. rewrite Hpres. auto.
  Qed.

  Definition agree (h : N) (st st' : lls) : Prop :=
    cfind h (conns st) = cfind h (conns st') /\ mfind h (llcm st) = mfind h (llcm st').

  Lemma agree_refl h st : agree h st st.
  Proof. split; reflexivity. Qed.

  Lemma agree_trans_l h a b c : agree h a b -> agree h a c -> agree h c b.
  Proof. intros [H1 H2] [H3 H4]. split; congruence. Qed.

  Ltac break_match :=
    match goal with
    | |- context [match ?x with _ => _ end] => destruct x eqn:?
    end.

  Lemma step_same_handle h st st' ev :
    agree h st st' -> ev_handle ev = h ->
    snd (ll_step st ev) = snd (ll_step st' ev) /\ agree h (fst (ll_step st ev)) (fst (ll_step st' ev)).
  Proof.
    intros [Hc Hm] Hh. unfold agree.
    destruct ev; cbn [ev_handle] in Hh; subst h0; cbn [Model.ll_step mkey]; rewrite ?Hc, ?Hm;
      repeat break_match; cbn [fst snd with_conns conns llcm];
      rewrite ?cfind_cupd, ?cfind_cset, ?cfind_cdel, ?mfind_mset, ?mfind_mdel, ?N.eqb_refl, ?Hc, ?Hm;
      repeat split; try reflexivity; try congruence.
  Qed.

  Lemma step_other_handle h st ev : ev_handle ev <> h -> agree h st (fst (ll_step st ev)).
  Proof.
    intros Hne. apply not_eq_sym, N.eqb_neq in Hne. unfold agree.
    destruct ev; cbn [ev_handle] in Hne; cbn [Model.ll_step mkey];
      repeat break_match; cbn [fst snd with_conns conns llcm];
      rewrite ?cfind_cupd, ?cfind_cset, ?cfind_cdel, ?mfind_mset, ?mfind_mdel, ?Hne;
      split; reflexivity.
  Qed.

  Lemma handle_independence h : forall evs st st',
    agree h st st' -> outs_of h st evs = snd (ll_run st' (on_handle h evs)).
  Proof.
    induction evs as [|ev r IH]; intros st st' Ha; [reflexivity|].
    cbn [Model.outs_of on_handle filter]. fold (on_handle h r).
    destruct (N.eqb_spec (ev_handle ev) h) as [Eq|Ne].
    - destruct (step_same_handle h st st' ev Ha Eq) as [Ho Hag].
      cbn [Model.ll_run]. destruct (ll_step st ev) as [st1 o], (ll_step st' ev) as [st1' o'].
      cbn [fst snd] in Ho, Hag. subst o'. rewrite (IH st1 st1' Hag).
      destruct (ll_run st1' (on_handle h r)). reflexivity.
    - pose proof (step_other_handle h st ev Ne) as H1.
      destruct (ll_step st ev) as [st1 o]. exact (IH _ _ (agree_trans_l h st st' st1 Ha H1)).
  Qed.

  Lemma stack_interleaved st p q :
    proc_wfb p = true -> proc_wfb q = true -> registered (p_h p) st = true -> registered (p_h q) st = true ->
    p_h p <> p_h q ->
    set_enc_only (snd (ll_run st (interleaved p q))) = [proc_expected E p; proc_expected E q].
  Proof.
    intros Hwp Hwq Hrp Hrq Hne.
    destruct (mk_manager_wf p Hwp) as [mp Hmp]. destruct (mk_manager_wf q Hwq) as [mq Hmq].
    unfold registered in Hrp, Hrq.
    destruct (cfind (p_h p) (conns st)) as [cp|] eqn:Hcp; [|discriminate].
    destruct (cfind (p_h q) (conns st)) as [cq|] eqn:Hcq; [|discriminate].
    pose proof (proj2 (N.eqb_neq _ _) Hne) as Npq.
    pose proof (proj2 (N.eqb_neq _ _) (not_eq_sym Hne)) as Nqp.
    unfold interleaved. cbn [Model.ll_run Model.ll_step with_conns conns llcm mkey].
    repeat look ltac:(rewrite ?Npq, ?Nqp, ?Hcp, ?Hcq). fold (proc_mat p). rewrite Hmp.
    repeat look ltac:(rewrite ?Npq, ?Nqp, ?Hcp, ?Hcq). fold (proc_mat q). rewrite Hmq.
    repeat look ltac:(rewrite ?Npq, ?Nqp, ?Hcp, ?Hcq). reflexivity.
  Qed.
End StackProofs.

(** the behaviour before the repair (one manager attribute shared by all handles) refutes it:
    handle 1 was given the material of handle 2 *)
Lemma stack_shared_manager_refuted : ~ stack_interleaved_statement_for true.
Proof.
  intros H.
  specialize (H aes128_enc aes128_enc_length
                {| conns := [(1%N, cstate0); (2%N, cstate0)]; llcm := [] |}
                {| p_central := true; p_h := 1; p_key := fips197_B_key; p_rand := 0; p_ediv := 0;
                   p_skdm := 11; p_ivm := 22; p_skds := 33; p_ivs := 44 |}
                {| p_central := true; p_h := 2; p_key := fips197_C1_key; p_rand := 5; p_ediv := 6;
                   p_skdm := 111; p_ivm := 222; p_skds := 333; p_ivs := 444 |}
                eq_refl eq_refl eq_refl eq_refl).
  assert (Hne : 1%N <> 2%N) by discriminate.
  (* the LTK in the first [set_encryption], the one for handle 1, is the key of handle 2 *)
  apply (f_equal (fun l => match l with LSetEnc _ _ _ k _ _ :: _ => hd 0%N k | _ => 0%N end)) in H; [|exact Hne].
  vm_compute in H. discriminate.
Qed.

(** * "any protected-bit change fails, for every E" is false: the constant block function *)
Lemma tamper_always_fails_refuted : ~ tamper_always_fails_statement.
Proof.
  intros H.
  destruct (H (fun _ _ => zeros 16) (fun _ _ => eq_refl)
              {| sk := []; iv := []; mcnt := 0; scnt := 0 |} [2; 1; 5]%N M2S
              [2; 1; 5; 0; 0; 0; 0]%N [2; 1; 6; 0; 0; 0; 0]%N) as [q Hq].
  - cbn. lia.
  - vm_compute. reflexivity.
  - reflexivity.
  - vm_compute. discriminate.
  - vm_compute in Hq. discriminate.
Qed.
