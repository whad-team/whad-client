(** C03 — the property's theorems.  Round trips and conversions are instances of lemmas of Proofs.v;
    "never raises" and the lists of inputs that give None are proved here, class by class.
    Every theorem quantifies over the scapy codec (no hypothesis on it): [canon codec k b] /
    [wf_pdu] mean "scapy rebuilds exactly the bytes [b] it dissected as layer [k]". *)
From Coq Require Import List NArith ZArith Bool.
From Whad Require Import Lib.Bytes C03.Model C03.Proofs.
Import ListNotations.
Open Scope Z_scope.

(** * Received-packet notifications: message -> packet -> message is the identity, field by field *)
Theorem C03_ble_adv_from_to : forall codec m,
  wf_ble_adv codec m = true -> bind (ble_adv_to codec m) (ble_adv_from codec) = Ok m.
Proof. intros codec. exact (wrapper_from_to _ _ _ (ble_adv_from_to_body codec)). Qed.
Theorem C03_ble_pdu_from_to : forall codec m,
  wf_ble_pdu codec m = true -> bind (ble_pdu_to codec m) ble_pdu_from = Ok m.
Proof. intros codec. exact (wrapper_from_to _ _ _ (ble_pdu_from_to_body codec)). Qed.
Theorem C03_ble_raw_from_to : forall codec m,
  wf_ble_raw codec m = true -> bind (ble_raw_to codec m) ble_raw_from = Ok m.
Proof. intros codec. exact (wrapper_from_to _ _ _ (ble_raw_from_to_body codec)). Qed.
Theorem C03_d15_pdu_from_to : forall codec m,
  wf_d15_pdu codec m = true -> bind (d15_pdu_to codec m) d15_pdu_from = Ok m.
Proof. intros codec. exact (wrapper_from_to _ _ _ (d15_pdu_from_to_body codec)). Qed.
Theorem C03_d15_raw_from_to : forall codec m,
  wf_d15_raw codec m = true -> bind (d15_raw_to codec m) d15_raw_from = Ok m.
Proof. intros codec. exact (wrapper_from_to _ _ _ (d15_raw_from_to_body codec)). Qed.
(** ESB ([uni = false]) and Logitech Unifying ([uni = true]) PduReceived *)
Theorem C03_esb_pdu_from_to : forall codec uni m,
  wf_esb_rx codec (esb_payload uni) m = true -> bind (esb_pdu_to codec uni m) (esb_rx_from false) = Ok m.
Proof. intros codec uni. exact (wrapper_from_to _ _ _ (esb_rx_from_to_body codec (esb_payload uni) uni _ _ false)). Qed.
(** RawPduReceived: for Unifying only when the preamble byte is 0xAA (known finding) *)
Theorem C03_esb_raw_from_to_partial : forall codec uni m,
  wf_esb_rx codec (esb_hdr uni) m = true -> (if uni then preamble_aa (er_pdu m) else true) = true ->
  bind (esb_raw_to codec uni m) (esb_rx_from uni) = Ok m.
Proof.
  intros codec uni m H Hp. apply (wrapper_from_to _ _ _ (esb_rx_from_to_body codec (esb_hdr uni) uni _ _ uni)).
  unfold wf_esb. rewrite Hp. exact H.
Qed.
(** PHY PacketReceived / RawPacketReceived, protocol version 1 and 2 ([raw] selects the raw class) *)
Theorem C03_phy_v1_from_to : forall raw m,
  wf_phy_rx1 m = true -> bind (phy_rx1_to raw m) phy_rx1_from = Ok m.
Proof. intros raw. exact (wrapper_from_to _ _ _ (phy_rx1_from_to_body raw)). Qed.
Theorem C03_phy_v2_from_to : forall raw m,
  wf_phy_rx2 m = true -> bind (phy_rx2_to raw m) phy_rx2_from = Ok m.
Proof. intros raw. exact (wrapper_from_to _ _ _ (phy_rx2_from_to_body raw)). Qed.

(** * Received-packet notifications: packet -> message -> packet is the identity
      (bytes, top layer and the complete metadata object) *)
Theorem C03_ble_adv_to_from : forall codec p,
  wfp_ble_adv codec p = true -> bind (ble_adv_from codec p) (ble_adv_to codec) = Ok p.
Proof. intros codec. exact (wrapper_to_from _ _ _ _ (ble_adv_from_to_body codec) (ble_adv_image codec)). Qed.
Theorem C03_ble_pdu_to_from : forall codec p,
  wfp_ble_pdu codec p = true -> bind (ble_pdu_from p) (ble_pdu_to codec) = Ok p.
Proof. intros codec. exact (wrapper_to_from _ _ _ _ (ble_pdu_from_to_body codec) (ble_pdu_image codec)). Qed.
Theorem C03_ble_raw_to_from : forall codec p,
  wfp_ble_raw codec p = true -> bind (ble_raw_from p) (ble_raw_to codec) = Ok p.
Proof. intros codec. exact (wrapper_to_from _ _ _ _ (ble_raw_from_to_body codec) (ble_raw_image codec)). Qed.
Theorem C03_d15_pdu_to_from : forall codec p,
  wfp_d15_pdu codec p = true -> bind (d15_pdu_from p) (d15_pdu_to codec) = Ok p.
Proof. intros codec. exact (wrapper_to_from _ _ _ _ (d15_pdu_from_to_body codec) (d15_pdu_image codec)). Qed.
Theorem C03_d15_raw_to_from : forall codec p,
  wfp_d15_raw codec p = true -> bind (d15_raw_from p) (d15_raw_to codec) = Ok p.
Proof. intros codec. exact (wrapper_to_from _ _ _ _ (d15_raw_from_to_body codec) (d15_raw_image codec)). Qed.
Theorem C03_esb_pdu_to_from : forall codec uni p,
  wfp_esb_pdu codec uni p = true -> bind (esb_rx_from false p) (esb_pdu_to codec uni) = Ok p.
Proof.
  intros codec uni.
  exact (wrapper_to_from _ _ _ _ (esb_rx_from_to_body codec (esb_payload uni) uni _ _ false) (esb_rx_image codec _ uni _ _ false)).
Qed.
Theorem C03_esb_raw_to_from_partial : forall codec uni p,
  wfp_esb_raw codec uni p = true -> (if uni then preamble_aa (p_bytes p) else true) = true ->
  bind (esb_rx_from uni p) (esb_raw_to codec uni) = Ok p.
Proof.
  intros codec uni p H Hp.
  apply (wrapper_to_from _ _ _ _ (esb_rx_from_to_body codec (esb_hdr uni) uni _ _ uni) (esb_rx_image codec _ uni _ _ uni)).
  unfold wfp_esb. rewrite Hp. exact H.
Qed.
Theorem C03_phy_v1_to_from : forall raw p,
  wfp_phy false raw p = true -> bind (phy_rx1_from p) (phy_rx1_to raw) = Ok p.
Proof. intros raw. exact (wrapper_to_from _ _ _ _ (phy_rx1_from_to_body raw) (phy_rx1_image raw)). Qed.
Theorem C03_phy_v2_to_from : forall raw p,
  wfp_phy true raw p = true -> bind (phy_rx2_from p) (phy_rx2_to raw) = Ok p.
Proof. intros raw. exact (wrapper_to_from _ _ _ _ (phy_rx2_from_to_body raw) (phy_rx2_image raw)). Qed.

(** * convert_packet: for a packet a connector sends, the hub builds a send message (raw or not by
      metadata.raw) and that message turns back into a packet with the same top layer, the same bytes
      and the same sending options (raw flag, channel, direction, connection handle, encrypt,
      retransmission count) *)
Theorem C03_convert_packet_send_ble : forall codec p, sendable_ble codec p = true ->
  exists s q, hub_convert p = Ok (SBle s) /\ send_to_packet codec (SBle s) = Ok q /\ send_same p q = true.
Proof. exact ble_convert_send. Qed.
Theorem C03_convert_packet_send_d15 : forall codec p, sendable_d15 codec p = true ->
  exists s q, hub_convert p = Ok (SD15 s) /\ send_to_packet codec (SD15 s) = Ok q /\ send_same p q = true.
Proof. exact d15_convert_send. Qed.
(** ESB / Unifying; a raw Unifying packet only with preamble 0xAA (inside [sendable_esb], known finding) *)
Theorem C03_convert_packet_send_esb_partial : forall codec uni p, sendable_esb codec uni p = true ->
  exists s q, hub_convert p = Ok ((if uni then SUni else SEsb) s)
              /\ send_to_packet codec ((if uni then SUni else SEsb) s) = Ok q /\ send_same p q = true.
Proof. exact esb_convert_send. Qed.
(** PHY, non-raw packets only (known finding for raw ones); the send message has no option *)
Theorem C03_convert_packet_send_phy_partial : forall codec p, sendable_phy p = true ->
  exists s q, hub_convert p = Ok (SPhy s) /\ send_to_packet codec (SPhy s) = Ok q
              /\ p_top q = p_top p /\ p_bytes q = p_bytes p.
Proof. exact phy_convert_send. Qed.

(** * A conversion that cannot represent its input returns None *)
Theorem C03_unrepresentable_none_adv_type : forall codec m,
  adv_layer_of_type (ba_type m) = None -> ble_adv_to codec m = NoneR.
Proof. intros codec m H. unfold ble_adv_to, ble_adv_to_body. now rewrite H. Qed.
Theorem C03_unrepresentable_none_adv_address : forall codec m,
  length (ba_addr m) <> 6%nat -> ble_adv_to codec m = NoneR.
Proof.
  intros codec m H. unfold ble_adv_to, ble_adv_to_body. destruct (adv_layer_of_type (ba_type m)) as [[c pt]|]; [|reflexivity].
  apply Nat.eqb_neq in H. now rewrite H.
Qed.
(** a packet without the layer the message kind needs; a packet whose metadata is of no known domain *)
Theorem C03_unrepresentable_none_layer :
  (forall p, has_btle p = false -> ble_raw_from p = NoneR)
  /\ (forall p, has_data p = false -> ble_pdu_from p = NoneR)
  /\ (forall codec p, has_adv p = false -> ble_adv_from codec p = NoneR)
  /\ (forall e p, has_btle p = false -> ble_send_raw_from e p = NoneR)
  /\ (forall e p, has_data p = false -> has_ctrl p = false -> has_adv p = false -> ble_send_from e p = NoneR)
  /\ (forall p, has_d15 p = false -> d15_pdu_from p = NoneR)
  /\ (forall p, layer_eqb (p_top p) LDot15d4FCS || layer_eqb (p_top p) LDot15d4Raw = false -> d15_raw_from p = NoneR)
  /\ (forall ch p, has_d15 p || layer_eqb (p_top p) LDot15d4Raw = false -> d15_send_from ch p = NoneR)
  /\ (forall ch p, has_d15 p || layer_eqb (p_top p) LDot15d4Raw = false -> d15_send_raw_from ch p = NoneR)
  /\ (forall p md, p_md p = Some md -> md_cls md = MdOther -> hub_convert p = NoneR).
Proof.
  repeat split; intros;
    try (apply failsafe_none;
         unfold ble_raw_from_body, ble_pdu_from_body, ble_adv_from_body, d15_pdu_from_body, d15_raw_from_body, d15_send_from_body;
         now rewrite H).
  - unfold ble_send_raw_from, ble_send_raw_from_body, get_md. destruct (p_md p); cbn [bind]; [rewrite H|]; reflexivity.
  - unfold ble_send_from, ble_send_from_body, get_md, ble_extract. destruct (p_md p); cbn [bind]; [rewrite H, H0, H1|]; reflexivity.
  - apply failsafe_none. unfold d15_send_raw_from_body. unfold has_d15 in H.
    destruct (layer_eqb (p_top p) LDot15d4FCS), (layer_eqb (p_top p) LDot15d4), (layer_eqb (p_top p) LDot15d4Raw); try discriminate; reflexivity.
  - unfold hub_convert, md_or_none. rewrite H. cbn [bind]. now rewrite H0.
Qed.
(** a packet without any metadata (every class that reads it), and hub.convert_packet of such a packet *)
Theorem C03_unrepresentable_none_no_metadata : forall codec c kw p,
  p_md p = None -> match c with CPhySend | CPhySendRaw | CD15Send | CD15SendRaw => false | _ => true end = true ->
  from_packet_any codec c kw p = NoneR.
Proof.
  (* [get_md] raises AttributeError, which [convert_failsafe] catches: for the classes that read the metadata first this is
     the whole computation; the five that test a layer or a header first return None there already *)
  intros codec c kw [top sub b md] H Hc. cbn in H. subst md.
  destruct c; try discriminate Hc; cbn; try reflexivity.
  - unfold ble_adv_from, ble_adv_from_body. destruct (has_adv _); [|reflexivity]. cbn zeta.
    destruct (inner _) as [|h0 [|l pay]]; try reflexivity. destruct (adv_of_pdu_type _) as [[cls at_]|]; [|reflexivity].
    now destruct (codec cls pay).
  - unfold ble_pdu_from, ble_pdu_from_body. now destruct (has_data _).
  - unfold ble_raw_from, ble_raw_from_body, ble_extract, btle_aa_crc. destruct (has_btle _); [|reflexivity].
    destruct (has_data _); [|destruct (has_ctrl _); [|destruct (has_adv _)]]; try reflexivity; now destruct (_ <? _)%nat.
  - unfold d15_pdu_from, d15_pdu_from_body. now destruct (has_d15 _).
  - unfold d15_raw_from, d15_raw_from_body. destruct (_ || _); [|reflexivity]. now destruct (_ <? _)%nat.
Qed.
Theorem C03_unrepresentable_none_no_metadata_hub : forall p, p_md p = None -> hub_convert p = NoneR.
Proof. intros p H. unfold hub_convert, md_or_none. now rewrite H. Qed.
(** the channel (802.15.4, ESB, Unifying) or the frequency (PHY) is None in the metadata *)
Theorem C03_unrepresentable_none_channel :
  (forall p md, p_md p = Some md -> md_channel md = None -> d15_pdu_from p = NoneR /\ d15_raw_from p = NoneR)
  /\ (forall f p md, p_md p = Some md -> md_channel md = None -> esb_rx_from f p = NoneR)
  /\ (forall r p md, p_md p = Some md -> md_channel md = None -> esb_tx_from r p = NoneR)
  /\ (forall p md, p_md p = Some md -> md_frequency md = None -> phy_rx1_from p = NoneR /\ phy_rx2_from p = NoneR)
  /\ (forall p md, p_md p = Some md -> md_cls md = MdD15 -> md_channel md = None -> hub_convert p = NoneR).
Proof.
  repeat split; intros.
  - unfold d15_pdu_from, d15_pdu_from_body, get_md. rewrite H. destruct (negb (has_d15 p)); [reflexivity|]. cbn [bind]. now rewrite H0.
  - unfold d15_raw_from, d15_raw_from_body, get_md. rewrite H.
    destruct (layer_eqb (p_top p) LDot15d4FCS || layer_eqb (p_top p) LDot15d4Raw); [|reflexivity].
    destruct (length (p_bytes p) <? 2)%nat; [reflexivity|]. cbn zeta. cbn [bind]. now rewrite H0.
  - unfold esb_rx_from, esb_rx_from_body, get_md. rewrite H. cbn zeta. cbn [bind]. now rewrite H0.
  - unfold esb_tx_from, esb_tx_from_body, get_md. rewrite H. cbn [bind]. now rewrite H0.
  - unfold phy_rx1_from, phy_rx1_from_body, get_md. rewrite H. cbn [bind]. now rewrite H0.
  - unfold phy_rx2_from, phy_rx2_from_body, get_md. rewrite H. cbn [bind]. now rewrite H0.
  - unfold hub_convert, md_or_none. rewrite H. cbn [bind]. rewrite H0.
    unfold d15_convert, md_or_none. rewrite H. cbn [bind]. rewrite H0. cbn [mdcls_eqb]. rewrite H1.
    unfold d15_send_raw_from, d15_send_from, d15_send_raw_from_body, d15_send_from_body.
    destruct (truthy (md_raw md)); cbn zeta;
      repeat match goal with |- context[if ?c then _ else _] => destruct c end; reflexivity.
Qed.
(** a PDU scapy cannot dissect (struct.error); a raw 802.15.4 frame is kept as Dot15d4Raw instead *)
Theorem C03_unrepresentable_none_undissectable : forall codec,
  (forall m, codec LBtleData (bs_pdu m) = CStruct -> ble_send_to codec m = NoneR)
  /\ (forall m, codec LBtleData (bp_pdu m) = CStruct -> ble_pdu_to codec m = NoneR)
  /\ (forall m, codec LBtle (le32z (br_aa m) ++ br_pdu m ++ be24z (br_crc m)) = CStruct -> ble_raw_to codec m = NoneR)
  /\ (forall m, codec LDot15d4 (ds_pdu m) = CStruct -> d15_send_to codec m = NoneR)
  /\ (forall m, codec LDot15d4 (dp_pdu m) = CStruct -> d15_pdu_to codec m = NoneR)
  /\ (forall m, codec LDot15d4FCS (dsr_pdu m ++ le16z (dsr_fcs m)) = CStruct -> d15_send_raw_to codec m = NoneR)
  /\ (forall uni m, codec (esb_payload uni) (et_pdu m) = CStruct -> esb_send_to codec uni m = NoneR)
  /\ (forall uni m, codec (esb_hdr uni) (et_pdu m) = CStruct -> esb_send_raw_to codec uni m = NoneR)
  /\ (forall uni m, codec (esb_payload uni) (er_pdu m) = CStruct -> esb_pdu_to codec uni m = NoneR)
  /\ (forall uni m, codec (esb_hdr uni) (er_pdu m) = CStruct -> esb_raw_to codec uni m = NoneR)
  /\ (forall m, in_u16 (dr_fcs m) = true -> codec LDot15d4FCS (dr_pdu m ++ le16z (dr_fcs m)) = CStruct ->
        exists p, d15_raw_to codec m = Ok p /\ p_top p = LDot15d4Raw /\ p_bytes p = dr_pdu m ++ le16z (dr_fcs m)).
Proof.
  intros codec. repeat split; intros;
    try (apply failsafe_to_none;
         unfold ble_send_to_body, ble_pdu_to_body, d15_send_to_body, d15_pdu_to_body, esb_send_to_body, esb_send_raw_to_body,
           esb_pdu_to_body, esb_raw_to_body, dissect;
         rewrite H; reflexivity).
  - apply failsafe_to_none. unfold ble_raw_to_body, dissect. destruct (negb (in_u32 (br_aa m) && in_u32 (br_crc m))); [reflexivity|]. now rewrite H.
  - apply failsafe_to_none. unfold d15_send_raw_to_body, dissect. destruct (negb (in_u16 (dsr_fcs m))); [reflexivity|]. now rewrite H.
  - unfold d15_raw_to, d15_raw_to_body. rewrite H. cbn [negb]. rewrite H0. eexists. repeat split.
Qed.
(** integers struct.pack rejects, PHY endian / modulation values outside their enum *)
Theorem C03_unrepresentable_none_out_of_range : forall codec,
  (forall m, in_u32 (br_aa m) && in_u32 (br_crc m) = false -> ble_raw_to codec m = NoneR)
  /\ (forall m, in_u16 (dsr_fcs m) = false -> d15_send_raw_to codec m = NoneR)
  /\ (forall m, in_u16 (dr_fcs m) = false -> d15_raw_to codec m = NoneR)
  /\ (forall raw m, (0 <=? pr_endian m) && (pr_endian m <=? 1) && ((0 <=? pr_modulation m) && (pr_modulation m <=? 7)) = false ->
        phy_rx2_to raw m = NoneR).
Proof.
  intros codec. repeat split; intros;
    try (apply failsafe_to_none; unfold ble_raw_to_body, d15_send_raw_to_body, d15_raw_to_body; now rewrite H).
  unfold phy_rx2_to, phy_rx2_to_body.
  destruct ((0 <=? pr_endian m) && (pr_endian m <=? 1)); cbn [negb]; [|reflexivity].
  cbn [andb] in H. now rewrite H.
Qed.

(** * ... and never raises: from_packet of every class, for EVERY packet, extra argument and codec;
      hub.convert_packet for every packet *)
Theorem C03_from_packet_never_raises : forall codec c kw p, raises (from_packet_any codec c kw p) = false.
Proof. intros codec c kw p. destruct c; apply omap_no_raise; auto with nr. Qed.
Theorem C03_convert_packet_never_raises : forall p, raises (hub_convert p) = false.
Proof.
  (* the hub only wraps what a Send class's from_packet returned *)
  intros p. unfold hub_convert, md_or_none. destruct (p_md p) as [md|] eqn:Emd; [|reflexivity]. cbn [bind].
  destruct (md_cls md) eqn:Ec;
    unfold ble_convert, d15_convert, esb_convert, phy_convert, md_or_none; rewrite ?Emd; cbn [bind]; rewrite ?Ec;
    cbn [mdcls_eqb esb_mdcls]; try reflexivity; destruct (truthy (md_raw md)); apply bind_ok_no_raise; auto with nr.
Qed.
(** the inputs that used to raise (None channel / direction / frequency, no metadata, endian = 5) give None *)
Theorem C03_metadata_none_regression :
  from_packet_any codec_id CBlePdu kw_default (pkt_with LBtleData MdBle None) = NoneR
  /\ from_packet_any codec_id CD15Pdu kw_default (pkt_with LDot15d4 MdD15 None) = NoneR
  /\ hub_convert (pkt_with LDot15d4 MdD15 None) = NoneR
  /\ from_packet_any codec_id CEsbPdu kw_default (pkt_with LEsbPayload MdEsb None) = NoneR
  /\ from_packet_any codec_id CUniPdu kw_default {| p_top := LUniPayload; p_sub := LRaw; p_bytes := []; p_md := None |} = NoneR
  /\ from_packet_any codec_id CPhyPkt1 kw_default (pkt_with LPhy MdPhy None) = NoneR
  /\ phy_rx2_to false {| pr_frequency := 1; pr_packet := []; pr_rssi := None; pr_timestamp := None; pr_iq := [];
                         pr_deviation := 0; pr_datarate := 0; pr_endian := 5; pr_modulation := 0; pr_syncword := [] |} = NoneR.
Proof. repeat split; vm_compute; reflexivity. Qed.

(** to_packet: FULL STATEMENT (refuted by SendRawPacket, known finding phy.send_raw-drops-packet-bytes,
    see C03_convert_packet_send_phy_refuted) and the part that holds: every other class, whenever scapy
    raises nothing but what dissect_failsafe catches (struct.error, ValueError) *)
Definition C03_to_packet_never_raises_statement : Prop :=
  forall codec c b, codec_no_exc codec -> well_typed c b = true -> raises (to_packet_any codec c b) = false.
Theorem C03_to_packet_never_raises_partial : forall codec c b,
  codec_no_exc codec -> well_typed c b = true -> match c with CPhySendRaw => false | _ => true end = true ->
  raises (to_packet_any codec c b) = false.
Proof.
  intros codec c b Hc Hw He.
  destruct c, b; try discriminate Hw; try discriminate He; cbn [to_packet_any]; apply failsafe_to_no_raise;
    unfold ble_send_raw_to_body, ble_send_to_body, ble_adv_to_body, ble_pdu_to_body, ble_raw_to_body, d15_send_to_body,
      d15_send_raw_to_body, d15_pdu_to_body, d15_raw_to_body, esb_send_to_body, esb_send_raw_to_body, esb_pdu_to_body,
      esb_raw_to_body, phy_send_to_body, phy_rx1_to_body, phy_rx2_to_body; cbn zeta; only_tree.
Qed.

(** FULL STATEMENTS refuted by the two remaining findings *)
Definition C03_uni_raw_from_to_statement : Prop :=
  forall codec m, wf_esb_rx codec LUniHdr m = true -> bind (esb_raw_to codec true m) (esb_rx_from true) = Ok m.
Definition C03_convert_packet_send_phy_statement : Prop :=
  forall codec p md, p_md p = Some md -> md_cls md = MdPhy -> p_top p = LPhy ->
    exists s q, hub_convert p = Ok (SPhy s) /\ send_to_packet codec (SPhy s) = Ok q /\ p_bytes q = p_bytes p.

Theorem C03_uni_raw_from_to_refuted :
  wf_esb_rx codec_id LUniHdr uni_55 = true
  /\ bind (esb_raw_to codec_id true uni_55) (esb_rx_from true)
     = Ok {| er_channel := 5; er_pdu := [170%N; 17%N; 2%N]; er_rssi := None; er_timestamp := None; er_valid := None; er_address := None |}.
Proof. split; vm_compute; reflexivity. Qed.
Theorem C03_uni_send_raw_refuted :
  exists p q s, hub_convert p = Ok (SUni s) /\ send_to_packet codec_id (SUni s) = Ok q
                /\ p_bytes p = [85%N; 17%N; 2%N] /\ p_bytes q = [170%N; 17%N; 2%N].
Proof.
  exists {| p_top := LUniHdr; p_sub := LRaw; p_bytes := [85%N; 17%N; 2%N];
            p_md := Some (md_esb true (Some true) None 5 None None None None None) |}.
  eexists. eexists. repeat split; vm_compute; reflexivity.
Qed.

Theorem C03_convert_packet_send_phy_refuted :
  let p := {| p_top := LPhy; p_sub := LRaw; p_bytes := [1%N; 2%N];
              p_md := Some (md_phy true 2402000000 None None None None None None None) |} in
  hub_convert p = Ok (SPhy (PSendRaw {| psr_iq := [] |}))
  /\ send_to_packet codec_id (SPhy (PSendRaw {| psr_iq := [] |})) = Raise AttributeError.
Proof. split; vm_compute; reflexivity. Qed.

(** * Sequences of conversions: whatever else is converted before or after, the i-th result is the
      conversion of the i-th input (conversions are functions of their own input; the implementation's
      kept and re-read results are compared with [seq_to] / [seq_from] / [seq_convert] on every run) *)
Theorem C03_sequence_independent : forall codec k kw,
  (forall ms i m, nth_error ms i = Some m -> nth_error (seq_to codec k ms) i = Some (to_packet_any codec k m))
  /\ (forall ps i p, nth_error ps i = Some p -> nth_error (seq_from codec k kw ps) i = Some (from_packet_any codec k kw p))
  /\ (forall ps i p, nth_error ps i = Some p -> nth_error (seq_convert ps) i = Some (hub_convert p)).
Proof. intros codec k kw. repeat split; intros; unfold seq_to, seq_from, seq_convert; apply map_nth_error; assumption. Qed.

(** * Non-vacuity: the premises are met by a concrete BLE raw notification (all optional items present,
      RSSI -40, timestamp 2^32-1, relative timestamp 2^63) whose packet is well-formed too *)
Example C03_nonvacuous :
  wf_ble_raw codec_btle sample_ble_raw = true
  /\ (exists p, ble_raw_to codec_btle sample_ble_raw = Ok p /\ wfp_ble_raw codec_btle p = true
                /\ p_bytes p = [68; 51; 34; 17; 2; 7; 3; 0; 4; 0; 10; 1; 0; 171; 205; 239]%N)
  /\ bind (ble_raw_to codec_btle sample_ble_raw) ble_raw_from = Ok sample_ble_raw.
Proof.
  split; [vm_compute; reflexivity|]. split; [|vm_compute; reflexivity].
  eexists. split; [vm_compute; reflexivity|]. split; vm_compute; reflexivity.
Qed.
