(** C03 — lemmas about the hub packet <-> message model.

    A wrapper class is a pair of bodies [to : M -> out packet], [from : packet -> out M] under the
    decorators [failsafe_to] / [failsafe].  Section [Wrapper] proves both round trips once, from two
    facts about the bodies: [from] undoes [to] on well-formed messages, and every well-formed packet
    is the packet of a well-formed message.  The rest of the file supplies these two facts class by
    class, and shows that bodies raise nothing the decorators do not catch. *)
From Coq Require Import List NArith ZArith Arith Bool Lia.
From Whad Require Import Lib.Bytes Lib.Lists C03.Model.
Import ListNotations.
Open Scope Z_scope.

(** ** Boolean premises as equations *)
Lemma set_u32_ok z : in_u32 z = true -> set_u32 (Some z) = Ok z.
Proof. intros H. unfold set_u32. now rewrite H. Qed.
Lemma set_i32_ok z : in_i32 z = true -> set_i32 (Some z) = Ok z.
Proof. intros H. unfold set_i32. now rewrite H. Qed.
Lemma opt_i32_ok v : ro_i32 v = true -> opt_i32 v = Ok v.
Proof. destruct v; cbn [ro_i32 opt_i32]; intros H; [now rewrite H | reflexivity]. Qed.
Lemma opt_u32_ok v : ro_u32 v = true -> opt_u32 v = Ok v.
Proof. destruct v; cbn [ro_u32 opt_u32]; intros H; [now rewrite H | reflexivity]. Qed.
Lemma opt_u64_ok v : ro_u64 v = true -> opt_u64 v = Ok v.
Proof. destruct v; cbn [ro_u64 opt_u64]; intros H; [now rewrite H | reflexivity]. Qed.
Lemma so_u32_inv v : so_u32 v = true -> exists z, v = Some z /\ in_u32 z = true.
Proof. destruct v; cbn [so_u32]; intros H; [eauto | discriminate]. Qed.
Lemma so_i32_inv v : so_i32 v = true -> exists z, v = Some z /\ in_i32 z = true.
Proof. destruct v; cbn [so_i32]; intros H; [eauto | discriminate]. Qed.
Lemma is_none_inv {A} (v : option A) : is_none v = true -> v = None.
Proof. destruct v; [discriminate | reflexivity]. Qed.
Lemma is_some_inv {A} (v : option A) : is_some v = true -> exists x, v = Some x.
Proof. destruct v; [eauto | discriminate]. Qed.
Lemma ob_is_inv v b : ob_is v b = true -> v = Some b.
Proof. destruct v as [x|]; [|discriminate]. intros H. apply eqb_prop in H. now subst. Qed.
Lemma ob_eqb_inv a b : ob_eqb a b = true -> a = b.
Proof. destruct a as [x|], b as [y|]; try discriminate; [|reflexivity]. intros H. apply eqb_prop in H. now subst. Qed.
Lemma mdcls_eqb_inv a b : mdcls_eqb a b = true -> a = b.
Proof. destruct a, b; first [reflexivity | discriminate]. Qed.
Lemma layer_eqb_inv a b : layer_eqb a b = true -> a = b.
Proof.
  (* 18 x 18 cases: stated so that each is closed by one constructor ([eq_refl] or [I]) *)
  assert (S : if layer_eqb a b then a = b else True) by (destruct a, b; constructor).
  intros H. now rewrite H in S.
Qed.
Lemma layer_eqb_refl a : layer_eqb a a = true.
Proof. destruct a; reflexivity. Qed.
Lemma mdcls_eqb_refl a : mdcls_eqb a a = true.
Proof. destruct a; reflexivity. Qed.
Lemma bytes_eqb_refl b : bytes_eqb b b = true.
Proof. now apply bytes_eqb_eq. Qed.
Lemma oz_eqb_refl v : oz_eqb v v = true.
Proof. destruct v; [apply Z.eqb_refl | reflexivity]. Qed.
Lemma ob_eqb_refl v : ob_eqb v v = true.
Proof. destruct v as [[]|]; reflexivity. Qed.

Lemma in_u24_u32 z : in_u24 z = true -> in_u32 z = true.
Proof. unfold in_u24, in_u32, two32. lia. Qed.
Lemma in_u16_u32 z : in_u16 z = true -> in_u32 z = true.
Proof. unfold in_u16, in_u32, two32. lia. Qed.

(* the PHY endianness / modulation enum values *)
Lemma opt_i32_small e : (0 <=? e) = true -> (e <=? 7) = true -> opt_i32 (Some e) = Ok (Some e).
Proof. intros A B. apply opt_i32_ok. unfold ro_i32, in_i32, two31. lia. Qed.

Lemma canon_inv codec k b : canon codec k b = true -> exists s, codec k b = COk b s.
Proof.
  unfold canon, wf_pdu. destruct (codec k b) as [b' s| |]; try discriminate.
  intros H. apply bytes_eqb_eq in H. subst. eauto.
Qed.
Lemma dissect_canon codec k b : canon codec k b = true -> exists s, dissect codec k b = Ok (b, s).
Proof. intros H. destruct (canon_inv _ _ _ H) as [s E]. exists s. unfold dissect. now rewrite E. Qed.

(** ** Bytes: [struct.pack] / [unpack] of the headers the hub code takes apart ([le16z], [le32z],
    [be24z] and their inverses) are instances of [le n] / [un_le], a number's little-endian digits *)
Fixpoint le (n : nat) (z : Z) : bytes := match n with O => [] | S n => bz z :: le n (z / 256) end.
Fixpoint un_le (l : bytes) : Z := match l with [] => 0 | x :: t => zb x + 256 * un_le t end.
Fixpoint pow256 (n : nat) : Z := match n with O => 1 | S n => 256 * pow256 n end.

Lemma zb_bz z : zb (bz z) = z mod 256.
Proof. unfold zb, bz. rewrite Z2N.id; [reflexivity|]. apply Z.mod_pos_bound. lia. Qed.
Lemma bz_zb x : (x < 256)%N -> bz (zb x) = x.
Proof. intros H. unfold zb, bz. rewrite Z.mod_small by lia. apply N2Z.id. Qed.

Lemma un_le_le n : forall z, 0 <= z < pow256 n -> un_le (le n z) = z.
Proof.
  induction n as [|n IH]; cbn [le un_le pow256]; intros z Hz; [lia|].
  rewrite zb_bz, IH, Z.add_comm; [symmetry; apply Z.div_mod; lia|].
  split; [apply Z.div_pos | apply Z.div_lt_upper_bound]; lia.
Qed.

Lemma le_un_le n l : length l = n -> wf_bytes l = true -> le n (un_le l) = l /\ 0 <= un_le l < pow256 n.
Proof.
  intros <-. induction l as [|x t IH]; cbn [le un_le pow256 length wf_bytes forallb]; [split; [reflexivity | lia]|].
  intros H. apply andb_prop in H. destruct H as [Hx Ht]. destruct (IH Ht) as [E B].
  assert (Hx' : 0 <= zb x < 256) by (unfold wf_byte, zb in *; lia).
  rewrite (Z.mul_comm 256), Z.div_add, Z.div_small, Z.add_0_l, E by lia.
  unfold bz. rewrite Z.mod_add, Z.mod_small by lia. unfold zb in *. rewrite N2Z.id.
  split; [reflexivity | lia].
Qed.

Lemma le_length n : forall z, length (le n z) = n.
Proof. induction n; intros z; cbn [le length]; [reflexivity | now rewrite IHn]. Qed.
Lemma wf_bytes_rev l : wf_bytes (rev l) = wf_bytes l.
Proof. unfold wf_bytes. induction l as [|x t IH]; [reflexivity|]. cbn [rev forallb]. rewrite forallb_app, IH. cbn. now rewrite andb_true_r, andb_comm. Qed.

Lemma le16z_le z : le16z z = le 2 z.
Proof. reflexivity. Qed.
Lemma le32z_le z : le32z z = le 4 z.
Proof. unfold le32z. cbn [le]. now rewrite !Z.div_div by lia. Qed.
Lemma be24z_le z : be24z z = rev (le 3 z).
Proof. unfold be24z. cbn [le rev app]. now rewrite !Z.div_div by lia. Qed.
Lemma un_le16z_le h r : length h = 2%nat -> un_le16z (h ++ r) = un_le h.
Proof. destruct h as [|a [|b [|]]]; try discriminate. intros _. cbn [app un_le16z un_le]. ring. Qed.
Lemma un_le32z_le h r : length h = 4%nat -> un_le32z (h ++ r) = un_le h.
Proof. destruct h as [|a [|b [|c [|d [|]]]]]; try discriminate. intros _. cbn [app un_le32z un_le]. ring. Qed.
Lemma un_be24z_le t : length t = 3%nat -> un_be24z t = un_le (rev t).
Proof. destruct t as [|a [|b [|c [|]]]]; try discriminate. intros _. cbn [rev app un_be24z un_le]. ring. Qed.

Lemma un_le16z_le16z z : in_u16 z = true -> un_le16z (le16z z) = z.
Proof.
  intros H. rewrite le16z_le, <- (app_nil_r (le 2 z)), un_le16z_le by apply le_length.
  apply un_le_le. unfold in_u16 in H. cbn [pow256]. lia.
Qed.
Lemma un_le32z_le32z z r : in_u32 z = true -> un_le32z (le32z z ++ r) = z.
Proof.
  intros H. rewrite le32z_le, un_le32z_le by apply le_length.
  apply un_le_le. unfold in_u32, two32 in H. cbn [pow256]. lia.
Qed.
Lemma un_be24z_be24z z : in_u24 z = true -> un_be24z (be24z z) = z.
Proof.
  intros H. rewrite be24z_le, un_be24z_le, rev_involutive by (rewrite rev_length; apply le_length).
  apply un_le_le. unfold in_u24 in H. cbn [pow256]. lia.
Qed.

Lemma butlastn_app (h t : bytes) : butlastn (length t) (h ++ t) = h.
Proof.
  unfold butlastn. rewrite app_length, Nat.add_sub, firstn_app, firstn_all, Nat.sub_diag. apply app_nil_r.
Qed.
Lemma lastn_app (h t : bytes) : lastn (length t) (h ++ t) = t.
Proof. unfold lastn. rewrite app_length, Nat.add_sub, skipn_app, skipn_all, Nat.sub_diag. reflexivity. Qed.
Lemma split_lastn (n : nat) (b : bytes) : (n <= length b)%nat -> exists h t, b = h ++ t /\ length t = n.
Proof.
  intros H. exists (butlastn n b), (lastn n b). unfold butlastn, lastn.
  split; [symmetry; apply firstn_skipn | rewrite skipn_length; lia].
Qed.

(** 802.15.4: frame = pdu ++ FCS (2 bytes, little endian) *)
Lemma split_fcs_app pdu t : length t = 2%nat -> split_fcs (pdu ++ t) = (pdu, un_le t).
Proof.
  intros H. unfold split_fcs. rewrite <- H, butlastn_app, lastn_app.
  rewrite <- (app_nil_r t) at 1. now rewrite un_le16z_le.
Qed.
Lemma split_fcs_le16z pdu fcs : in_u16 fcs = true ->
  split_fcs (pdu ++ le16z fcs) = (pdu, fcs) /\ (length (pdu ++ le16z fcs) <? 2)%nat = false.
Proof.
  intros H. split; [|apply Nat.ltb_ge; rewrite app_length; cbn; lia].
  unfold split_fcs. change 2%nat with (length (le16z fcs)). now rewrite butlastn_app, lastn_app, un_le16z_le16z.
Qed.
Lemma join_fcs b : wf_bytes b = true -> (2 <=? length b)%nat = true ->
  fst (split_fcs b) ++ le16z (snd (split_fcs b)) = b /\ in_u16 (snd (split_fcs b)) = true
  /\ (length b <? 2)%nat = false.
Proof.
  intros Hw Hl. apply Nat.leb_le in Hl. assert (Hn : (length b <? 2)%nat = false) by now apply Nat.ltb_ge.
  destruct (split_lastn 2 b Hl) as (h & t & -> & Ht).
  rewrite wf_bytes_app in Hw. apply andb_prop in Hw. destruct Hw as [_ Hw].
  destruct (le_un_le 2 t Ht Hw) as [E B].
  rewrite split_fcs_app by assumption. cbn [fst snd]. rewrite le16z_le, E.
  repeat split; [|exact Hn]. unfold in_u16. cbn [pow256] in B. lia.
Qed.

(** BLE: frame = access address (4 bytes, little endian) ++ pdu ++ CRC (3 bytes, big endian) *)
Lemma btle_parse h mid t : length h = 4%nat -> length t = 3%nat ->
  let f := h ++ mid ++ t in
  un_le32z f = un_le h /\ un_be24z (lastn 3 f) = un_le (rev t) /\ butlastn 3 (skipn 4 f) = mid
  /\ (length f <? 7)%nat = false.
Proof.
  intros Hh Ht f. unfold f. repeat split.
  - now apply un_le32z_le.
  - rewrite app_assoc, <- Ht, lastn_app. now apply un_be24z_le.
  - rewrite skipn_app_exact, <- Ht by assumption. apply butlastn_app.
  - rewrite !app_length, Hh, Ht. apply Nat.ltb_ge. lia.
Qed.

Lemma btle_frame_parts aa pdu crc :
  in_u32 aa = true -> in_u24 crc = true ->
  let f := btle_frame aa pdu crc in
  un_le32z f = aa /\ un_be24z (lastn 3 f) = crc /\ butlastn 3 (skipn 4 f) = pdu /\ (length f <? 7)%nat = false.
Proof.
  intros Ha Hc f. unfold f, btle_frame. repeat split.
  - now apply un_le32z_le32z.
  - rewrite app_assoc. change 3%nat with (length (be24z crc)). rewrite lastn_app. now apply un_be24z_be24z.
  - cbn [le32z app skipn]. change 3%nat with (length (be24z crc)). apply butlastn_app.
  - rewrite !app_length. cbn [le32z be24z length]. apply Nat.ltb_ge. lia.
Qed.

Lemma btle_frame_join b : wf_bytes b = true -> (7 <=? length b)%nat = true ->
  btle_frame (un_le32z b) (butlastn 3 (skipn 4 b)) (un_be24z (lastn 3 b)) = b
  /\ in_u32 (un_le32z b) = true /\ in_u24 (un_be24z (lastn 3 b)) = true /\ (length b <? 7)%nat = false.
Proof.
  intros Hw Hl. apply Nat.leb_le in Hl.
  destruct (split_lastn 3 b) as (r & t & -> & Ht); [lia|].
  assert (Hh : exists h mid, r = h ++ mid /\ length h = 4%nat).
  { exists (firstn 4 r), (skipn 4 r). rewrite firstn_skipn, firstn_length, app_length in *. split; [reflexivity | lia]. }
  destruct Hh as (h & mid & -> & Hh). rewrite <- app_assoc in *.
  rewrite !wf_bytes_app in Hw. apply andb_prop in Hw. destruct Hw as [Wh Hw]. apply andb_prop in Hw. destruct Hw as [_ Wt].
  destruct (btle_parse h mid t Hh Ht) as (P1 & P2 & P3 & P4). rewrite P1, P2, P3, P4.
  rewrite <- wf_bytes_rev in Wt. rewrite <- rev_length in Ht.
  destruct (le_un_le 4 h Hh Wh) as [E1 B1]. destruct (le_un_le 3 (rev t) Ht Wt) as [E2 B2].
  unfold btle_frame. rewrite le32z_le, be24z_le, E1, E2, rev_involutive.
  cbn [pow256] in B1, B2. unfold in_u32, in_u24, two32. split; [reflexivity | lia].
Qed.

Section Wrapper.
  Context {M : Type} (to : M -> out packet) (from : packet -> out M) (wf : M -> bool) (wfp : packet -> bool).
  Hypothesis from_to : forall m, wf m = true -> bind (to m) from = Ok m.
  Hypothesis image : forall p, wfp p = true -> exists m, wf m = true /\ to m = Ok p.

  Lemma wrapper_to_from_body p : wfp p = true -> bind (from p) to = Ok p.
  Proof.
    intros H. destruct (image p H) as (m & Hm & E). apply from_to in Hm.
    rewrite E in Hm. cbn in Hm. now rewrite Hm.
  Qed.

  Lemma wrapper_from_to m : wf m = true -> bind (failsafe_to (to m)) (fun p => failsafe (from p)) = Ok m.
  Proof. intros H. apply from_to in H. destruct (to m); try discriminate. cbn in *. now rewrite H. Qed.
  Lemma wrapper_to_from p : wfp p = true -> bind (failsafe (from p)) (fun m => failsafe_to (to m)) = Ok p.
  Proof. intros H. apply wrapper_to_from_body in H. destruct (from p); try discriminate. cbn in *. now rewrite H. Qed.
End Wrapper.

(** For [cbn] on a method body applied to an explicit record: ranges, setters and byte codecs stay folded *)
Global Opaque in_u32 in_i32 in_u64 in_u16 in_u24.
Arguments set_u32 : simpl never.
Arguments set_i32 : simpl never.
Arguments opt_i32 : simpl never.
Arguments opt_u32 : simpl never.
Arguments opt_u64 : simpl never.
Arguments split_fcs : simpl never.
Arguments le32z : simpl never.
Arguments be24z : simpl never.
Arguments le16z : simpl never.
Arguments wf_bytes : simpl never.
#[local] Arguments skipn : simpl never.
#[local] Arguments firstn : simpl never.
#[local] Arguments Nat.ltb : simpl never.

(** [eqns] substitutes the items that a premise fixes and names
    the value of an item [v] that must be present [v0]; [use_canon] names the dissection of the
    canonical PDU [s], its equation [E]. *)
Ltac split_and :=
  repeat match goal with H : _ && _ = true |- _ => apply andb_prop in H; destruct H end.
Ltac eqns :=
  repeat match goal with
  | H : so_u32 ?v = true |- _ => let z := fresh v in apply so_u32_inv in H; destruct H as (z & ? & ?)
  | H : so_i32 ?v = true |- _ => let z := fresh v in apply so_i32_inv in H; destruct H as (z & ? & ?)
  | H : is_none _ = true |- _ => apply is_none_inv in H
  | H : is_some ?v = true |- _ => let z := fresh v in apply is_some_inv in H; destruct H as [z ?]
  | H : ob_is _ _ = true |- _ => apply ob_is_inv in H
  | H : ob_eqb _ _ = true |- _ => apply ob_eqb_inv in H
  | H : mdcls_eqb _ _ = true |- _ => apply mdcls_eqb_inv in H
  | H : layer_eqb _ _ = true |- _ => apply layer_eqb_inv in H
  | H : (_ =? _) = true |- _ => apply Z.eqb_eq in H
  end; subst.
Ltac setters :=
  rewrite ?set_u32_ok, ?set_i32_ok, ?opt_i32_ok, ?opt_u32_ok, ?opt_u64_ok by assumption.
Ltac use_canon :=
  match goal with H : canon _ _ _ = true |- _ =>
    let s := fresh "s" in let E := fresh "E" in destruct (dissect_canon _ _ _ H) as [s E]
  end.
Ltac destruct_md md :=
  destruct md as [mcls mraw mdec mts mch mrssi mdir mconn mvalid mrel menc mproc mlqi maddr mretr mfreq mend mdev
                  mrate mmod msync].
Ltac wf_record := repeat (apply andb_true_intro; split); first [assumption | reflexivity].

(** ** 802.15.4 *)
Lemma wfmd_d15_inv m : wfmd_d15 m = true ->
  exists ch rssi ts valid lqi, m = md_d15 None (Some false) ch rssi ts valid lqi
    /\ in_u32 ch = true /\ ro_i32 rssi = true /\ ro_u64 ts = true /\ ro_u32 lqi = true.
Proof.
  destruct_md m. unfold wfmd_d15, md_no_ble, md_no_esb, md_no_phy. intros H. cbn in H. split_and. eqns.
  do 5 eexists. split; [reflexivity | auto].
Qed.

Lemma d15_pdu_from_to_body codec m :
  wf_d15_pdu codec m = true -> bind (d15_pdu_to_body codec m) d15_pdu_from_body = Ok m.
Proof.
  destruct m as [ch pdu rssi ts valid lqi]. unfold wf_d15_pdu. intros H. cbn in H. split_and. use_canon.
  unfold d15_pdu_to_body. cbn. rewrite E. cbn.
  unfold d15_pdu_from_body, get_md. cbn. setters. reflexivity.
Qed.

Lemma d15_pdu_image codec p :
  wfp_d15_pdu codec p = true -> exists m, wf_d15_pdu codec m = true /\ d15_pdu_to_body codec m = Ok p.
Proof.
  destruct p as [top sub b [md|]]; unfold wfp_d15_pdu; intros H; cbn in H; split_and; [|discriminate]. eqns.
  destruct (wfmd_d15_inv md) as (ch & rssi & ts & valid & lqi & -> & ? & ? & ? & ?); [assumption|]. use_canon.
  exists {| dp_channel := ch; dp_pdu := b; dp_rssi := rssi; dp_timestamp := ts; dp_valid := valid; dp_lqi := lqi |}.
  unfold wf_d15_pdu, d15_pdu_to_body. cbn. rewrite E. split; [wf_record | reflexivity].
Qed.

Lemma d15_raw_from_to_body codec m :
  wf_d15_raw codec m = true -> bind (d15_raw_to_body codec m) d15_raw_from_body = Ok m.
Proof.
  destruct m as [ch pdu fcs rssi ts valid lqi]. unfold wf_d15_raw. intros H. cbn in H. split_and.
  assert (Hf : in_u16 fcs = true) by assumption. pose proof (in_u16_u32 _ Hf).
  destruct (canon_inv codec LDot15d4FCS (pdu ++ le16z fcs)) as [s E]; [assumption|].
  unfold d15_raw_to_body. cbn. rewrite Hf, E. cbn.
  destruct (split_fcs_le16z pdu fcs Hf) as [Es El].
  unfold d15_raw_from_body, get_md. cbn. rewrite Es, El. cbn. setters. reflexivity.
Qed.

Lemma d15_raw_image codec p :
  wfp_d15_raw codec p = true -> exists m, wf_d15_raw codec m = true /\ d15_raw_to_body codec m = Ok p.
Proof.
  destruct p as [top sub b [md|]]; unfold wfp_d15_raw; intros H; cbn in H; split_and; [|discriminate]. eqns.
  destruct (wfmd_d15_inv md) as (ch & rssi & ts & valid & lqi & -> & ? & ? & ? & ?); [assumption|].
  destruct (join_fcs b) as (Ej & Eu & _); [assumption..|].
  destruct (canon_inv codec LDot15d4FCS b) as [s E]; [assumption|].
  exists {| dr_channel := ch; dr_pdu := fst (split_fcs b); dr_fcs := snd (split_fcs b); dr_rssi := rssi;
            dr_timestamp := ts; dr_valid := valid; dr_lqi := lqi |}.
  unfold wf_d15_raw, d15_raw_to_body. cbn. rewrite Ej, Eu, E. split; [wf_record | reflexivity].
Qed.

(** ** ESB / Unifying *)
Lemma force_preamble_id b : preamble_aa b = true -> force_preamble b = b.
Proof. destruct b as [|x t]; cbn; [reflexivity|]. intros H. apply N.eqb_eq in H. now subst. Qed.

Lemma wfmd_esb_inv uni raw decr m : wfmd_esb uni raw decr m = true ->
  exists ch rssi ts valid addr, m = md_esb uni raw decr ch rssi ts valid addr None
    /\ in_u32 ch = true /\ ro_i32 rssi = true /\ ro_u64 ts = true.
Proof.
  destruct_md m. unfold wfmd_esb, md_no_ble, md_no_d15, md_no_phy. intros H. cbn in H. split_and. eqns.
  do 5 eexists. split; [reflexivity | auto].
Qed.

(** PduReceived and RawPduReceived, ESB and Unifying, are one class up to the layer [k] the PDU is
    dissected as and the [raw] / [decrypted] flags of the metadata.  [force]: Unifying
    RawPduReceived.from_packet sets the preamble to 0xAA, so its round trips hold for that preamble only. *)
Definition esb_rx_to_body codec (k : layer) (uni : bool) (raw decr : option bool) (m : esb_rx) : out packet :=
  bind (dissect codec k (er_pdu m)) (fun r =>
  Ok {| p_top := k; p_sub := LRaw; p_bytes := fst r;
        p_md := Some (md_esb uni raw decr (er_channel m) (er_rssi m) (er_timestamp m) (er_valid m) (er_address m) None) |}).
Definition wf_esb codec k (force : bool) (m : esb_rx) : bool :=
  (if force then preamble_aa (er_pdu m) else true) && wf_esb_rx codec k m.
Definition wfp_esb codec k uni raw decr (force : bool) (p : packet) : bool :=
  (if force then preamble_aa (p_bytes p) else true)
  && (layer_eqb (p_top p) k && layer_eqb (p_sub p) LRaw && canon codec k (p_bytes p)
      && match p_md p with Some m => wfmd_esb uni raw decr m | None => false end).

Lemma esb_rx_from_to_body codec k uni raw decr force m :
  wf_esb codec k force m = true -> bind (esb_rx_to_body codec k uni raw decr m) (esb_rx_from_body force) = Ok m.
Proof.
  destruct m as [ch pdu rssi ts valid addr]. unfold wf_esb, wf_esb_rx. intros H. cbn in H. split_and. use_canon.
  unfold esb_rx_to_body. cbn. rewrite E. cbn.
  unfold esb_rx_from_body, get_md. cbn. setters. cbn.
  (* a forced preamble is 0xAA already *)
  destruct force; cbn; [|reflexivity]. destruct (_ || _); [rewrite force_preamble_id by assumption|]; reflexivity.
Qed.

Lemma esb_rx_image codec k uni raw decr force p : wfp_esb codec k uni raw decr force p = true ->
  exists m, wf_esb codec k force m = true /\ esb_rx_to_body codec k uni raw decr m = Ok p.
Proof.
  destruct p as [top sub b [md|]]; unfold wfp_esb; intros H; cbn in H; split_and; [|discriminate]. eqns.
  edestruct wfmd_esb_inv as (ch & rssi & ts & valid & addr & -> & ? & ? & ?); [eassumption|]. use_canon.
  exists {| er_channel := ch; er_pdu := b; er_rssi := rssi; er_timestamp := ts; er_valid := valid; er_address := addr |}.
  unfold wf_esb, wf_esb_rx, esb_rx_to_body. cbn. rewrite E. split; [wf_record | reflexivity].
Qed.

(** ** PHY *)
Lemma phy_rx1_from_to_body raw m : wf_phy_rx1 m = true -> bind (phy_rx1_to_body raw m) phy_rx1_from_body = Ok m.
Proof.
  destruct m as [f pk rssi ts iq de da en mo sw]. unfold wf_phy_rx1. intros H. cbn in H. split_and.
  destruct iq; [|discriminate]. destruct sw; [|discriminate]. eqns.
  unfold phy_rx1_to_body, phy_rx1_from_body, get_md. cbn. setters. reflexivity.
Qed.

Lemma phy_rx1_image raw p : wfp_phy false raw p = true -> exists m, wf_phy_rx1 m = true /\ phy_rx1_to_body raw m = Ok p.
Proof.
  destruct p as [top sub b [md|]]; [destruct_md md|];
    unfold wfp_phy, md_no_ble, md_no_d15, md_no_esb; intros H; cbn in H; split_and; [|discriminate]. eqns.
  exists {| pr_frequency := mfreq0; pr_packet := b; pr_rssi := mrssi; pr_timestamp := mts; pr_iq := []; pr_deviation := 0;
            pr_datarate := 0; pr_endian := 0; pr_modulation := 0; pr_syncword := [] |}.
  unfold wf_phy_rx1. cbn. split; [wf_record | reflexivity].
Qed.

Lemma phy_rx2_from_to_body raw m : wf_phy_rx2 m = true -> bind (phy_rx2_to_body raw m) phy_rx2_from_body = Ok m.
Proof.
  destruct m as [f pk rssi ts iq de da en mo sw]. unfold wf_phy_rx2. intros H. cbn in H. split_and. destruct iq; [|discriminate].
  assert (He : (0 <=? en) && (en <=? 1) = true) by wf_record. assert (Hm : (0 <=? mo) && (mo <=? 7) = true) by wf_record.
  unfold phy_rx2_to_body. cbn. rewrite He, Hm. cbn.
  unfold phy_rx2_from_body, get_md. cbn. setters.
  rewrite (opt_i32_small en), (opt_i32_small mo) by (assumption || lia). reflexivity.
Qed.

Lemma phy_rx2_image raw p : wfp_phy true raw p = true -> exists m, wf_phy_rx2 m = true /\ phy_rx2_to_body raw m = Ok p.
Proof.
  destruct p as [top sub b [md|]]; [destruct_md md|];
    unfold wfp_phy, md_no_ble, md_no_d15, md_no_esb; intros H; cbn in H; split_and; [|discriminate]. eqns.
  destruct mend as [en|]; [|discriminate]. destruct mmod as [mo|]; [|discriminate]. split_and.
  exists {| pr_frequency := mfreq0; pr_packet := b; pr_rssi := mrssi; pr_timestamp := mts; pr_iq := []; pr_deviation := mdev0;
            pr_datarate := mrate0; pr_endian := en; pr_modulation := mo; pr_syncword := msync0 |}.
  assert (He : (0 <=? en) && (en <=? 1) = true) by wf_record. assert (Hm : (0 <=? mo) && (mo <=? 7) = true) by wf_record.
  unfold wf_phy_rx2, phy_rx2_to_body. cbn. rewrite He, Hm. split; [wf_record | reflexivity].
Qed.

(** ** BLE *)
Lemma ble_pdu_from_to_body codec m : wf_ble_pdu codec m = true -> bind (ble_pdu_to_body codec m) ble_pdu_from_body = Ok m.
Proof.
  destruct m as [d pdu c pr de]. unfold wf_ble_pdu. intros H. cbn in H. split_and. use_canon.
  unfold ble_pdu_to_body. cbn. rewrite E. cbn.
  unfold ble_pdu_from_body, get_md, get_processed, inner. cbn. setters. reflexivity.
Qed.

Lemma ble_pdu_image codec p : wfp_ble_pdu codec p = true -> exists m, wf_ble_pdu codec m = true /\ ble_pdu_to_body codec m = Ok p.
Proof.
  destruct p as [top sub b [md|]]; [destruct_md md|];
    unfold wfp_ble_pdu, md_no_d15, md_no_esb, md_no_phy; intros H; cbn in H; split_and; [|discriminate]. eqns.
  destruct mproc as [[pr|]|]; try discriminate. use_canon.
  exists {| bp_direction := mdir0; bp_pdu := b; bp_conn := mconn0; bp_processed := pr; bp_decrypted := mdec0 |}.
  unfold wf_ble_pdu, ble_pdu_to_body. cbn. rewrite E. split; [wf_record | reflexivity].
Qed.

Lemma canon_btle_inv codec f : canon_btle codec f = true ->
  exists s, codec LBtle f = COk f s /\ layer_eqb s LBtleData || layer_eqb s LBtleAdv = true.
Proof.
  unfold canon_btle. destruct (codec LBtle f) as [b s| |]; try discriminate. intros H. split_and.
  apply bytes_eqb_eq in H. subst. eauto.
Qed.

Lemma ble_extract_btle sub b md : layer_eqb sub LBtleData || layer_eqb sub LBtleAdv = true ->
  ble_extract {| p_top := LBtle; p_sub := sub; p_bytes := b; p_md := md |} = Ok (butlastn 3 (skipn 4 b)).
Proof. destruct sub; try discriminate; reflexivity. Qed.

Lemma ble_raw_from_to_body codec m : wf_ble_raw codec m = true -> bind (ble_raw_to_body codec m) ble_raw_from_body = Ok m.
Proof.
  destruct m as [d ch rssi ts rel valid aa pdu crc conn pr de]. unfold wf_ble_raw. intros H. cbn in H. split_and.
  destruct (canon_btle_inv codec (btle_frame aa pdu crc)) as (s & E & Hs); [assumption|].
  destruct (btle_frame_parts aa pdu crc) as (P1 & P2 & P3 & P4); [assumption..|].
  assert (Ha : in_u32 aa = true) by assumption. assert (Hc : in_u32 crc = true) by (apply in_u24_u32; assumption).
  unfold ble_raw_to_body, dissect. cbn. fold (btle_frame aa pdu crc). rewrite Ha, Hc, E. cbn.
  unfold ble_raw_from_body, has_btle, btle_aa_crc, get_md, get_processed. rewrite ble_extract_btle by assumption.
  cbn. rewrite P1, P2, P3, P4. cbn. setters. reflexivity.
Qed.

Lemma ble_raw_image codec p : wfp_ble_raw codec p = true -> exists m, wf_ble_raw codec m = true /\ ble_raw_to_body codec m = Ok p.
Proof.
  destruct p as [top sub b [md|]]; [destruct_md md|];
    unfold wfp_ble_raw, md_no_d15, md_no_esb, md_no_phy; intros H; cbn in H; split_and; [|discriminate]. eqns.
  destruct mproc as [[pr|]|]; try discriminate.
  destruct (btle_frame_join b) as (J & Ja & Jc & _); [assumption..|]. pose proof (in_u24_u32 _ Jc) as Jc32.
  exists {| br_direction := mdir0; br_channel := mch0; br_rssi := mrssi; br_timestamp := mts; br_rel_ts := mrel;
            br_valid := mvalid; br_aa := un_le32z b; br_pdu := butlastn 3 (skipn 4 b); br_crc := un_be24z (lastn 3 b);
            br_conn := mconn0; br_processed := pr; br_decrypted := mdec0 |}.
  unfold wf_ble_raw, canon_btle, ble_raw_to_body, dissect. cbn.
  fold (btle_frame (un_le32z b) (butlastn 3 (skipn 4 b)) (un_be24z (lastn 3 b))). rewrite J, Ja, Jc32.
  destruct (codec LBtle b) as [b' s'| |]; try discriminate. split_and. eqns.
  assert (b' = b) as -> by now apply bytes_eqb_eq. rewrite bytes_eqb_refl.
  split; [wf_record | reflexivity].
Qed.

(** advertising PDUs: the header byte is the PDU type plus TxAdd (0x40); what is needed of it is
    decided by evaluation on the five types *)
Definition adv_pdu_type (pt : Z) : Prop := pt = 0 \/ pt = 1 \/ pt = 2 \/ pt = 4 \/ pt = 6.

Lemma adv_tables t cls pt : adv_layer_of_type t = Some (cls, pt) -> adv_of_pdu_type pt = Some (cls, t) /\ adv_pdu_type pt.
Proof.
  unfold adv_layer_of_type, adv_pdu_type. intros H.
  repeat match type of H with context[t =? ?c] => destruct (Z.eqb_spec t c) as [->|_] end;
    try discriminate; injection H as <- <-; split; auto 6.
Qed.
Lemma adv_tables_inv pt cls t : adv_of_pdu_type pt = Some (cls, t) -> adv_layer_of_type t = Some (cls, pt) /\ adv_pdu_type pt.
Proof.
  unfold adv_of_pdu_type, adv_pdu_type. intros H.
  repeat match type of H with context[pt =? ?c] => destruct (Z.eqb_spec pt c) as [->|_] end;
    try discriminate; injection H as <- <-; split; auto 6.
Qed.

Lemma adv_header pt at_ : adv_pdu_type pt -> (at_ =? 0) || (at_ =? 1) = true ->
  let h := zb (bz (pt + (if at_ =? 1 then 64 else 0))) in
  h mod 16 = pt /\ (if (h / 64) mod 2 =? 1 then 1 else 0) = at_.
Proof.
  intros Hpt Ha. apply orb_prop in Ha. destruct Ha as [Ha|Ha]; apply Z.eqb_eq in Ha; subst at_;
    destruct Hpt as [->|[->|[->|[->| ->]]]]; split; reflexivity.
Qed.
Lemma adv_header_inv v : adv_pdu_type (v mod 16) -> (v =? v mod 16) || (v =? v mod 16 + 64) = true ->
  let a := if (v / 64) mod 2 =? 1 then 1 else 0 in
  v mod 16 + (if a =? 1 then 64 else 0) = v /\ (a =? 0) || (a =? 1) = true.
Proof.
  remember (v mod 16) as pt eqn:Ept. intros Hpt Hv. apply orb_prop in Hv.
  destruct Hv as [Hv|Hv]; apply Z.eqb_eq in Hv; destruct Hpt as [->|[->|[->|[->| ->]]]]; subst v; split; reflexivity.
Qed.

Lemma ble_adv_from_to_body codec m : wf_ble_adv codec m = true -> bind (ble_adv_to_body codec m) (ble_adv_from_body codec) = Ok m.
Proof.
  destruct m as [t rssi addr data at_]. unfold wf_ble_adv. intros H. cbn in H. split_and.
  destruct (adv_layer_of_type t) as [[cls pt]|] eqn:Et; [|discriminate]. split_and.
  destruct (adv_tables t cls pt Et) as [Et' Hpt]. destruct (adv_header pt at_) as [Eh Ea]; [assumption..|].
  destruct (canon_inv codec cls (addr ++ data)) as [s Ec]; [assumption|].
  assert (Hl : (length addr =? 6)%nat = true) by assumption. pose proof (proj1 (Nat.eqb_eq _ _) Hl) as Hl6.
  unfold ble_adv_to_body, dissect. cbn. rewrite Et, Ec, Hl. cbn.
  unfold ble_adv_from_body, inner, get_md. cbn. rewrite Eh, Et', Ec, Ea. cbn. setters. cbn.
  rewrite (firstn_app_exact 6 addr data Hl6), (skipn_app_exact 6 addr data Hl6).
  destruct (layer_eqb cls LAdvDirect); [|reflexivity].
  assert (Hd : length data = 6%nat) by now apply Nat.eqb_eq. now rewrite <- Hd, firstn_all.
Qed.

Lemma ble_adv_image codec p : wfp_ble_adv codec p = true -> exists m, wf_ble_adv codec m = true /\ ble_adv_to_body codec m = Ok p.
Proof.
  destruct p as [top sub b [md|]]; [destruct_md md|];
    unfold wfp_ble_adv, md_no_d15, md_no_esb, md_no_phy; intros H; cbn in H; split_and; try discriminate.
  destruct b as [|h0 [|l pay]]; try discriminate.
  destruct (adv_of_pdu_type (zb h0 mod 16)) as [[cls at_]|] eqn:Et; [|discriminate]. split_and. eqns.
  destruct mdir as [d|]; [|discriminate]. assert (d = 0) as -> by now apply Z.eqb_eq.
  destruct (adv_tables_inv _ cls at_ Et) as [Et' Hpt]. destruct (adv_header_inv (zb h0)) as [Eh Ea]; [assumption..|].
  destruct (canon_inv codec cls pay) as [s Ec]; [assumption|].
  assert (Hh : (h0 < 256)%N /\ (l < 256)%N).
  { assert (Hw : wf_bytes [h0; l] = true) by assumption. unfold wf_bytes in Hw. cbn in Hw. split_and.
    split; now apply N.ltb_lt. }
  assert (Hl : zb l = Z.of_nat (length pay)) by assumption.
  assert (Hl6 : (6 <= length pay)%nat) by now apply Nat.leb_le.
  (* AdvA, then the data; for the direct type that is the 6 bytes of InitA *)
  assert (Hd : (if layer_eqb cls LAdvDirect then (length (skipn 6 pay) =? 6)%nat else true) = true).
  { destruct (layer_eqb cls LAdvDirect); [|reflexivity].
    assert (H12 : length pay = 12%nat) by now apply Nat.eqb_eq. now rewrite skipn_length, H12. }
  exists {| ba_type := at_; ba_rssi := mrssi0; ba_addr := firstn 6 pay; ba_data := skipn 6 pay;
            ba_addr_type := if (zb h0 / 64) mod 2 =? 1 then 1 else 0 |}.
  split.
  - unfold wf_ble_adv. cbn. rewrite Et'. cbn. rewrite Hd, firstn_skipn, firstn_length_le by assumption. wf_record.
  - unfold ble_adv_to_body, dissect. cbn. rewrite Et', firstn_length_le by assumption. cbn.
    rewrite firstn_skipn, Ec. cbn. now rewrite Eh, <- Hl, !bz_zb by apply Hh.
Qed.

(** ** convert_packet: the send message built for a packet a connector sends, turned back into a packet *)

Lemma send_same_intro p q a b :
  p_md p = Some a -> p_md q = Some b -> p_top p = p_top q -> p_bytes p = p_bytes q ->
  md_cls a = md_cls b -> truthy (md_raw a) = truthy (md_raw b) -> md_channel a = md_channel b ->
  md_direction a = md_direction b -> md_conn a = md_conn b -> md_encrypt a = md_encrypt b -> retr_of a = retr_of b ->
  send_same p q = true.
Proof.
  intros Ea Eb Et Ey Ec Er Eh Ed En Ee Ex. unfold send_same. rewrite Ea, Eb, Et, Ey, Ec, Er, Eh, Ed, En, Ee, Ex.
  now rewrite layer_eqb_refl, bytes_eqb_refl, mdcls_eqb_refl, eqb_reflx, !oz_eqb_refl, ob_eqb_refl, Z.eqb_refl.
Qed.

Lemma ble_convert_send codec p : sendable_ble codec p = true ->
  exists s q, hub_convert p = Ok (SBle s) /\ send_to_packet codec (SBle s) = Ok q /\ send_same p q = true.
Proof.
  destruct p as [top sub b [md|]]; [destruct_md md|]; unfold sendable_ble; intros H; cbn in H; [|discriminate].
  split_and. eqns. unfold hub_convert, ble_convert, md_or_none. cbn.
  destruct (truthy mraw) eqn:Eraw; split_and; eqns.
  - destruct (btle_frame_join b) as (J & Ja & Jc & Jl); [assumption..|]. pose proof (in_u24_u32 _ Jc).
    do 2 eexists. split; [|split].
    + unfold ble_send_raw_from, ble_send_raw_from_body, has_btle, btle_aa_crc, get_md.
      rewrite ble_extract_btle by assumption. cbn. rewrite Jl. cbn. setters. reflexivity.
    + reflexivity.
    + eapply send_same_intro; [reflexivity | reflexivity | ..]; cbn; try reflexivity; [symmetry; exact J | now rewrite Eraw].
  - use_canon. do 2 eexists. split; [|split].
    + unfold ble_send_from, ble_send_from_body, get_md. cbn. setters. reflexivity.
    + cbn. unfold ble_send_to, ble_send_to_body. cbn. now rewrite E.
    + eapply send_same_intro; [reflexivity | reflexivity | ..]; cbn; try reflexivity. now rewrite Eraw.
Qed.

Lemma d15_convert_send codec p : sendable_d15 codec p = true ->
  exists s q, hub_convert p = Ok (SD15 s) /\ send_to_packet codec (SD15 s) = Ok q /\ send_same p q = true.
Proof.
  destruct p as [top sub b [md|]]; [destruct_md md|]; unfold sendable_d15; intros H; cbn in H; [|discriminate].
  split_and. eqns. unfold hub_convert, d15_convert, md_or_none. cbn.
  destruct (truthy mraw) eqn:Eraw; split_and; eqns; use_canon.
  - destruct (join_fcs b) as (Ej & Eu & El); [assumption..|].
    do 2 eexists. split; [|split].
    + unfold d15_send_raw_from, d15_send_raw_from_body. cbn. rewrite El. cbn. setters. reflexivity.
    + cbn. unfold d15_send_raw_to, d15_send_raw_to_body. cbn. now rewrite Eu, Ej, E.
    + eapply send_same_intro; [reflexivity | reflexivity | ..]; cbn; try reflexivity. now rewrite Eraw.
  - do 2 eexists. split; [|split].
    + unfold d15_send_from, d15_send_from_body. cbn. setters. reflexivity.
    + cbn. unfold d15_send_to, d15_send_to_body. cbn. now rewrite E.
    + eapply send_same_intro; [reflexivity | reflexivity | ..]; cbn; try reflexivity. now rewrite Eraw.
Qed.

(* ESB and Unifying differ in the hub's dispatch and in the class that sends; below that, [uni] stays a variable *)
Lemma hub_convert_esb (uni : bool) p md : p_md p = Some md -> md_cls md = esb_mdcls uni ->
  hub_convert p = bind (esb_convert uni p) (fun m : esb_sendmsg => Ok ((if uni then SUni else SEsb) m)).
Proof. intros Ep Ec. unfold hub_convert, md_or_none. rewrite Ep. cbn [bind]. rewrite Ec. now destruct uni. Qed.
Lemma send_to_packet_esb codec (uni : bool) s :
  send_to_packet codec ((if uni then SUni else SEsb) s)
  = match s with ESendRaw x => esb_send_raw_to codec uni x | ESend x => esb_send_to codec uni x end.
Proof. now destruct uni, s. Qed.

Lemma esb_convert_send codec uni p : sendable_esb codec uni p = true ->
  exists s q, hub_convert p = Ok ((if uni then SUni else SEsb) s)
              /\ send_to_packet codec ((if uni then SUni else SEsb) s) = Ok q /\ send_same p q = true.
Proof.
  destruct p as [top sub b [md|]]; [destruct_md md|]; unfold sendable_esb; intros H; cbn in H; [|discriminate].
  split_and. eqns.
  assert (Hr : set_u32 (match mretr with Some (Some r) => Some r | _ => Some 1 end)
               = Ok (match mretr with Some (Some r) => r | _ => 1 end))
    by (destruct mretr as [[r|]|]; apply set_u32_ok; assumption).
  destruct (truthy mraw) eqn:Eraw; split_and; eqns; use_canon; do 2 eexists.
  all: erewrite (hub_convert_esb uni), send_to_packet_esb by reflexivity.
  all: unfold esb_convert, esb_tx_from, esb_tx_from_body, md_or_none, get_md; cbn; rewrite mdcls_eqb_refl, Eraw, Hr; setters.
  all: split; [reflexivity|].
  - (* raw: Unifying forces a preamble that is 0xAA already *)
    unfold esb_send_raw_to, esb_send_raw_to_body. cbn. rewrite E. cbn. split; [reflexivity|].
    eapply send_same_intro; [reflexivity | reflexivity | ..]; cbn; rewrite ?Eraw; try reflexivity.
    destruct uni; [now rewrite force_preamble_id | reflexivity].
  - unfold esb_send_to, esb_send_to_body. cbn. rewrite E. cbn. split; [reflexivity|].
    eapply send_same_intro; [reflexivity | reflexivity | ..]; cbn; rewrite ?Eraw; reflexivity.
Qed.

Lemma phy_convert_send codec p : sendable_phy p = true ->
  exists s q, hub_convert p = Ok (SPhy s) /\ send_to_packet codec (SPhy s) = Ok q
              /\ p_top q = p_top p /\ p_bytes q = p_bytes p.
Proof.
  destruct p as [top sub b [md|]]; [destruct_md md|]; unfold sendable_phy; intros H; cbn in H; [|discriminate].
  split_and. eqns. unfold hub_convert, phy_convert, md_or_none. cbn. destruct (truthy mraw); [discriminate|].
  do 2 eexists. repeat split.
Qed.

(** ** Never raises: a body is a tree of [bind] / [if] / [match] whose leaves are setters and metadata
    reads, each of which raises only TypeError, ValueError, AttributeError or struct.error, which the
    decorators catch *)
Definition only (caught : exn -> bool) {A} (x : out A) : bool := match x with Raise e => caught e | _ => true end.

Lemma only_bind caught {A B} (x : out A) (f : A -> out B) :
  only caught x = true -> (forall a, only caught (f a) = true) -> only caught (bind x f) = true.
Proof. destruct x; cbn; auto. Qed.
Lemma failsafe_no_raise {A} (x : out A) : only caught_from x = true -> raises (failsafe x) = false.
Proof. destruct x as [a| |e]; cbn; try reflexivity. now intros ->. Qed.
Lemma failsafe_to_no_raise {A} (x : out A) : only caught_to x = true -> raises (failsafe_to x) = false.
Proof. destruct x as [a| |e]; cbn; try reflexivity. now intros ->. Qed.
Lemma omap_no_raise {A B} (f : A -> B) (x : out A) : raises x = false -> raises (omap f x) = false.
Proof. now destruct x. Qed.

Lemma only_set_u32 v : only caught_from (set_u32 v) = true.
Proof. unfold set_u32. destruct v as [z|]; [destruct (in_u32 z)|]; reflexivity. Qed.
Lemma only_set_i32 v : only caught_from (set_i32 v) = true.
Proof. unfold set_i32. destruct v as [z|]; [destruct (in_i32 z)|]; reflexivity. Qed.
Lemma only_set_bool v : only caught_from (set_bool v) = true.
Proof. now destruct v. Qed.
Lemma only_opt_i32 v : only caught_from (opt_i32 v) = true.
Proof. unfold opt_i32. destruct v as [z|]; [destruct (in_i32 z)|]; reflexivity. Qed.
Lemma only_opt_u32 v : only caught_from (opt_u32 v) = true.
Proof. unfold opt_u32. destruct v as [z|]; [destruct (in_u32 z)|]; reflexivity. Qed.
Lemma only_opt_u64 v : only caught_from (opt_u64 v) = true.
Proof. unfold opt_u64. destruct v as [z|]; [destruct (in_u64 z)|]; reflexivity. Qed.
Lemma only_get_md p : only caught_from (get_md p) = true.
Proof. unfold get_md. now destruct (p_md p). Qed.
Lemma only_get_processed m : only caught_from (get_processed m) = true.
Proof. unfold get_processed. now destruct (md_processed m). Qed.
Lemma only_aa_crc p : only caught_from (btle_aa_crc p) = true.
Proof. unfold btle_aa_crc. now destruct (length (p_bytes p) <? 7)%nat. Qed.
Lemma only_extract p : only caught_from (ble_extract p) = true.
Proof. unfold ble_extract. now destruct (has_data p), (has_ctrl p), (has_adv p). Qed.
Lemma only_dissect codec k b : codec_no_exc codec -> only caught_to (dissect codec k b) = true.
Proof. intros H. unfold dissect. destruct (codec k b) eqn:E; try reflexivity. exact (H _ _ _ E). Qed.
Lemma only_codec_exc codec k b e {A} : codec_no_exc codec -> codec k b = CExc e -> only caught_to (Raise e : out A) = true.
Proof. intros H E. exact (H _ _ _ E). Qed.

Create HintDb only discriminated.
#[export] Hint Resolve only_set_u32 only_set_i32 only_set_bool only_opt_i32 only_opt_u32 only_opt_u64 only_get_md
  only_get_processed only_aa_crc only_extract only_dissect : only.

Ltac only_tree :=
  repeat first
  [ reflexivity
  | apply only_bind; [|intros ?]
  | solve [auto with only]
  | match goal with |- context[if ?c then _ else _] => destruct c end
  | match goal with |- only _ (match ?x with _ => _ end) = true => destruct x eqn:? end
  | eapply only_codec_exc; eassumption ].

Lemma ble_send_raw_from_nr e p : raises (ble_send_raw_from e p) = false.
Proof. apply failsafe_no_raise. unfold ble_send_raw_from_body. only_tree. Qed.
Lemma ble_send_from_nr e p : raises (ble_send_from e p) = false.
Proof. apply failsafe_no_raise. unfold ble_send_from_body. only_tree. Qed.
Lemma ble_adv_from_nr codec p : raises (ble_adv_from codec p) = false.
Proof. apply failsafe_no_raise. unfold ble_adv_from_body. cbn zeta. only_tree. Qed.
Lemma ble_pdu_from_nr p : raises (ble_pdu_from p) = false.
Proof. apply failsafe_no_raise. unfold ble_pdu_from_body. only_tree. Qed.
Lemma ble_raw_from_nr p : raises (ble_raw_from p) = false.
Proof. apply failsafe_no_raise. unfold ble_raw_from_body. only_tree. Qed.
Lemma d15_send_from_nr ch p : raises (d15_send_from ch p) = false.
Proof. apply failsafe_no_raise. unfold d15_send_from_body. only_tree. Qed.
Lemma d15_send_raw_from_nr ch p : raises (d15_send_raw_from ch p) = false.
Proof. apply failsafe_no_raise. unfold d15_send_raw_from_body. cbn zeta. only_tree. Qed.
Lemma d15_pdu_from_nr p : raises (d15_pdu_from p) = false.
Proof. apply failsafe_no_raise. unfold d15_pdu_from_body. only_tree. Qed.
Lemma d15_raw_from_nr p : raises (d15_raw_from p) = false.
Proof. apply failsafe_no_raise. unfold d15_raw_from_body. cbn zeta. only_tree. Qed.
Lemma esb_tx_from_nr r p : raises (esb_tx_from r p) = false.
Proof. apply failsafe_no_raise. unfold esb_tx_from_body. only_tree. Qed.
Lemma esb_rx_from_nr f p : raises (esb_rx_from f p) = false.
Proof. apply failsafe_no_raise. unfold esb_rx_from_body. cbn zeta. only_tree. Qed.
Lemma phy_rx1_from_nr p : raises (phy_rx1_from p) = false.
Proof. apply failsafe_no_raise. unfold phy_rx1_from_body. only_tree. Qed.
Lemma phy_rx2_from_nr p : raises (phy_rx2_from p) = false.
Proof. apply failsafe_no_raise. unfold phy_rx2_from_body. only_tree. Qed.

Create HintDb nr discriminated.
#[export] Hint Resolve ble_send_raw_from_nr ble_send_from_nr ble_adv_from_nr ble_pdu_from_nr ble_raw_from_nr d15_send_from_nr
  d15_send_raw_from_nr d15_pdu_from_nr d15_raw_from_nr esb_tx_from_nr esb_rx_from_nr phy_rx1_from_nr phy_rx2_from_nr : nr.

Lemma bind_ok_no_raise {A B C} (x : out A) (g : A -> B) (k : B -> C) :
  raises x = false -> raises (bind (bind x (fun a => Ok (g a))) (fun b => Ok (k b))) = false.
Proof. now destruct x. Qed.

Lemma dissect_only_to codec k b : codec_no_exc codec -> raises (failsafe_to (bind (dissect codec k b) (fun r => Ok r))) = false.
Proof. intros H. apply failsafe_to_no_raise, only_bind; auto with only. Qed.

(** ** Inputs a conversion cannot represent give None *)
Lemma failsafe_none {A} (x : out A) : x = NoneR -> failsafe x = NoneR.
Proof. now intros ->. Qed.
Lemma failsafe_to_none {A} (x : out A) : x = NoneR -> failsafe_to x = NoneR.
Proof. now intros ->. Qed.
Lemma set_u32_none_caught {A} (f : Z -> out A) : failsafe (bind (set_u32 None) f) = NoneR.
Proof. reflexivity. Qed.
