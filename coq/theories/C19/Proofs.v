(** C19 — lemmas about the capture model.

    Maps: the generated BLE channel <-> RF channel functions get closed forms without
    division; the inverse laws are case analyses over these, and the frequency maps reduce
    to them (frequency = 2402 MHz + 2 MHz * RF channel).
    Headers: [format_of] says what each capture format does with an optional item
    ([carried]); the round trip holds exactly for the valuations the format carries
    ([header_roundtrip_iff]).
    Time: record times are sorted ([written_times_sorted]); connector operations choose a
    prefix of the replay ([replay_ops_prefix]); two writers interleave ([merge_Permutation]). *)
From Coq Require Import List ZArith NArith Arith Bool Permutation Lia ZifyBool ZifyN ZifyNat.
From Whad Require Import Lib.Bytes C19.Maps C19.Model.
Import ListNotations.
Ltac Zify.zify_post_hook ::= Z.to_euclidean_division_equations.
Open Scope Z_scope.

(** * Channel / frequency maps (the GENERATED definitions of Maps.v) *)

Ltac split_ifs :=
  repeat match goal with
         | |- context [if ?b then _ else _] => let E := fresh "E" in destruct b eqn:E
         end.

(** ** BLE channel <-> RF channel (Wireshark numbering) *)

Lemma quot_2 x y : x = y * 2 -> Z.quot x 2 = y.
Proof. intros ->. apply Z.quot_mul. discriminate. Qed.

Lemma ble_channel_to_rf_channel_eq c :
  ble_channel_to_rf_channel c =
  if c =? 37 then 0 else if c =? 38 then 12 else if c =? 39 then 39 else if c <? 11 then c + 1 else c + 2.
Proof. unfold ble_channel_to_rf_channel. cbv zeta. split_ifs; lia. Qed.

Lemma rf_channel_to_ble_channel_eq r :
  rf_channel_to_ble_channel r =
  if r =? 0 then 37 else if r =? 12 then 38 else if r =? 39 then 39 else if r <=? 11 then r - 1 else r - 2.
Proof.
  unfold rf_channel_to_ble_channel. cbv zeta.
  (* the two divisions are exact; left to [lia] they cost a sign analysis in every branch *)
  rewrite (quot_2 _ (r - 1)), (quot_2 _ (r - 2)) by ring.
  (* the three advertising channels by evaluation, which spares the tests on [2 + r * 2] there *)
  destruct (Z.eqb_spec r 0) as [->|]; [reflexivity|].
  destruct (Z.eqb_spec r 12) as [->|]; [reflexivity|].
  destruct (Z.eqb_spec r 39) as [->|]; [reflexivity|].
  destruct (Z.leb_spec r 11); split_ifs; lia.
Qed.

(** from 0 on only: -1 maps to RF 0, the RF channel of 37 *)
Lemma ble_rf_inverse_general :
  forall c, 0 <= c -> rf_channel_to_ble_channel (ble_channel_to_rf_channel c) = c.
Proof.
  intros c Hc. rewrite ble_channel_to_rf_channel_eq.
  split_ifs; rewrite rf_channel_to_ble_channel_eq; split_ifs; lia.
Qed.

(** the other way round the bound is needed: RF 40 and 41 map to channels 38 and 39 *)
Lemma rf_ble_inverse r : r <= 39 -> ble_channel_to_rf_channel (rf_channel_to_ble_channel r) = r.
Proof.
  intros Hr. rewrite rf_channel_to_ble_channel_eq.
  split_ifs; rewrite ble_channel_to_rf_channel_eq; split_ifs; lia.
Qed.

Lemma ble_channel_to_rf_channel_range c : 0 <= c <= 39 -> 0 <= ble_channel_to_rf_channel c <= 39.
Proof. intros Hc. rewrite ble_channel_to_rf_channel_eq. split_ifs; lia. Qed.

Lemma rf_channel_to_ble_channel_range r : 0 <= r <= 39 -> 0 <= rf_channel_to_ble_channel r <= 39.
Proof. intros Hr. rewrite rf_channel_to_ble_channel_eq. split_ifs; lia. Qed.

Lemma ble_rf_channel_is_frequency_index :
  forall c, 0 <= c <= 39 ->
    ble_channel_to_frequency c = Some (2402000000 + 2000000 * ble_channel_to_rf_channel c).
Proof.
  intros c Hc. rewrite ble_channel_to_rf_channel_eq. unfold ble_channel_to_frequency. cbv zeta.
  split_ifs; try (f_equal; ring); exfalso; lia.
Qed.

Lemma ble_channel_to_frequency_defined c f : ble_channel_to_frequency c = Some f -> 0 <= c <= 39.
Proof. unfold ble_channel_to_frequency. destruct (_ || _) eqn:E; [discriminate | lia]. Qed.

Lemma ble_frequency_to_channel_defined f c :
  ble_frequency_to_channel f = Some c -> 2402000000 <= f <= 2480000000.
Proof. unfold ble_frequency_to_channel. destruct (_ || _) eqn:E; [discriminate | lia]. Qed.

(** on a centre frequency the function computes the offset [2 + r * 2] and then runs the
    tests of [rf_channel_to_ble_channel r]: on this Maps.v the branches that agree close by
    [reflexivity]; [f_equal; lia] is for a Maps.v regenerated from a changed source (the check
    re-proves this file against it), where the two functions need not test in the same words *)
Lemma ble_frequency_to_channel_centre r :
  0 <= r <= 39 ->
  ble_frequency_to_channel (2402000000 + 2000000 * r) = Some (rf_channel_to_ble_channel r).
Proof.
  intros Hr. unfold ble_frequency_to_channel.
  replace (2402000000 + 2000000 * r) with ((2402 + 2 * r) * 1000000) by ring.
  rewrite Z.quot_mul by discriminate. unfold rf_channel_to_ble_channel. cbv zeta.
  replace (2402 + 2 * r - 2400) with (2 + r * 2) by ring.
  split_ifs; try reflexivity; try (f_equal; lia); exfalso; lia.
Qed.

Lemma ble_frequency_inverse_on_image :
  forall c f, ble_channel_to_frequency c = Some f -> ble_frequency_to_channel f = Some c.
Proof.
  intros c f H. pose proof (ble_channel_to_frequency_defined c f H) as Hc.
  rewrite ble_rf_channel_is_frequency_index in H by exact Hc.
  (* not [injection]: it does not come back from these numerals *)
  assert (f = 2402000000 + 2000000 * ble_channel_to_rf_channel c) as -> by congruence.
  rewrite ble_frequency_to_channel_centre by (apply ble_channel_to_rf_channel_range; exact Hc).
  f_equal. apply ble_rf_inverse_general. lia.
Qed.

Lemma ble_channel_inverse_on_centres :
  forall f c, ble_frequency_to_channel f = Some c -> Z.rem f 2000000 = 0 ->
    ble_channel_to_frequency c = Some f.
Proof.
  intros f c H Hrem. pose proof (ble_frequency_to_channel_defined f c H) as Hf.
  assert (exists r, 0 <= r <= 39 /\ f = 2402000000 + 2000000 * r) as (r & Hr & ->)
    by (exists (Z.quot f 2000000 - 1201); lia).  (* 1201 * 2 MHz = 2402 MHz *)
  rewrite ble_frequency_to_channel_centre in H by exact Hr.
  assert (c = rf_channel_to_ble_channel r) as -> by congruence.
  rewrite ble_rf_channel_is_frequency_index by (apply rf_channel_to_ble_channel_range; exact Hr).
  rewrite rf_ble_inverse by lia. reflexivity.
Qed.

(** Model.v's Boolean form of the inverse laws on channels 0..39, evaluated.  No theorem uses
    it or [dot15d4_maps_inverse_sweep] below: they are here so that the check, when it re-proves
    this file against a Maps.v regenerated from a changed source, evaluates them on that text too *)
Lemma ble_maps_inverse_sweep : ble_maps_inverse_b = true.
Proof. vm_compute. reflexivity. Qed.

Lemma dot15d4_inverse_general :
  forall c, dot15d4_frequency_to_channel (dot15d4_channel_to_frequency c) = c.
Proof. intros c. unfold dot15d4_frequency_to_channel, dot15d4_channel_to_frequency. lia. Qed.

Lemma dot15d4_inverse_on_centres :
  forall f, Z.rem (f - 2405000000) 5000000 = 0 ->
    dot15d4_channel_to_frequency (dot15d4_frequency_to_channel f) = f.
Proof. intros f H. unfold dot15d4_frequency_to_channel, dot15d4_channel_to_frequency. lia. Qed.

Lemma hub_channel_to_frequency_same :
  forall c, hub_channel_to_frequency c = dot15d4_channel_to_frequency c.
Proof. intros c. unfold hub_channel_to_frequency, dot15d4_channel_to_frequency. lia. Qed.

Lemma tap_frequency_maps_back :
  forall c, dot15d4_frequency_to_channel ((hub_channel_to_frequency c / 1000) * 1000) = c.
Proof. intros c. unfold dot15d4_frequency_to_channel, hub_channel_to_frequency. lia. Qed.

Lemma dot15d4_maps_inverse_sweep : dot15d4_maps_inverse_b = true.
Proof. vm_compute. reflexivity. Qed.

Lemma esb_inverse_general : forall c, esb_frequency_to_channel (esb_channel_to_frequency c) = c.
Proof. intros c. unfold esb_frequency_to_channel, esb_channel_to_frequency. lia. Qed.

Lemma esb_inverse_on_centres :
  forall f, Z.rem f 1000000 = 0 -> esb_channel_to_frequency (esb_frequency_to_channel f) = f.
Proof. intros f H. unfold esb_frequency_to_channel, esb_channel_to_frequency. lia. Qed.

(** * Header round trips (metadata -> pseudo-header -> metadata) *)

Lemma in_range_some lo hi v : in_range lo hi (Some v) = true -> lo <= v <= hi.
Proof. unfold in_range. lia. Qed.

Lemma in_range_weaken lo hi lo' hi' x :
  lo' <= lo -> hi <= hi' -> in_range lo hi x = true -> in_range lo' hi' x = true.
Proof. destruct x; unfold in_range; lia. Qed.

Lemma opt_eqb_eq {A} (eqb : A -> A -> bool) :
  (forall x y, eqb x y = true <-> x = y) -> forall a b, opt_eqb eqb a b = true <-> a = b.
Proof. intros H [x|] [y|]; cbn [opt_eqb]; rewrite ?H; split; congruence. Qed.

Lemma opt_eqb_refl_Z (x : option Z) : opt_eqb Z.eqb x x = true.
Proof. apply (opt_eqb_eq _ Z.eqb_eq). reflexivity. Qed.
Lemma opt_eqb_refl_bool (x : option bool) : opt_eqb Bool.eqb x x = true.
Proof. apply (opt_eqb_eq _ eqb_true_iff). reflexivity. Qed.

Lemma same_items_iff d m r :
  same_items d m r = true <->
  keeps_channel m r /\ keeps_rssi m r /\ keeps_dir d m r /\ (applies_valid d = true -> keeps_valid m r).
Proof.
  unfold same_items, keeps_channel, keeps_rssi, keeps_dir, keeps_valid.
  rewrite !andb_true_iff, !(opt_eqb_eq _ Z.eqb_eq), orb_true_iff, negb_true_iff, (opt_eqb_eq _ eqb_true_iff).
  destruct (applies_valid d); intuition congruence.
Qed.

Inductive carried (A : Type) : Type :=
| Kept                    (* value and presence are both stored *)
| Defaulted (v : A)       (* the value is stored, its absence is not: absent reads back as [v] *)
| Fixed (k : option A).   (* nothing is stored: whatever went in, [k] comes back *)
Arguments Kept {A}.
Arguments Defaulted {A} v.
Arguments Fixed {A} k.

Definition read_back {A} (c : carried A) (x : option A) : option A :=
  match c with
  | Kept => x
  | Defaulted v => Some (match x with Some a => a | None => v end)
  | Fixed k => k
  end.

Definition survives {A} (c : carried A) (x : option A) : Prop :=
  match c with Kept => True | Defaulted _ => x <> None | Fixed k => x = k end.

Lemma read_back_id {A} (c : carried A) x : read_back c x = x <-> survives c x.
Proof. destruct c, x; cbn; intuition congruence. Qed.

Lemma read_back_defaulted {A} (v : A) x r :
  r = read_back (Defaulted v) x -> (x <> None -> r = x) /\ (x = None -> r = Some v).
Proof. intros ->. destruct x; cbn; split; congruence. Qed.

(** The capture formats of the five domains.  BLE: the LE pseudo-header has validity flags
    for the signal and the CRC, none for the channel (RF channel 0 is channel 37).
    802.15.4: TLVs that are present or not, read back with defaults; the FCS validity is a
    constant of the reader.  ESB / Unifying: no header, [crc] is the dissector's verdict on
    the frame bytes.  PHY: two integer fields without presence flags. *)
Record capture_format := {
  c_channel : carried Z; c_rssi : carried Z; c_valid : carried bool; c_lqi : carried Z
}.

Definition format_of (d : domain) (crc : bool) : capture_format :=
  match d with
  | BLE => {| c_channel := Defaulted 37; c_rssi := Kept; c_valid := Kept; c_lqi := Fixed None |}
  | DOT15D4 => {| c_channel := Defaulted 15; c_rssi := Defaulted 0; c_valid := Fixed (Some true);
                  c_lqi := Defaulted 200 |}
  | ESB | UNIFYING => {| c_channel := Fixed (Some 0); c_rssi := Fixed None; c_valid := Fixed (Some crc);
                         c_lqi := Fixed None |}
  | PHY => {| c_channel := Defaulted 0; c_rssi := Defaulted 0; c_valid := Fixed None; c_lqi := Fixed None |}
  end.

(** Only the BLE header transforms values (channel numbering, packet type), hence the
    hypothesis: a channel >= 0 and a direction in 0..2. *)
Lemma replay_items_format d crc m :
  (d = BLE -> meta_wf BLE m = true) ->
  let r := replay_items d crc m in
  m_channel r = read_back (c_channel (format_of d crc)) (m_channel m)
  /\ m_rssi r = read_back (c_rssi (format_of d crc)) (m_rssi m)
  /\ m_valid r = read_back (c_valid (format_of d crc)) (m_valid m)
  /\ m_lqi r = read_back (c_lqi (format_of d crc)) (m_lqi m)
  /\ keeps_dir d m r.
Proof.
  destruct m as [ch rssi dir valid lqi ts]. intros Hwf.
  destruct d; cbn; unfold keeps_dir; cbn; try (repeat split; reflexivity).
  specialize (Hwf eq_refl). unfold meta_wf in Hwf. cbn [m_rssi m_channel m_dir] in Hwf.
  apply andb_true_iff in Hwf as [_ Hwf]. apply andb_true_iff in Hwf as [Hc Hd].
  repeat split.
  - destruct ch as [c|]; [|reflexivity]. apply in_range_some in Hc.
    f_equal. apply ble_rf_inverse_general. lia.
  - destruct rssi; reflexivity.
  - destruct valid as [[|]|]; reflexivity.
  - destruct dir as [x|]; [|reflexivity]. apply in_range_some in Hd. f_equal.
    assert (x = 0 \/ x = 1 \/ x = 2) as [->|[->| ->]] by lia; reflexivity.
Qed.

Theorem header_roundtrip_iff d crc m :
  (d = BLE -> meta_wf BLE m = true) ->
  same_items d m (replay_items d crc m) = true <->
  survives (c_channel (format_of d crc)) (m_channel m)
  /\ survives (c_rssi (format_of d crc)) (m_rssi m)
  /\ (applies_valid d = true -> survives (c_valid (format_of d crc)) (m_valid m)).
Proof.
  intros Hwf. destruct (replay_items_format d crc m Hwf) as (Hc & Hr & Hv & _ & Hd).
  rewrite same_items_iff. unfold keeps_channel, keeps_rssi, keeps_valid.
  rewrite Hc, Hr, Hv, !read_back_id. tauto.
Qed.

(** the BLE raw PDU message reports an unset optional field as absent or as its default *)
Lemma hub_default_id {A} (optional : bool) (v : A) x :
  match x with Some a => Some a | None => if optional then None else Some v end = x
  <-> x <> None \/ optional = true.
Proof. destruct x, optional; intuition congruence. Qed.

Theorem ble_delivered_roundtrip_iff hub crc m :
  meta_wf BLE m = true ->
  same_items BLE m (deliver hub BLE (replay_items BLE crc m)) = true <->
  m_channel m <> None
  /\ (m_rssi m <> None \/ ble_rssi_optional hub = true)
  /\ (m_valid m <> None \/ ble_crc_optional hub = true).
Proof.
  intros H. destruct (replay_items_format BLE crc m (fun _ => H)) as (Ec & Er & Ev & _ & Ed).
  rewrite same_items_iff. unfold keeps_channel, keeps_rssi, keeps_dir, keeps_valid, deliver in *.
  cbn [m_channel m_rssi m_dir m_valid]. rewrite Ec, Er, Ev. cbn [format_of c_channel c_rssi c_valid].
  rewrite read_back_id. cbn [read_back survives]. rewrite !hub_default_id.
  split; [intros (Hc & Hr & _ & Hv); exact (conj Hc (conj Hr (Hv eq_refl)))
         | intros (Hc & Hr & Hv); exact (conj Hc (conj Hr (conj Ed (fun _ => Hv))))].
Qed.

Lemma encodable_in_domain : forall d m, meta_wf d m = true -> encodable d m = true.
Proof.
  intros d [ch rssi dir valid lqi ts] H. unfold meta_wf in H. cbn [m_rssi m_channel m_dir m_lqi] in H.
  apply andb_true_iff in H as [Hr H].
  destruct d; try reflexivity; unfold encodable; cbn [m_lqi m_channel m_rssi].
  - apply andb_true_iff in H as [Hc _].
    unfold ble_encodable, ble_to_header. cbn [rf_channel rf_signal m_channel m_rssi].
    assert (0 <= match ch with Some c => ble_channel_to_rf_channel c | None => 0 end <= 39) as Hch.
    { destruct ch as [c|]; [|lia]. apply ble_channel_to_rf_channel_range, in_range_some, Hc. }
    assert (-128 <= match rssi with Some r => r | None => -128 end <= 127) as Hrs.
    { destruct rssi as [r|]; [apply in_range_some in Hr|]; lia. }
    lia.
  - apply andb_true_iff in H as [Hc ->]. apply (in_range_weaken 11 26); [lia | lia | exact Hc].
  - rewrite H. apply (in_range_weaken (-128) 127); [lia | lia | exact Hr].
Qed.

(** * Frame bytes through the replay interface *)
Open Scope N_scope.

Lemma wf_bytes_cons b l : wf_bytes (b :: l) = true -> b < 256 /\ wf_bytes l = true.
Proof.
  unfold wf_bytes, wf_byte. cbn [forallb]. intros H. apply andb_true_iff in H as [H1 H2]. split; [lia | exact H2].
Qed.

Lemma byte_mod a x : a < 256 -> (a + 256 * x) mod 256 = a.
Proof. intros H. rewrite N.mul_comm, N.mod_add by discriminate. apply N.mod_small, H. Qed.
Lemma byte_div a x : a < 256 -> (a + 256 * x) / 256 = x.
Proof. intros H. rewrite N.mul_comm, N.div_add by discriminate. rewrite N.div_small by exact H. reflexivity. Qed.

Lemma le32_un_le32 a b c d rest :
  wf_bytes (a :: b :: c :: d :: rest) = true -> le32 (un_le32 (a :: b :: c :: d :: rest)) = [a; b; c; d].
Proof.
  intros H. do 4 apply wf_bytes_cons in H as [? H].
  unfold le32, un_le32. change 65536 with (256 * 256). change 16777216 with (256 * 256 * 256).
  rewrite <- !N.div_div by discriminate. rewrite !byte_div by assumption. rewrite !byte_mod by assumption.
  rewrite N.mod_small by assumption. reflexivity.
Qed.

Lemma be24_un_be24 l : wf_bytes l = true -> length l = 3%nat -> be24 (un_be24 l) = l.
Proof.
  destruct l as [|a [|b [|c [|? ?]]]]; try discriminate. intros H _.
  do 3 apply wf_bytes_cons in H as [? H].
  unfold be24, un_be24. replace (65536 * a + 256 * b + c) with (c + 256 * (b + 256 * a)) by ring.
  change 65536 with (256 * 256). rewrite <- !N.div_div by discriminate.
  rewrite !byte_div by assumption. rewrite !byte_mod by assumption.
  rewrite N.mod_small by assumption. reflexivity.
Qed.

Lemma le16_un_le16 l : wf_bytes l = true -> length l = 2%nat -> le16 (un_le16 l) = l.
Proof.
  destruct l as [|a [|b [|? ?]]]; try discriminate. intros H _.
  do 2 apply wf_bytes_cons in H as [? H].
  unfold le16, un_le16. rewrite byte_div, byte_mod by assumption. reflexivity.
Qed.

(** access address (4 bytes) ++ PDU ++ CRC (last 3 bytes) is the frame *)
Lemma ble_frame_roundtrip :
  forall f, wf_bytes f = true -> (7 <= length f)%nat -> ble_join (ble_split f) = f.
Proof.
  intros f Hwf Hlen.
  destruct f as [|a [|b [|c [|d rest]]]]; cbn [length] in Hlen; try lia.
  unfold ble_join, ble_split. rewrite le32_un_le32 by exact Hwf.
  set (k := (length rest - 3)%nat).
  replace (slice 4 _ _) with (firstn k rest) by (unfold slice; cbn [length skipn]; f_equal; lia).
  replace (skipn _ _) with (skipn k rest)
    by (cbn [length]; replace (S (S (S (S (length rest)))) - 3)%nat with (4 + k)%nat by lia; reflexivity).
  rewrite be24_un_be24.
  - cbn [app]. do 4 f_equal. apply firstn_skipn.
  - apply wf_bytes_skipn. do 4 apply wf_bytes_cons in Hwf as [_ Hwf]. exact Hwf.
  - rewrite skipn_length. lia.
Qed.

Lemma dot15d4_frame_roundtrip :
  forall f, wf_bytes f = true -> (2 <= length f)%nat -> dot15d4_join (dot15d4_split f) = f.
Proof.
  intros f Hwf Hlen. unfold dot15d4_join, dot15d4_split. cbn [fst snd].
  rewrite le16_un_le16.
  - apply firstn_skipn.
  - apply wf_bytes_skipn, Hwf.
  - rewrite skipn_length. lia.
Qed.

Lemma replay_frame_id : forall d f, frame_ok d f = true -> replay_frame d f = f.
Proof.
  intros d f H. unfold frame_ok in H. apply andb_true_iff in H as [Hw Hl].
  destruct d; cbn [replay_frame]; try reflexivity.
  - apply ble_frame_roundtrip; [exact Hw | apply Nat.leb_le; exact Hl].
  - apply dot15d4_frame_roundtrip; [exact Hw | apply Nat.leb_le; exact Hl].
Qed.

Open Scope Z_scope.

(** * Order and time stamps *)

Lemma sortedb_cons a l : sortedb (a :: l) = true <-> (match l with b :: _ => a <= b | [] => True end) /\ sortedb l = true.
Proof.
  destruct l as [|b l]; cbn [sortedb].
  - intuition.
  - rewrite andb_true_iff, Z.leb_le. reflexivity.
Qed.

Lemma sortedb_hd_le a l : sortedb (a :: l) = true -> Forall (fun x => a <= x) l.
Proof.
  revert a; induction l as [|b l IH]; intros a H; [constructor|].
  apply sortedb_cons in H as [Hab H]. constructor; [exact Hab|].
  specialize (IH b H). eapply Forall_impl; [|exact IH]. cbn. intros x Hx. lia.
Qed.

Lemma sortedb_map f l : monotone f -> sortedb l = true -> sortedb (map f l) = true.
Proof.
  intros Hf. induction l as [|a l IH]; intros H; [reflexivity|].
  apply sortedb_cons in H as [Ha H]. cbn [map]. apply sortedb_cons. split; [|apply IH; exact H].
  destruct l as [|b l]; cbn [map]; [exact I | apply Hf; exact Ha].
Qed.

Lemma sortedb_of_forall a l : Forall (fun x => a <= x) l -> sortedb l = true -> sortedb (a :: l) = true.
Proof.
  intros Hall Hs. apply sortedb_cons. split; [|exact Hs].
  destruct l as [|b l]; [exact I | inversion Hall; assumption].
Qed.

Lemma sortedb_firstn n : forall l, sortedb l = true -> sortedb (firstn n l) = true.
Proof.
  induction n as [|n IH]; intros l H; [reflexivity|].
  destruct l as [|a l]; [reflexivity|]. cbn [firstn].
  apply sortedb_cons in H as [Ha H]. apply sortedb_cons. split; [|apply IH; exact H].
  destruct n; [exact I|]. destruct l as [|b l]; [exact I | exact Ha].
Qed.

Lemma Forall_firstn {A} (P : A -> Prop) n l : Forall P l -> Forall P (firstn n l).
Proof. intros H. rewrite <- (firstn_skipn n l) in H. apply Forall_app in H. apply H. Qed.

(** the reference pair maps device time onto local time with offset [D] *)
Definition ref_ok (D : Z) (st : wstate) : Prop :=
  match w_ref st with Some (r0, r1) => r0 - r1 = D | None => True end.

Lemma process_time_offset D st now ts :
  ref_ok D st -> match ts with Some t => t = now - D | None => True end ->
  let '(T, st') := process_time st now ts in T = now /\ ref_ok D st'.
Proof.
  unfold process_time, ref_ok. intros Hst Hts.
  destruct ts as [t|]; [subst t | exact (conj eq_refl Hst)].
  destruct (w_ref st) as [[r0 r1]|] eqn:Er; [rewrite Er; lia|]. destruct (w_start st); cbn [w_ref]; lia.
Qed.

Lemma eff_times_offset D l : forall st, ref_ok D st -> offset_consistent D l -> eff_times st l = map fst l.
Proof.
  induction l as [|[now ts] l IH]; intros st Hst Hl; [reflexivity|].
  inversion Hl as [|? ? Hx Hl']; subst. cbn [eff_times map fst].
  pose proof (process_time_offset D st now ts Hst Hx) as H.
  destruct (process_time st now ts) as [T st']. destruct H as [-> H]. f_equal. apply IH; assumption.
Qed.

Lemma eff_times_ref r0 r1 l : forall st, w_ref st = Some (r0, r1) -> all_some l ->
  eff_times st l = map (fun t => r0 + (t - r1)) (ts_list l).
Proof.
  induction l as [|[now ts] l IH]; intros st Hst Hl; [reflexivity|].
  inversion Hl as [|? ? Hx Hl']; subst. cbn [snd] in Hx. destruct ts as [t|]; [|congruence].
  cbn [eff_times]. unfold process_time. rewrite Hst. change (ts_list ((now, Some t) :: l)) with (t :: ts_list l).
  cbn [map]. f_equal. apply IH; assumption.
Qed.

Lemma written_times_sorted :
  forall rnd start l, monotone rnd ->
    sortedb (map fst l) = true -> sortedb (ts_list l) = true ->
    (all_some l \/ exists D, offset_consistent D l) ->
    sortedb (written_times rnd start l) = true.
Proof.
  intros rnd start l Hrnd Hnow Hts Hc. apply sortedb_map; [exact Hrnd|].
  destruct Hc as [Hall|[D HD]].
  - (* the first packet sets the reference pair so that its own device time maps to [now0];
       every later time is a device time shifted by the same constant *)
    destruct l as [|[now0 ts0] l]; [reflexivity|].
    inversion Hall as [|? ? Hx Hl']; subst. cbn [snd] in Hx. destruct ts0 as [t0|]; [|congruence].
    assert (Hgen : forall r0 r1 st, w_ref st = Some (r0, r1) -> r0 - r1 = now0 - t0 ->
                     sortedb (now0 :: eff_times st l) = true).
    { intros r0 r1 st Hst Hr. rewrite (eff_times_ref r0 r1 l st Hst Hl').
      replace now0 with (r0 + (t0 - r1)) by lia.
      apply (sortedb_map (fun t => r0 + (t - r1)) (t0 :: ts_list l)); [intros a b Hab; lia | exact Hts]. }
    cbn [eff_times]. unfold process_time, w_init. cbn [w_ref w_start].
    destruct start as [s|].
    + apply (Hgen s (t0 - (now0 - s))); [reflexivity | lia].
    + apply (Hgen now0 t0); [reflexivity | lia].
  - rewrite (eff_times_offset D l (w_init start)); [exact Hnow | exact I | exact HD].
Qed.

Lemma eff_times_length l : forall st, length (eff_times st l) = length l.
Proof.
  induction l as [|[now ts] l IH]; intros st; [reflexivity|].
  cbn [eff_times]. destruct (process_time st now ts) as [t st']. cbn [length]. f_equal. apply IH.
Qed.

Lemma written_times_length rnd start (l : list pin) :
  length (written_times rnd start (clocks_of l)) = length l.
Proof. unfold written_times, clocks_of. rewrite map_length, eff_times_length. apply map_length. Qed.

Lemma read_ts_monotone : monotone read_ts.
Proof. intros a b Hab. unfold read_ts. apply Z.quot_le_mono; lia. Qed.

Lemma relative_times_length Ts : length (relative_times Ts) = length Ts.
Proof. destruct Ts; [reflexivity | apply map_length]. Qed.

Lemma relative_times_head Ts : Ts <> [] -> exists rs, relative_times Ts = 0 :: rs.
Proof.
  destruct Ts as [|T0 rest]; [congruence|]. intros _.
  exists (map (fun T => read_ts T - read_ts T0) rest). cbn [relative_times map]. f_equal. lia.
Qed.

Lemma relative_times_sorted Ts :
  sortedb Ts = true -> sortedb (relative_times Ts) = true /\ Forall (fun r => 0 <= r) (relative_times Ts).
Proof.
  destruct Ts as [|T0 rest]; [split; [reflexivity | constructor]|]. intros Hs.
  unfold relative_times. split.
  - apply sortedb_map; [|exact Hs]. intros a b Hab. pose proof (read_ts_monotone a b Hab). lia.
  - apply Forall_map. constructor; [lia|].
    eapply Forall_impl; [|exact (sortedb_hd_le _ _ Hs)].
    cbn. intros x Hx. pose proof (read_ts_monotone T0 x Hx). lia.
Qed.

Lemma map_fst_combine {A B} (l : list A) (r : list B) : length l = length r -> map fst (combine l r) = l.
Proof.
  revert r; induction l as [|a l IH]; intros [|b r] H; try discriminate; [reflexivity|].
  cbn [combine map fst]. f_equal. apply IH. cbn [length] in H. lia.
Qed.

Lemma replay_with_spec hub d l Ts :
  length Ts = length l ->
  let out := replay_with hub d l Ts in
  map o_time out = Ts
  /\ map o_rel out = relative_times Ts
  /\ map o_frame out = map (fun p => replay_frame d (i_frame p)) l.
Proof.
  intros HlT. cbv zeta. unfold replay_with. cbv zeta.
  pose proof (relative_times_length Ts) as Hlen. revert Hlen. generalize (relative_times Ts) as rels.
  revert Ts HlT. induction l as [|p l IH]; intros [|T Ts] HlT [|r rels] Hlen; try discriminate; [repeat split|].
  cbn [length] in HlT, Hlen. destruct (IH Ts ltac:(lia) rels ltac:(lia)) as (H1 & H2 & H3).
  cbn [combine map o_time o_rel o_frame]. repeat split; f_equal; assumption.
Qed.

(** the capture of a packet sequence: same number of packets, in the same order, the same
    bytes, relative time stamps start at 0, are never negative and never decrease *)
Lemma order_and_monotone_time :
  forall rnd hub d start (l : list pin),
    monotone rnd ->
    Forall (fun p => frame_ok d (i_frame p) = true) l ->
    sortedb (map fst (clocks_of l)) = true ->
    sortedb (ts_list (clocks_of l)) = true ->
    (all_some (clocks_of l) \/ exists D, offset_consistent D (clocks_of l)) ->
    let out := capture_replay rnd hub d start l in
    map o_frame out = map i_frame l
    /\ sortedb (map o_time out) = true
    /\ sortedb (map o_rel out) = true
    /\ Forall (fun r => 0 <= r) (map o_rel out)
    /\ (l <> [] -> exists rs, map o_rel out = 0 :: rs).
Proof.
  intros rnd hub d start l Hr Hf Hn Ht Hc. cbv zeta. unfold capture_replay.
  destruct (replay_with_spec hub d l _ (written_times_length rnd start l)) as (-> & -> & ->).
  pose proof (written_times_sorted rnd start _ Hr Hn Ht Hc) as HTs.
  destruct (relative_times_sorted _ HTs) as [Hs Hpos].
  repeat split; try assumption.
  - apply map_ext_in. intros p Hp. apply replay_frame_id. rewrite Forall_forall in Hf. apply Hf, Hp.
  - intros Hne. apply relative_times_head. intros E.
    apply (f_equal (@length Z)) in E. rewrite written_times_length in E. destruct l; [congruence | discriminate].
Qed.

(** * Replays during which the connector is stopped and started again *)

(** __start_timestamp if already set, else the time of the next record *)
Definition origin_of {A} (st : rstate) (recs : list (Z * A)) : Z :=
  match r_origin st, recs with
  | Some o, _ => o
  | None, (T, _) :: _ => read_ts T
  | None, [] => 0
  end.

Lemma replay_ops_prefix {A} (ops : list rop) :
  forall st (recs : list (Z * A)),
    replay_ops st ops recs
    = firstn (eff_reads (r_started st) ops) (map (fun x => (read_ts (fst x) - origin_of st recs, snd x)) recs).
Proof.
  induction ops as [|op ops IH]; intros st recs; [reflexivity|].
  destruct op; cbn [replay_ops eff_reads].
  - rewrite IH. reflexivity.
  - rewrite IH. reflexivity.
  - destruct (r_started st) eqn:Es.
    + destruct recs as [|[T a] recs']; [reflexivity|].
      rewrite IH. cbn [firstn map fst snd r_started]. unfold origin_of. cbn [r_origin].
      destruct (r_origin st); reflexivity.
    + rewrite IH, Es. reflexivity.
Qed.

Lemma rel_of_out (out : list pout) :
  map o_rel out = relative_times (map o_time out) ->
  let recs := map (fun o => (o_time o, o)) out in
  map (fun x => (read_ts (fst x) - origin_of r_init recs, snd x)) recs = map (fun o => (o_rel o, o)) out.
Proof.
  destruct out as [|o0 r]; [reflexivity|]. intros H. cbv zeta.
  unfold origin_of, relative_times in *. cbn [r_init r_origin map fst snd] in *. rewrite !map_map in *. cbn [fst snd].
  injection H as H0 H. rewrite H0. f_equal.
  apply map_ext_in. intros o Ho. f_equal. symmetry. revert o Ho. apply map_ext_in_iff. exact H.
Qed.

Lemma capture_replay_ops_prefix rnd hub d start l ops :
  capture_replay_ops rnd hub d start l ops
  = firstn (eff_reads false ops) (map (fun o => (o_rel o, o)) (capture_replay rnd hub d start l)).
Proof.
  unfold capture_replay_ops. rewrite replay_ops_prefix, rel_of_out; [reflexivity|].
  destruct (replay_with_spec hub d l _ (written_times_length rnd start l)) as (Etime & Erel & _).
  unfold capture_replay. rewrite Etime. exact Erel.
Qed.

Lemma eff_reads_repeat_app m rest :
  eff_reads true (repeat RRead m ++ rest) = (m + eff_reads true rest)%nat.
Proof. induction m as [|m IH]; [reflexivity|]. cbn [repeat app eff_reads]. rewrite IH. reflexivity. Qed.

Lemma eff_reads_restart ks n : (n < eff_reads false (restart_ops ks n))%nat.
Proof.
  unfold restart_ops. cbn [eff_reads].
  induction ks as [|k ks IH]; cbn [flat_map app].
  - rewrite <- (app_nil_r (repeat RRead (S n))), eff_reads_repeat_app. cbn [eff_reads]. lia.
  - rewrite <- !app_assoc, eff_reads_repeat_app. cbn [app eff_reads]. lia.
Qed.

(** * Two writer threads *)

Lemma merge_map {A B} (f : A -> B) sched : forall l1 l2, map f (merge sched l1 l2) = merge sched (map f l1) (map f l2).
Proof.
  induction sched as [|[|] s IH]; intros l1 l2; cbn [merge].
  - apply map_app.
  - destruct l1 as [|a l1]; cbn [map]; [reflexivity|]. f_equal. apply IH.
  - destruct l2 as [|b l2]; cbn [map]; [reflexivity|]. f_equal. apply IH.
Qed.

Lemma merge_Permutation {A} sched : forall l1 l2 : list A, Permutation (merge sched l1 l2) (l1 ++ l2).
Proof.
  induction sched as [|[|] s IH]; intros l1 l2; cbn [merge]; [reflexivity| |].
  - destruct l1 as [|a l1]; [reflexivity|]. apply perm_skip, IH.
  - destruct l2 as [|b l2]; [rewrite app_nil_r; reflexivity|]. apply Permutation_cons_app, IH.
Qed.

Lemma merge_length {A} sched (l1 l2 : list A) : length (merge sched l1 l2) = (length l1 + length l2)%nat.
Proof. rewrite (Permutation_length (merge_Permutation sched l1 l2)). apply app_length. Qed.

Lemma stamped_frames readings : forall l, length readings = length l ->
  map i_frame (stamped readings l) = map i_frame l.
Proof.
  unfold stamped. induction readings as [|c cs IH]; intros [|p l] H; try discriminate; [reflexivity|].
  cbn [combine map fst snd set_now i_frame]. f_equal. apply IH. cbn [length] in H. lia.
Qed.

Lemma clocks_of_stamped readings l : length readings = length l ->
  clocks_of (stamped readings l) = combine readings (map (fun p => m_ts (i_meta p)) l).
Proof.
  unfold stamped, clocks_of. revert l. induction readings as [|c cs IH]; intros [|p l] H; try discriminate; [reflexivity|].
  cbn [length] in H. cbn [combine map fst snd set_now i_now i_meta]. f_equal. apply IH. lia.
Qed.

Lemma concurrent_writers :
  forall rnd hub d start sched readings (l1 l2 : list pin),
    monotone rnd ->
    Forall (fun p => frame_ok d (i_frame p) = true) l1 ->
    Forall (fun p => frame_ok d (i_frame p) = true) l2 ->
    length readings = (length l1 + length l2)%nat ->
    sortedb readings = true ->
    let l := stamped readings (merge sched l1 l2) in
    sortedb (ts_list (clocks_of l)) = true ->
    (all_some (clocks_of l) \/ exists D, offset_consistent D (clocks_of l)) ->
    let out := concurrent_capture rnd hub d start sched readings l1 l2 in
    map o_frame out = merge sched (map i_frame l1) (map i_frame l2)
    /\ sortedb (map o_time out) = true
    /\ sortedb (map o_rel out) = true
    /\ Forall (fun r => 0 <= r) (map o_rel out)
    /\ length out = (length l1 + length l2)%nat.
Proof.
  intros rnd hub d start sched readings l1 l2 Hr Hf1 Hf2 Hlen Hs. cbv zeta. intros Ht Hc.
  unfold concurrent_capture.
  assert (Hl : length readings = length (merge sched l1 l2)) by (rewrite merge_length; exact Hlen).
  pose proof (stamped_frames readings _ Hl) as Hfr.
  pose proof (clocks_of_stamped readings _ Hl) as Hck.
  set (l := stamped readings (merge sched l1 l2)) in *.
  (* the stamped merge is a capture to which the single-writer theorem applies *)
  assert (Hf : Forall (fun p => frame_ok d (i_frame p) = true) l).
  { apply (Forall_map i_frame (fun f => frame_ok d f = true)). rewrite Hfr. apply Forall_map.
    apply (Permutation_Forall (Permutation_sym (merge_Permutation sched l1 l2))), Forall_app.
    split; assumption. }
  assert (Hn : sortedb (map fst (clocks_of l)) = true).
  { rewrite Hck, map_fst_combine; [exact Hs | rewrite map_length; exact Hl]. }
  destruct (order_and_monotone_time rnd hub d start l Hr Hf Hn Ht Hc) as (H1 & H2 & H3 & H4 & _).
  repeat split; try assumption.
  - rewrite H1, Hfr. apply merge_map.
  - rewrite <- (map_length o_frame), H1, Hfr, map_length. apply merge_length.
Qed.
