(** C06 — lemmas. Everything here is for ALL words [N] (no bound on the masks).

    The one idea: every evaluator of Model.v reads the advertised words only through
    [N.land _ mask] / [N.testbit _ n], so it is LOCAL to its support [S] (unchanged by
    [restrict _ S]); [all_envs S] lists every [restrict e S]; hence a boolean check that is
    local to [S] and passes on [all_envs S] holds on all words ([forall_envs_sound]). *)
From Coq Require Import List NArith Bool String.
From Whad Require Import C06.Model C06.Spec.
Import ListNotations.
Open Scope N_scope.

Definition msub (a b : N) : Prop := forall i, N.testbit a i = true -> N.testbit b i = true.

Definition ssub (a b : env) : Prop :=
  msub (e_cmds a) (e_cmds b) /\ msub (e_caps a) (e_caps b) /\ msub (e_aux a) (e_aux b).

Lemma msub_refl a : msub a a.
Proof. intros i H; exact H. Qed.

Lemma msub_0 a : msub 0 a.
Proof. intros i H. rewrite N.bits_0 in H. discriminate. Qed.

Lemma msub_lor_l a b c : msub a b -> msub a (N.lor b c).
Proof. intros H i Hi. rewrite N.lor_spec, (H i Hi). reflexivity. Qed.

Lemma msub_lor_r a b c : msub a c -> msub a (N.lor b c).
Proof. intros H i Hi. rewrite N.lor_spec, (H i Hi). apply orb_true_r. Qed.

Lemma msub_lor_inv a b c : msub (N.lor a b) c -> msub a c /\ msub b c.
Proof.
  intros H; split; intros i Hi; apply H; rewrite N.lor_spec, Hi; auto using orb_true_r.
Qed.

Lemma ssub_refl a : ssub a a.
Proof. repeat split; apply msub_refl. Qed.

Lemma ssub_union_l a b c : ssub a b -> ssub a (sunion b c).
Proof. intros (A & B & C). repeat split; now apply msub_lor_l. Qed.

Lemma ssub_union_r a b c : ssub a c -> ssub a (sunion b c).
Proof. intros (A & B & C). repeat split; now apply msub_lor_r. Qed.

(** [auto with ssub] finds a support among the components of a nested [sunion] *)
Local Hint Resolve ssub_refl ssub_union_l ssub_union_r : ssub.

Lemma ssub_union_inv a b c : ssub (sunion a b) c -> ssub a c /\ ssub b c.
Proof.
  intros (A & B & C). cbn in A, B, C. apply msub_lor_inv in A, B, C.
  unfold ssub. tauto.
Qed.

Lemma ssub_env0 a : ssub env0 a.
Proof. repeat split; apply msub_0. Qed.

Lemma ssub_single v m M : ssub (single v m) M -> msub m (lookup M v).
Proof. destruct v; intros (A & B & C); assumption. Qed.

Lemma lookup_single v m : lookup (single v m) v = m.
Proof. destruct v; reflexivity. Qed.

Lemma lookup_sunion a b v : lookup (sunion a b) v = N.lor (lookup a v) (lookup b v).
Proof. destruct v; reflexivity. Qed.

Lemma lookup_restrict e M v : lookup (restrict e M) v = N.land (lookup e v) (lookup M v).
Proof. destruct v; reflexivity. Qed.

Lemma land_restrict x m M : msub m M -> N.land (N.land x M) m = N.land x m.
Proof.
  intros H. apply N.bits_inj; intro i. rewrite !N.land_spec.
  destruct (N.testbit m i) eqn:E.
  - rewrite (H i E). now rewrite !andb_true_r.
  - now rewrite !andb_false_r.
Qed.

Lemma testbit_restrict x n M : msub (2 ^ n) M -> N.testbit (N.land x M) n = N.testbit x n.
Proof.
  intros H. rewrite N.land_spec, (H n (N.pow2_bits_true n)). apply andb_true_r.
Qed.

Lemma ieval_local a M e : ssub (isupp a) M -> ieval a (restrict e M) = ieval a e.
Proof.
  destruct a as [c | v m]; cbn [ieval isupp]; intros H; [reflexivity|].
  rewrite lookup_restrict. apply land_restrict. now apply ssub_single.
Qed.

Lemma beval_local b : forall M e, ssub (bsupp b) M -> beval b (restrict e M) = beval b e.
Proof.
  induction b; intros M e H; cbn [beval bsupp] in *.
  - reflexivity.
  - rewrite lookup_restrict. apply testbit_restrict. now apply ssub_single.
  - apply ssub_union_inv in H as [H1 H2]. now rewrite !ieval_local.
  - now rewrite ieval_local.
  - now rewrite IHb.
  - apply ssub_union_inv in H as [H1 H2]. now rewrite IHb1, IHb2.
  - apply ssub_union_inv in H as [H1 H2]. now rewrite IHb1, IHb2.
Qed.

Lemma land_xO x q : N.land x (Npos q~0) = N.double (N.land (N.div2 x) (Npos q)).
Proof. destruct x as [| [y | y |]]; reflexivity. Qed.

Lemma land_xI x q :
  N.land x (Npos q~1) = (if N.odd x then N.succ_double else N.double) (N.land (N.div2 x) (Npos q)).
Proof. destruct x as [| [y | y |]]; reflexivity. Qed.

Lemma subpos_complete p : forall x, In (N.land x (Npos p)) (subpos p).
Proof.
  induction p as [q IH | q IH | ]; intros x; cbn [subpos].
  - rewrite land_xI. apply in_or_app.
    destruct (N.odd x); [right | left]; apply in_map, IH.
  - rewrite land_xO. apply in_map, IH.
  - destruct x as [| [y | y | ]]; cbn; auto.
Qed.

Lemma submasks_complete x m : In (N.land x m) (submasks m).
Proof.
  destruct m as [| p]; cbn [submasks].
  - rewrite N.land_0_r. now left.
  - apply subpos_complete.
Qed.

Lemma all_envs_complete e M : In (restrict e M) (all_envs M).
Proof.
  unfold all_envs, restrict.
  apply in_flat_map. exists (N.land (e_cmds e) (e_cmds M)). split; [apply submasks_complete|].
  apply in_flat_map. exists (N.land (e_caps e) (e_caps M)). split; [apply submasks_complete|].
  apply in_map, submasks_complete.
Qed.

Lemma forall_envs_sound M f :
  (forall e, f (restrict e M) = f e) ->
  forall_envs M f = true -> forall e, f e = true.
Proof.
  intros Hloc H e. rewrite <- Hloc.
  unfold forall_envs in H. rewrite forallb_forall in H. apply H, all_envs_complete.
Qed.

Lemma bequiv_sound e1 e2 :
  bequiv e1 e2 = true -> forall env, beval e1 env = beval e2 env.
Proof.
  intros H env. apply eqb_prop.
  unfold bequiv in H. revert env. eapply forall_envs_sound; [|exact H].
  intros e. cbv beta. now rewrite !beval_local by auto with ssub.
Qed.

Lemma find_env_some M f e : find_env M f = Some e -> f e = true.
Proof. unfold find_env. intros H. now apply find_some in H. Qed.

(** the witness finders search for an interface on which a check FAILS *)
Lemma find_env_negb M f e : find_env M (fun e => negb (f e)) = Some e -> f e = false.
Proof. intros H. apply find_env_some in H. now apply negb_true_iff. Qed.

Lemma bdiff_sound e1 e2 env : bdiff e1 e2 = Some env -> beval e1 env <> beval e2 env.
Proof. intros H. apply find_env_negb in H. now apply eqb_false_iff. Qed.

Lemma op_witness_sound req p e :
  op_witness req p = Some e -> op_ok req p e = false.
Proof. apply find_env_negb. Qed.

Lemma land_lxor_pow2 x m i : N.testbit m i = false -> N.land (N.lxor x (2 ^ i)) m = N.land x m.
Proof.
  intros H. apply N.bits_inj; intro j. rewrite !N.land_spec, N.lxor_spec.
  destruct (N.eq_dec i j) as [<- | Hne].
  - now rewrite H, !andb_false_r.
  - rewrite N.pow2_bits_false by assumption. now rewrite xorb_false_r.
Qed.

Lemma restrict_flip e S v i :
  N.testbit (lookup S v) i = false -> restrict (flip e v i) S = restrict e S.
Proof.
  unfold restrict, flip. destruct v; cbn [lookup e_cmds e_caps e_aux]; intros H; now rewrite land_lxor_pow2.
Qed.

Lemma beval_all_bits v l e : beval (all_bits v l) e = forallb (N.testbit (lookup e v)) l.
Proof. induction l as [| n r IH]; cbn [all_bits beval forallb]; now rewrite ?IH. Qed.

Lemma beval_any_bits v l e : beval (any_bits v l) e = existsb (N.testbit (lookup e v)) l.
Proof. induction l as [| n r IH]; cbn [any_bits beval existsb]; now rewrite ?IH. Qed.

Lemma beval_ball l e : beval (ball l) e = forallb (fun b => beval b e) l.
Proof. induction l as [| b r IH]; cbn [ball beval forallb]; now rewrite ?IH. Qed.

Lemma ball_spec l e : beval (ball l) e = true <-> Forall (fun b => beval b e = true) l.
Proof. now rewrite beval_ball, forallb_forall, Forall_forall. Qed.

Lemma all_bits_supp v l i :
  N.testbit (lookup (bsupp (all_bits v l)) v) i = existsb (N.eqb i) l.
Proof.
  induction l as [| n r IH]; cbn [all_bits bsupp existsb].
  - destruct v; apply N.bits_0.
  - now rewrite lookup_sunion, lookup_single, N.lor_spec, IH, N.pow2_bits_eqb, N.eqb_sym.
Qed.

Lemma gpaths_local p : forall M e, ssub (gsupp p) M -> gpaths p (restrict e M) = gpaths p e.
Proof.
  induction p; intros M e H; cbn [gpaths gsupp] in *.
  - reflexivity.
  - now rewrite IHp.
  - apply ssub_union_inv in H as [H1 H2]. apply ssub_union_inv in H2 as [H2 H3].
    rewrite beval_local by assumption. now rewrite IHp1, IHp2.
  - apply ssub_union_inv in H as [H1 H2]. now rewrite IHp1, IHp2.
Qed.

Lemma gpaths_grun p e : map snd (gpaths p e) = grun p e.
Proof.
  induction p; cbn [gpaths grun].
  - reflexivity.
  - destruct transmits; [|assumption].
    rewrite map_app, !map_map. cbn [snd fst]. rewrite <- IHp, map_map, map_id. reflexivity.
  - destruct (beval c e); assumption.
  - rewrite map_app, !map_map. cbn [snd]. now rewrite <- IHp1, <- IHp2.
Qed.

Lemma grun_local p M e : ssub (gsupp p) M -> grun p (restrict e M) = grun p e.
Proof. intros H. now rewrite <- !gpaths_grun, gpaths_local. Qed.

(** the three static checks are local to the supports they enumerate. The per-outcome check
    is unfolded as well: the [beval _ (restrict e _)] inside it do not mention the outcome,
    so [rewrite] reaches them although they stand under the [fun] given to [forallb]. *)
Lemma ctor_ok_local req p e :
  ctor_ok req p (restrict e (ctor_supp req p)) = ctor_ok req p e.
Proof.
  unfold ctor_ok, ctor_outcome_ok, ctor_supp.
  now rewrite grun_local, !beval_local by auto with ssub.
Qed.

Lemma op_ok_local req p e :
  op_ok req p (restrict e (op_supp req p)) = op_ok req p e.
Proof.
  unfold op_ok, op_outcome_ok, op_supp.
  now rewrite grun_local, !beval_local by auto with ssub.
Qed.

Lemma op_ok_arg_local asm req p e :
  op_ok_arg asm req p (restrict e (op_supp req p)) = op_ok_arg asm req p e.
Proof.
  unfold op_ok_arg, op_outcome_ok, op_supp.
  now rewrite gpaths_local, !beval_local by auto with ssub.
Qed.

Lemma exn_eqb_true a b : exn_eqb a b = true -> a = b.
Proof. destruct a, b; cbn; congruence. Qed.

Lemma result_eqb_true a b : result_eqb a b = true -> a = b.
Proof.
  destruct a, b; cbn; try congruence. intros H. f_equal. now apply exn_eqb_true.
Qed.

Lemma is_nil_true {A} (l : list A) : is_nil l = true -> l = [].
Proof. destruct l; cbn; congruence. Qed.

Lemma refused_true r x (sends : list string) :
  result_eqb r x && is_nil sends = true -> r = x /\ sends = [].
Proof.
  intros [A B]%andb_true_iff. split; [now apply result_eqb_true | now apply is_nil_true].
Qed.

Lemma ctor_outcome_ok_true req e r sends :
  ctor_outcome_ok req e (r, sends) = true ->
  (beval has_domain e = false -> r = RRaise EUnsupportedDomain /\ sends = []) /\
  (beval has_domain e = true -> beval req e = false ->
     r = RRaise EUnsupportedCapability /\ sends = []).
Proof.
  unfold ctor_outcome_ok. cbn [fst snd]. intros H. split.
  - intros Hd. rewrite Hd in H. now apply refused_true.
  - intros Hd Hr. rewrite Hd, Hr in H. now apply refused_true.
Qed.

Lemma op_outcome_ok_true req e r sends :
  op_outcome_ok req e (r, sends) = true -> beval req e = false ->
  (r = RRaise EUnsupportedCapability \/ r = RFalse) /\ sends = [].
Proof.
  unfold op_outcome_ok. cbn [fst snd]. intros H Hr. rewrite Hr in H. cbn in H.
  apply andb_true_iff in H as [A B]. split; [|now apply is_nil_true].
  apply orb_true_iff in A as [A | A]; [left | right]; now apply result_eqb_true.
Qed.

Lemma guard_sound_ctor req p :
  checks_before_sends_ctor req p = true ->
  forall e r sends, In (r, sends) (grun p e) ->
    (beval has_domain e = false -> r = RRaise EUnsupportedDomain /\ sends = []) /\
    (beval has_domain e = true -> beval req e = false ->
       r = RRaise EUnsupportedCapability /\ sends = []).
Proof.
  intros H e r sends Hin.
  pose proof (forall_envs_sound _ _ (ctor_ok_local req p) H e) as Hok.
  unfold ctor_ok in Hok. rewrite forallb_forall in Hok.
  apply ctor_outcome_ok_true, Hok, Hin.
Qed.

Lemma guard_sound_op req p :
  checks_before_sends_op req p = true ->
  forall e r sends, In (r, sends) (grun p e) -> beval req e = false ->
    (r = RRaise EUnsupportedCapability \/ r = RFalse) /\ sends = [].
Proof.
  intros H e r sends Hin.
  pose proof (forall_envs_sound _ _ (op_ok_local req p) H e) as Hok.
  unfold op_ok in Hok. rewrite forallb_forall in Hok.
  apply op_outcome_ok_true, Hok, Hin.
Qed.

Lemma guard_sound_op_arg asm req p :
  checks_before_sends_op_arg asm req p = true ->
  forall e path r sends, In (path, (r, sends)) (gpaths p e) ->
    path_consistent asm path = true -> beval req e = false ->
    (r = RRaise EUnsupportedCapability \/ r = RFalse) /\ sends = [].
Proof.
  intros H e path r sends Hin Hc.
  pose proof (forall_envs_sound _ _ (op_ok_arg_local asm req p) H e) as Hok.
  unfold op_ok_arg in Hok. rewrite forallb_forall in Hok. specialize (Hok _ Hin).
  cbn [fst snd] in Hok. rewrite Hc in Hok. now apply op_outcome_ok_true.
Qed.

Lemma ones_bits n i : N.testbit (N.ones n) i = N.ltb i n.
Proof.
  destruct (N.ltb_spec i n); [now apply N.ones_spec_low | now apply N.ones_spec_high].
Qed.

Lemma cap_mask_bits i : N.testbit CAP_MASK i = N.ltb i 24.
Proof. apply (ones_bits 24). Qed.

Lemma domain_mask_bits i : N.testbit DOMAIN_MASK i = N.leb 24 i && N.ltb i 32.
Proof.
  change DOMAIN_MASK with (N.ldiff (N.ones 32) (N.ones 24)).
  rewrite N.ldiff_spec, !ones_bits, N.leb_antisym. apply andb_comm.
Qed.

Lemma land_disjoint w a b : N.land a b = 0 -> N.land (N.land w a) (N.land w b) = 0.
Proof.
  intros H. apply N.bits_inj; intro i. rewrite !N.land_spec, N.bits_0.
  destruct (N.testbit w i); cbn; [|reflexivity].
  now rewrite <- N.land_spec, H, N.bits_0.
Qed.

Lemma deviceinfo_split w :
  N.land (word_domain w) (word_caps w) = 0 /\
  N.lor (word_domain w) (word_caps w) = N.land w 0xFFFFFFFF /\
  (forall i, N.testbit (word_caps w) i = N.testbit w i && N.ltb i 24) /\
  (forall i, N.testbit (word_domain w) i = N.testbit w i && (N.leb 24 i && N.ltb i 32)).
Proof.
  unfold word_domain, word_caps. repeat split.
  - apply land_disjoint. reflexivity.
  - rewrite <- N.land_lor_distr_r. reflexivity.
  - intro i. now rewrite N.land_spec, cap_mask_bits.
  - intro i. now rewrite N.land_spec, domain_mask_bits.
Qed.

Lemma di_find_remove_same d t : di_find d (di_remove d t) = None.
Proof.
  induction t as [| [k x] r IH]; cbn; [reflexivity|].
  destruct (N.eqb k d) eqn:E; [assumption|]. cbn. now rewrite E.
Qed.

Lemma di_find_remove_other d d' t : d <> d' -> di_find d (di_remove d' t) = di_find d t.
Proof.
  intros Hne. induction t as [| [k x] r IH]; cbn; [reflexivity|].
  destruct (N.eqb_spec k d') as [-> | _]; cbn; rewrite IH; [|reflexivity].
  destruct (N.eqb_spec d' d); congruence.
Qed.

Lemma di_init_find ws : forall d,
  di_find d (di_init ws)
  = option_map (fun w => (word_caps w, 0)) (find (fun w => N.eqb (word_domain w) d) (rev ws)).
Proof.
  unfold di_init. induction ws as [| w r IH] using rev_ind; intros d; [reflexivity|].
  rewrite fold_left_app, rev_app_distr. cbn [fold_left rev app find di_find].
  destruct (N.eqb_spec (word_domain w) d) as [E | Hne]; [reflexivity|].
  rewrite di_find_remove_other by congruence. apply IH.
Qed.

Lemma existsb_rev {A} (f : A -> bool) l : existsb f (rev l) = existsb f l.
Proof.
  induction l as [| x l IH]; cbn [rev existsb]; [reflexivity|].
  rewrite existsb_app, IH. cbn. now rewrite orb_false_r, orb_comm.
Qed.

Lemma existsb_find {A} (f : A -> bool) l :
  existsb f l = match find f l with Some _ => true | None => false end.
Proof. induction l as [| x l IH]; cbn; [reflexivity|]. now destruct (f x). Qed.

Lemma ltb_0_bit n : N.ltb 0 n = true <-> exists i, N.testbit n i = true.
Proof.
  rewrite N.ltb_lt, <- N.neq_0_lt_0. split.
  - intros H. exists (N.log2 n). now apply N.bit_log2.
  - intros [i Hi] ->. rewrite N.bits_0 in Hi. discriminate.
Qed.
