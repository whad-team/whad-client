(** C02 -- lemmas.  Generic facts about the abstract protobuf message (what [set_val] does to
    every field and every sub-message), Registry.bound (version fallback), parse dispatch (it
    never raises; it depends only on what the dispatchers read), the invariant of a message of
    one wrapper class, and their assembly into the round-trip / factory / totality theorems for
    ANY schema that passes the finite check [wf_schema]. *)
From Coq Require Import List NArith ZArith Arith Bool String Lia.
From Whad Require Import Lib.Lists C02.Model.
Import ListNotations.
Open Scope string_scope.
Open Scope list_scope.

(** * Keys and lists *)

Lemma path_eqb_eq a : forall b, path_eqb a b = true <-> a = b.
Proof.
  induction a as [|x a IH]; intros [|y b]; simpl; split; intro H; try reflexivity; try discriminate.
  - apply andb_true_iff in H as [H1 H2]. apply String.eqb_eq in H1. apply IH in H2. congruence.
  - inversion H; subst. rewrite String.eqb_refl. simpl. apply IH. reflexivity.
Qed.

Lemma path_eqb_refl a : path_eqb a a = true.
Proof. apply path_eqb_eq. reflexivity. Qed.

Lemma path_eqb_neq a b : a <> b -> path_eqb a b = false.
Proof. intros H. apply not_true_iff_false. rewrite path_eqb_eq. exact H. Qed.

Lemma path_eqb_spec a b : reflect (a = b) (path_eqb a b).
Proof. apply iff_reflect. symmetry. apply path_eqb_eq. Qed.

Lemma mem_path_In p l : mem_path p l = true <-> In p l.
Proof.
  unfold mem_path. rewrite existsb_exists. split.
  - intros [x [Hin He]]. apply path_eqb_eq in He. subst. exact Hin.
  - intros H. exists p. split; [exact H|apply path_eqb_refl].
Qed.

Lemma subset_paths_In a b : subset_paths a b = true -> forall p, In p a -> In p b.
Proof.
  unfold subset_paths. rewrite forallb_forall. intros H p Hp. apply mem_path_In. apply H. exact Hp.
Qed.

Lemma nodup_str_NoDup l : nodup_str l = true -> NoDup l.
Proof.
  induction l as [|x l IH]; simpl; intros H; [constructor|].
  apply andb_true_iff in H as [H1 H2]. constructor; [|apply IH; exact H2].
  intros Hin. apply negb_true_iff, not_true_iff_false in H1. apply H1.
  apply existsb_exists. exists x. split; [exact Hin|apply String.eqb_refl].
Qed.

Lemma nodup_paths_NoDup l : nodup_paths l = true -> NoDup l.
Proof.
  induction l as [|x l IH]; simpl; intros H; [constructor|].
  apply andb_true_iff in H as [H1 H2]. constructor; [|apply IH; exact H2].
  intros Hin. apply negb_true_iff, not_true_iff_false in H1. apply H1, mem_path_In, Hin.
Qed.

Lemma find_ext {A} (f g : A -> bool) l : (forall x, In x l -> f x = g x) -> find f l = find g l.
Proof.
  induction l as [|x l IH]; simpl; intros H; [reflexivity|].
  rewrite <- (H x (or_introl eq_refl)). destruct (f x); [reflexivity|].
  apply IH. intros y Hy. apply H. right. exact Hy.
Qed.

Lemma assoc_In {A} k (l : list (string * A)) v : assoc k l = Some v -> In (k, v) l.
Proof.
  induction l as [|[k' v'] l IH]; simpl; [discriminate|].
  destruct (String.eqb_spec k' k) as [->|_].
  - intros H. inversion H; subst. left. reflexivity.
  - intros H. right. apply IH. exact H.
Qed.

Lemma assoc_not_in {A} k (l : list (string * A)) : ~ In k (map fst l) -> assoc k l = None.
Proof.
  induction l as [|[k' v'] l IH]; simpl; [reflexivity|]. intros H.
  destruct (String.eqb_spec k' k) as [E|_].
  - contradiction H. left. exact E.
  - apply IH. intros H'. apply H. right. exact H'.
Qed.

Lemma In_assoc {A} k v (l : list (string * A)) : NoDup (map fst l) -> In (k, v) l -> assoc k l = Some v.
Proof.
  induction l as [|[k' v'] l IH]; simpl; intros Hnd Hin; [contradiction|].
  inversion Hnd as [|? ? Hn Hd]; subst. destruct Hin as [H|Hin].
  - inversion H; subst. rewrite String.eqb_refl. reflexivity.
  - destruct (String.eqb_spec k' k) as [->|_]; [|exact (IH Hd Hin)].
    contradiction Hn. exact (in_map fst _ _ Hin).
Qed.

Lemma lookup_In {A} q (l : list (path * A)) v : lookup q l = Some v -> In (q, v) l.
Proof.
  induction l as [|[k w] l IH]; simpl; [discriminate|].
  destruct (path_eqb_spec k q) as [->|_].
  - intros H. inversion H; subst. left. reflexivity.
  - intros H. right. apply IH. exact H.
Qed.

Lemma In_lookup {A} q (l : list (path * A)) v : In (q, v) l -> exists w, lookup q l = Some w.
Proof.
  induction l as [|[k w] l IH]; simpl; [contradiction|].
  intros [H|H].
  - inversion H; subst. rewrite path_eqb_refl. eauto.
  - destruct (path_eqb k q); [eauto|apply IH; exact H].
Qed.

Lemma lookup_none_not_in {A} q (l : list (path * A)) : lookup q l = None -> ~ In q (map fst l).
Proof.
  intros H Hin. apply in_map_iff in Hin as [[k v] [Hk Hin]]. simpl in Hk. subst.
  apply In_lookup in Hin as [w Hw]. congruence.
Qed.

Lemma lookup_filter_key {A} (f : path -> bool) q (l : list (path * A)) :
  lookup q (filter (fun e => f (fst e)) l) = if f q then lookup q l else None.
Proof.
  induction l as [|[k v] l IH]; simpl; [destruct (f q); reflexivity|].
  destruct (path_eqb k q) eqn:E.
  - apply path_eqb_eq in E. subst k.
    destruct (f q); simpl; [rewrite path_eqb_refl; reflexivity|exact IH].
  - destruct (f k); simpl; [rewrite E|]; exact IH.
Qed.

(** a filter that looks at the values too: the first entry of a key must be the only one *)
Lemma lookup_filter_nodup {A} q (P : path * A -> bool) l :
  NoDup (map fst l) ->
  lookup q (filter P l) = match lookup q l with
                          | Some v => if P (q, v) then Some v else None
                          | None => None
                          end.
Proof.
  induction l as [|[k v] l IH]; simpl; intros Hnd; [reflexivity|].
  inversion Hnd as [|? ? Hnotin Hnd']; subst.
  destruct (path_eqb k q) eqn:E.
  - apply path_eqb_eq in E. subst k. destruct (P (q, v)); simpl.
    + rewrite path_eqb_refl. reflexivity.
    + rewrite IH by exact Hnd'.
      destruct (lookup q l) eqn:El; [|reflexivity].
      exfalso. apply Hnotin. apply in_map_iff. exists (q, a). split; [reflexivity|apply lookup_In, El].
  - destruct (P (k, v)); simpl; [rewrite E|]; apply IH; exact Hnd'.
Qed.

(** * Values *)

Lemma list_eqb_eq {A} (e : A -> A -> bool) : (forall x y, e x y = true -> x = y) ->
  forall a b, list_eqb e a b = true -> a = b.
Proof.
  intros He. induction a as [|x a IH]; intros [|y b]; simpl; try discriminate; [reflexivity|].
  intros H. apply andb_true_iff in H as [H1 H2]. apply He in H1. apply IH in H2. congruence.
Qed.

Lemma sval_eqb_eq a b : sval_eqb a b = true -> a = b.
Proof.
  destruct a as [x|x|x], b as [y|y|y]; simpl; try discriminate.
  - intros H. apply Z.eqb_eq in H. congruence.
  - intros H. apply Bool.eqb_prop in H. congruence.
  - revert y. induction x as [|a x IH]; intros [|b y]; try discriminate; [reflexivity|].
    intros H. apply andb_true_iff in H as [H1 H2]. apply N.eqb_eq in H1. apply IH in H2. congruence.
Qed.

Lemma record_eqb_eq a b : record_eqb a b = true -> a = b.
Proof.
  apply list_eqb_eq. intros [n1 s1] [n2 s2]. simpl. intros H. apply andb_true_iff in H as [H1 H2].
  apply String.eqb_eq in H1. apply sval_eqb_eq in H2. congruence.
Qed.

Lemma value_eqb_eq a b : value_eqb a b = true -> a = b.
Proof.
  destruct a, b; simpl; try discriminate; intros H.
  - apply sval_eqb_eq in H. congruence.
  - apply (list_eqb_eq sval_eqb sval_eqb_eq) in H. congruence.
  - apply (list_eqb_eq record_eqb record_eqb_eq) in H. congruence.
Qed.

Lemma norm_value_default D fd : norm_value D fd (default_of fd) = default_of fd.
Proof. unfold norm_value, default_of. destruct (f_ty fd), (f_rep fd); reflexivity. Qed.

Lemma keep_false S p v fd : resolve (s_desc S) (s_root S) p = Some fd -> keep S (p, v) = false ->
  v = default_of fd /\ f_pres fd && negb (f_rep fd) = false.
Proof.
  unfold keep. cbn [fst snd]. intros ->.
  destruct (f_rep fd), (f_pres fd); cbn; try discriminate;
    intros H; apply negb_false_iff, value_eqb_eq in H; auto.
Qed.

(** * Abstract message: what an assignment does to every field and every sub-message *)

Definition merge (v : value) (old : option value) : value :=
  match v, old with
  | VL l, Some (VL o) => VL (o ++ l)
  | VR l, Some (VR o) => VR (o ++ l)
  | _, _ => v
  end.

Lemma merge_none v : merge v None = v.
Proof. destruct v; reflexivity. Qed.

Lemma lookup_set S p q v m :
  lookup q (vals (set_val S p v m))
  = if path_eqb p q then Some (merge v (lookup p (vals m)))
    else if cleared S p q then None else lookup q (vals m).
Proof.
  unfold set_val. cbn [vals lookup].
  destruct (path_eqb_spec p q) as [->|Hne]; [reflexivity|].
  rewrite (lookup_filter_key (fun k => negb (path_eqb k p) && negb (cleared S p k))).
  rewrite (path_eqb_neq q p) by congruence.
  destruct (cleared S p q); reflexivity.
Qed.

Lemma In_pres_set S p q v m :
  In q (pres (set_val S p v m)) <-> In q (prefixes p) \/ In q (pres m) /\ cleared S p q = false.
Proof. unfold set_val. cbn [pres]. rewrite in_app_iff, filter_In, negb_true_iff. reflexivity. Qed.

Lemma In_pres_select S p q m :
  In q (pres (select S p m)) <-> In q (closure1 p) \/ In q (pres m) /\ cleared S p q = false.
Proof.
  unfold select, closure1. cbn [pres In]. rewrite !in_app_iff, filter_In, negb_true_iff. cbn [In]. tauto.
Qed.

Lemma set_val_nodup S p v m : NoDup (map fst (vals m)) -> NoDup (map fst (vals (set_val S p v m))).
Proof.
  intros H. unfold set_val. cbn [vals map fst]. constructor; [|apply NoDup_map_filter; exact H].
  apply lookup_none_not_in.
  rewrite (lookup_filter_key (fun k => negb (path_eqb k p) && negb (cleared S p k))), path_eqb_refl. reflexivity.
Qed.

(** * Registry.bound *)

Lemma reg_lookup_in S reg name v c :
  reg_lookup S reg name v = Some c ->
  exists r, In r (s_regs S) /\ r_reg r = reg /\ r_name r = name /\ r_ver r = v /\ r_cls r = c.
Proof.
  unfold reg_lookup. destruct (find _ (s_regs S)) as [r|] eqn:E; [|discriminate].
  intros H. inversion H; subst. apply find_some in E as [Hin Hb].
  apply andb_true_iff in Hb as [Hb Hv]. apply andb_true_iff in Hb as [Hr Hn].
  apply String.eqb_eq in Hr. apply String.eqb_eq in Hn. apply Nat.eqb_eq in Hv.
  exists r. repeat split; assumption.
Qed.

Lemma bound_hit S reg name v c : reg_lookup S reg name v = Some c -> bound S reg name v = Some c.
Proof. intros H. destruct v; simpl; rewrite H; reflexivity. Qed.

Lemma bound_miss S reg name v :
  1 <= v -> reg_lookup S reg name (Datatypes.S v) = None ->
  bound S reg name (Datatypes.S v) = bound S reg name v.
Proof. intros Hv H. simpl. rewrite H. destruct v; [lia|reflexivity]. Qed.

Lemma bound_skip S reg name v0 v :
  1 <= v0 -> v0 <= v -> (forall v1, v0 < v1 <= v -> reg_lookup S reg name v1 = None) ->
  bound S reg name v = bound S reg name v0.
Proof.
  intros H1 Hle Hn. induction Hle as [|v Hle IH]; [reflexivity|].
  rewrite bound_miss; [|lia|apply Hn; lia]. apply IH. intros v1 Hv. apply Hn. lia.
Qed.

Lemma bound_spec S reg name v c :
  bound S reg name v = Some c ->
  exists v0, v0 <= v /\ reg_lookup S reg name v0 = Some c
             /\ forall v1, v0 < v1 <= v -> reg_lookup S reg name v1 = None.
Proof.
  induction v as [|v IH]; intros H.
  - exists 0. simpl in H. destruct (reg_lookup S reg name 0) eqn:E; [|discriminate].
    split; [lia|]. split; [congruence|]. intros; lia.
  - destruct (reg_lookup S reg name (Datatypes.S v)) as [c'|] eqn:E.
    + exists (Datatypes.S v). rewrite (bound_hit _ _ _ _ _ E) in H.
      split; [lia|]. split; [congruence|]. intros; lia.
    + destruct v as [|v']; [simpl in H; rewrite E in H; discriminate|].
      rewrite bound_miss in H; [|lia|exact E].
      apply IH in H as (v0 & Hle & Hl & Hn). exists v0. split; [lia|]. split; [exact Hl|].
      intros v1 Hv. destruct (Nat.eq_dec v1 (Datatypes.S (Datatypes.S v'))) as [->|Hne]; [exact E|apply Hn; lia].
Qed.

Lemma bound_in_regs S reg name v c :
  bound S reg name v = Some c ->
  exists r, In r (s_regs S) /\ r_reg r = reg /\ r_name r = name /\ r_cls r = c.
Proof.
  intros H. apply bound_spec in H as (v0 & _ & Hl & _). apply reg_lookup_in in Hl as (r & ? & ? & ? & ? & ?).
  exists r. repeat split; assumption.
Qed.

Lemma max_ver_ge S r : In r (s_regs S) -> r_ver r <= max_ver S.
Proof.
  unfold max_ver. induction (s_regs S) as [|x l IH]; simpl; [contradiction|].
  intros [->|H]; [lia|]. specialize (IH H). lia.
Qed.

Lemma max_ver_pos S : 1 <= max_ver S.
Proof. unfold max_ver. induction (s_regs S) as [|x l IH]; simpl; lia. Qed.

Lemma reg_lookup_above S reg name v : max_ver S < v -> reg_lookup S reg name v = None.
Proof.
  intros H. destruct (reg_lookup S reg name v) eqn:E; [|reflexivity].
  apply reg_lookup_in in E as (r & Hin & _ & _ & Hv & _). apply max_ver_ge in Hin. lia.
Qed.

Lemma bound_stable S reg name v : max_ver S <= v -> bound S reg name v = bound S reg name (max_ver S).
Proof.
  intros H. apply bound_skip; [apply max_ver_pos|exact H|].
  intros v1 Hv. apply reg_lookup_above. lia.
Qed.

Lemma version_in_range S v : 1 <= v ->
  exists v', In v' (seq 1 (max_ver S)) /\ forall reg name, bound S reg name v = bound S reg name v'.
Proof.
  intros Hv. pose proof (max_ver_pos S). destruct (le_lt_dec v (max_ver S)) as [Hle|Hgt].
  - exists v. split; [apply in_seq; lia|reflexivity].
  - exists (max_ver S). split; [apply in_seq; lia|]. intros. apply bound_stable. lia.
Qed.

(** * Parse never raises *)

Lemma nonempty_neq {A} (l : list A) : negb (match l with [] => true | _ => false end) = true -> l <> [].
Proof. destruct l; simpl; [discriminate|]. intros _ H. discriminate. Qed.

(** the form in which [safe] and [wf_parse] speak of the classes a registry can yield *)
Lemma safe_bound S n reg name v c :
  forallb (fun r => if String.eqb (r_reg r) reg then safe S n (r_cls r) else true) (s_regs S) = true ->
  bound S reg name v = Some c -> safe S n c = true.
Proof.
  intros H Hb. apply bound_in_regs in Hb as (r & Hin & <- & _ & <-).
  rewrite forallb_forall in H. specialize (H r Hin). rewrite String.eqb_refl in H. exact H.
Qed.

Definition answers_queries (S : schema) (vw : view) : Prop :=
  forall p g, query_members S (p, g) <> [] -> v_wo vw p g <> None.

Lemma view_of_answers_queries S m : answers_queries S (view_of S m).
Proof.
  intros p g H. unfold view_of, which_oneof, query_members in *. simpl in *.
  destruct (msg_at (s_desc S) (s_root S) p) as [mn|]; [|contradiction H; reflexivity].
  destruct (oneof_members (s_desc S) mn g) eqn:E; [contradiction H; reflexivity|]. discriminate.
Qed.

Definition benign (o : outcome) : Prop :=
  match o with
  | Msg _ | NoMsg => True
  | PRaise e => e = "UnsupportedVersionException"
  | OutOfFuel => False
  end.

Lemma cparse_safe S n : forall v vw cid,
  answers_queries S vw -> safe S n cid = true -> benign (cparse S n v vw cid).
Proof.
  induction n as [|n IH]; intros v vw cid Hg Hs; simpl in *; [discriminate|].
  destruct (find_class S cid) as [k|]; [|discriminate].
  destruct k as [attrs sel|c|p g reg|p g cases|p cases|why]; simpl; try exact I; try discriminate.
  - apply andb_true_iff in Hs as [Hq Hr]. apply nonempty_neq, Hg in Hq.
    destruct (v_wo vw p g) as [[mem|]|]; [| reflexivity | contradiction Hq; reflexivity].
    destruct (bound S reg mem v) as [c|] eqn:Eb; [|reflexivity].
    apply IH; [exact Hg|exact (safe_bound _ _ _ _ _ _ Hr Eb)].
  - apply andb_true_iff in Hs as [Hq Hr]. apply nonempty_neq, Hg in Hq.
    destruct (v_wo vw p g) as [[mem|]|]; [| exact I | contradiction Hq; reflexivity].
    destruct (assoc mem cases) as [c|] eqn:Ea; [|exact I].
    apply assoc_In in Ea. rewrite forallb_forall in Hr. apply IH; [exact Hg|exact (Hr _ Ea)].
  - destruct (assocZ (v_int vw p) cases) as [[reg name]|]; [|exact I].
    destruct (bound S reg name v); [exact I|reflexivity].
Qed.

Definition is_msg_or_none (o : outcome) : Prop := match o with Msg _ | NoMsg => True | _ => False end.

Lemma wf_parseP S v : wf_parse S = true ->
  is_msg_or_none (hub_parse S v DecodeError)
  /\ forall vw, answers_queries S vw -> is_msg_or_none (hub_parse_view S v vw).
Proof.
  unfold wf_parse. intros Hp.
  apply andb_prop in Hp as [Hp Hsafe]. apply andb_prop in Hp as [Hp Hq].
  apply andb_prop in Hp as [Hp Hc]. apply andb_prop in Hp as [Hd Hn].
  split; [simpl; rewrite Hd; exact I|]. intros vw Hg.
  apply nonempty_neq, Hg in Hq. unfold hub_parse_view. rewrite Hn, Hc.
  destruct (v_wo vw [] "msg") as [[d|]|]; [| exact I | contradiction Hq; reflexivity].
  destruct (bound S (s_hub S) d v) as [c|] eqn:Eb; [|exact I].
  (* the only exception a safe dispatch can end in is the one that is caught *)
  pose proof (cparse_safe S parse_fuel v vw c Hg (safe_bound _ _ _ _ _ _ Hsafe Eb)) as Hb.
  destruct (cparse S parse_fuel v vw c) as [c'| |e|]; simpl in *; try exact I; [|contradiction].
  subst e. exact I.
Qed.

(** * Dispatch depends only on what the dispatchers read and on what is bound at the version *)

Definition same_reads (S : schema) (vw vw' : view) : Prop :=
  (forall p g, In (p, g) (queries S) -> v_wo vw p g = v_wo vw' p g)
  /\ (forall p, In p (value_queries S) -> v_int vw p = v_int vw' p).

Lemma same_reads_refl S vw : same_reads S vw vw.
Proof. split; reflexivity. Qed.

Lemma class_reads S cid k : find_class S cid = Some k ->
  match k with
  | CDomain p g _ | COneofSwitch p g _ => In (p, g) (queries S)
  | CValueSwitch p _ => In p (value_queries S)
  | _ => True
  end.
Proof.
  unfold find_class, queries, value_queries. intros H. apply assoc_In in H.
  destruct k; try exact I; [right|right|]; apply in_flat_map; eexists; (split; [exact H|left; reflexivity]).
Qed.

Lemma cparse_ext S v v' vw vw' :
  (forall reg name, bound S reg name v = bound S reg name v') -> same_reads S vw vw' ->
  forall n cid, cparse S n v vw cid = cparse S n v' vw' cid.
Proof.
  intros Hb [Hw Hi]. induction n as [|n IH]; intros cid; simpl; [reflexivity|].
  destruct (find_class S cid) as [k|] eqn:Ef; [|reflexivity].
  apply class_reads in Ef.
  destruct k as [attrs sel|c|p g reg|p g cases|p cases|why]; try reflexivity.
  - rewrite <- (Hw p g Ef). destruct (v_wo vw p g) as [[mem|]|]; try reflexivity.
    rewrite <- Hb. destruct (bound S reg mem v); [apply IH|reflexivity].
  - rewrite <- (Hw p g Ef). destruct (v_wo vw p g) as [[mem|]|]; try reflexivity.
    destruct (assoc mem cases); [apply IH|reflexivity].
  - rewrite <- (Hi p Ef). destruct (assocZ (v_int vw p) cases) as [[reg name]|]; [rewrite Hb|]; reflexivity.
Qed.

Lemma hub_parse_view_ext S v v' vw vw' :
  (forall reg name, bound S reg name v = bound S reg name v') -> same_reads S vw vw' ->
  hub_parse_view S v vw = hub_parse_view S v' vw'.
Proof.
  intros Hb Hr. unfold hub_parse_view. rewrite <- (proj1 Hr [] "msg") by (left; reflexivity).
  destruct (v_wo vw [] "msg") as [[d|]|]; try reflexivity.
  rewrite <- Hb. destruct (bound S (s_hub S) d v); [|reflexivity].
  rewrite (cparse_ext S v v' vw vw' Hb Hr). reflexivity.
Qed.

Lemma outcome_eqb_msg o c : match o with Msg c' => String.eqb c c' | _ => false end = true -> o = Msg c.
Proof. destruct o; try discriminate. intros H. apply String.eqb_eq in H. congruence. Qed.

(** [wf_route] at every version: a message that shows the dispatchers what the class selects
    (resp. the fixed content) is parsed to the class [bound] yields *)
Definition routes (S : schema) : Prop := forall v reg name c,
  1 <= v -> bound S reg name v = Some c ->
  match find_class S c with
  | Some (CWrap _ sel) => hub_parse_view S v (static_view S sel) = Msg c
  | Some (CFixed content) => hub_parse S v (Decoded (canon S content)) = Msg c
  | _ => True
  end.

Lemma wf_routeP S : wf_route S = true -> routes S.
Proof.
  unfold wf_route. intros H v reg name c Hv Hb.
  destruct (version_in_range S v Hv) as (v' & Hin & Hbv). rewrite Hbv in Hb.
  pose proof Hb as Hr. apply bound_in_regs in Hr as (r & Hr & <- & <- & _).
  rewrite forallb_forall in H. specialize (H r Hr).
  rewrite forallb_forall in H. specialize (H v' Hin). rewrite Hb in H.
  destruct (find_class S c) as [[attrs sel|content|? ? ?|? ? ?|? ?|?]|]; try exact I; cbn [hub_parse];
    rewrite (hub_parse_view_ext S v v' _ _ Hbv (same_reads_refl S _)); apply outcome_eqb_msg; exact H.
Qed.

(** * Attributes of a class: lookup by name, assignment, reading *)

Lemma find_attr_in attrs n a : find_attr attrs n = Some a -> In a attrs /\ a_name a = n.
Proof.
  unfold find_attr. intros H. apply find_some in H as [H1 H2]. apply String.eqb_eq in H2. split; assumption.
Qed.

Lemma find_attr_self attrs a : NoDup (map a_name attrs) -> In a attrs -> find_attr attrs (a_name a) = Some a.
Proof.
  unfold find_attr. induction attrs as [|x l IH]; simpl; intros Hnd Hin; [contradiction|].
  inversion Hnd as [|? ? Hn Hd]; subst. destruct Hin as [->|Hin].
  - rewrite String.eqb_refl. reflexivity.
  - destruct (String.eqb_spec (a_name x) (a_name a)) as [E|_]; [|apply IH; assumption].
    contradiction Hn. rewrite E. apply in_map. exact Hin.
Qed.

Lemma set_attr_ok S attrs a v m m' : set_attr S attrs a v m = Ok m' ->
  match find_attr attrs a with
  | Some at_ => m' = set_val S (a_path at_) v m
  | None => m' = m
  end.
Proof.
  unfold set_attr. destruct (find_attr attrs a) as [at_|]; [|congruence].
  destruct (resolve _ _ _) as [fd|]; [|discriminate]. destruct (fits _ fd v); [congruence|discriminate].
Qed.

Lemma get_attr_wf S a m : wf_attr S a = true ->
  exists fd, resolve (s_desc S) (s_root S) (a_path a) = Some fd
    /\ a_opt a = f_pres fd && negb (f_rep fd)
    /\ get_attr S a m = match lookup (a_path a) (vals m) with
                        | Some v => GVal (norm_value (s_desc S) fd v)
                        | None => if a_opt a then GNone else GVal (default_of fd)
                        end.
Proof.
  unfold wf_attr, get_attr, has_key. destruct (resolve _ _ _) as [fd|]; [|discriminate].
  rewrite andb_true_iff. intros [Hk Ho]. apply Bool.eqb_prop in Ho. exists fd. repeat split; [exact Ho|].
  rewrite <- Ho, andb_negb_r.
  destruct (a_kind a); try discriminate Hk; destruct (lookup _ _), (a_opt a); reflexivity.
Qed.

Lemma init_wrap_vals S sel : vals (init_wrap S sel) = [].
Proof.
  unfold init_wrap. assert (vals pb_empty = []) as H by reflexivity. revert H. generalize pb_empty.
  induction sel as [|p l IH]; simpl; intros m H; [exact H|].
  apply IH. unfold select. cbn [vals]. rewrite H. reflexivity.
Qed.

Lemma closure1_self p : In p (closure1 p).
Proof. unfold closure1. apply in_or_app. right. left. reflexivity. Qed.
Lemma closure1_prefix p q : In q (prefixes p) -> In q (closure1 p).
Proof. unfold closure1. intros H. apply in_or_app. left. exact H. Qed.

(** * One wrapper class of a well-formed schema *)

Record wrap_ok (S : schema) (attrs : list attr) (sel : list path) : Prop := {
  wk_attr : forall a, In a attrs -> wf_attr S a = true;
  wk_names : NoDup (map a_name attrs);
  wk_paths : NoDup (map a_path attrs);
  wk_clear : forall p k, In p (map a_path attrs ++ sel) -> In k (allowed attrs sel) -> cleared S p k = false;
  wk_query : forall pg q, In pg (queries S) -> In q (query_members S pg) ->
               In q (allowed attrs sel) -> In q (required sel);
  wk_value : forall q, In q (value_queries S) -> ~ In q (allowed attrs sel) }.

Lemma wf_wrapP S attrs sel : wf_wrap S attrs sel = true -> wrap_ok S attrs sel.
Proof.
  unfold wf_wrap, wf_wrap_checks. cbn [forallb snd]. intros H.
  apply andb_prop in H as [H1 H]. apply andb_prop in H as [H2 H]. apply andb_prop in H as [H3 H].
  apply andb_prop in H as [H4 H]. apply andb_prop in H as [_ H]. apply andb_prop in H as [H6 _].
  apply andb_prop in H6 as [H6 H7].
  rewrite forallb_forall in H1, H4, H6, H7. constructor.
  - exact H1.
  - apply nodup_str_NoDup, H2.
  - apply nodup_paths_NoDup, H3.
  - intros p k Hp Hk. specialize (H4 p Hp). rewrite forallb_forall in H4. apply negb_true_iff, H4, Hk.
  - intros pg q Hpg Hq HA. specialize (H6 pg Hpg). rewrite forallb_forall in H6.
    specialize (H6 q Hq). apply mem_path_In in HA. rewrite HA in H6. apply mem_path_In, H6.
  - intros q Hq HA. specialize (H7 q Hq). apply mem_path_In in HA. rewrite HA in H7. discriminate.
Qed.

Section Wrapper.
  Variable S : schema.
  Variables (attrs : list attr) (sel : list path).
  Hypothesis Hwf : wrap_ok S attrs sel.

  Let A := allowed attrs sel.
  Let R := required sel.

  Lemma required_allowed q : In q R -> In q A.
  Proof. unfold R, A, allowed, required. intros H. apply in_or_app. right. exact H. Qed.

  Lemma attr_closure_allowed a q : In a attrs -> In q (closure1 (a_path a)) -> In q A.
  Proof.
    unfold A, allowed. intros Ha Hq. apply in_or_app. left. apply in_flat_map. exists a. split; assumption.
  Qed.

  Lemma sel_closure_required p q : In p sel -> In q (closure1 p) -> In q R.
  Proof. unfold R, required. intros Hp Hq. apply in_flat_map. exists p. split; assumption. Qed.

  (** invariant of a message of this class under construction, once the sub-messages [done]
      have been selected *)
  Definition inv_upto (done : list path) (m : pb) : Prop :=
    (forall k v, In (k, v) (vals m) -> In k A) /\ (forall k, In k (pres m) -> In k A)
    /\ (forall q, In q (flat_map closure1 done) -> In q (pres m)) /\ NoDup (map fst (vals m)).
  Definition inv : pb -> Prop := inv_upto sel.

  Lemma select_inv p done m : In p sel -> incl done sel -> inv_upto done m -> inv_upto (done ++ [p]) (select S p m).
  Proof.
    intros Hp Hd (Hv & Hpr & Hr & Hn). repeat split.
    - intros k w Hin. apply filter_In in Hin as [Hin _]. exact (Hv k w Hin).
    - intros k Hk. apply In_pres_select in Hk as [Hk|[Hk _]]; [|exact (Hpr k Hk)].
      exact (required_allowed _ (sel_closure_required p k Hp Hk)).
    - intros q Hq. apply In_pres_select. rewrite flat_map_app in Hq. apply in_app_or in Hq as [Hq|Hq].
      + right. split; [exact (Hr q Hq)|].
        apply (wk_clear _ _ _ Hwf); [apply in_or_app; right; exact Hp|]. apply required_allowed.
        apply in_flat_map in Hq as (p0 & Hp0 & Hq). exact (sel_closure_required p0 q (Hd p0 Hp0) Hq).
      + left. simpl in Hq. rewrite app_nil_r in Hq. exact Hq.
    - apply NoDup_map_filter, Hn.
  Qed.

  Lemma init_inv : inv (init_wrap S sel).
  Proof.
    assert (forall l, incl l sel -> inv_upto l (fold_left (fun m p => select S p m) l pb_empty)) as H.
    { induction l as [|p l IH] using rev_ind; intros Hl.
      - repeat split; try (simpl; contradiction). constructor.
      - rewrite fold_left_app. apply incl_app_inv in Hl as [Hl Hp].
        apply select_inv; [apply Hp; left; reflexivity|exact Hl|exact (IH Hl)]. }
    exact (H sel (incl_refl sel)).
  Qed.

  Lemma set_val_inv a v m : In a attrs -> inv m -> inv (set_val S (a_path a) v m).
  Proof.
    intros Ha (Hv & Hp & Hr & Hn). repeat split.
    - intros k w [Hin|Hin].
      + inversion Hin; subst. apply (attr_closure_allowed a _ Ha), closure1_self.
      + apply filter_In in Hin as [Hin _]. exact (Hv k w Hin).
    - intros k Hk. apply In_pres_set in Hk as [Hk|[Hk _]]; [|exact (Hp k Hk)].
      apply (attr_closure_allowed a _ Ha), closure1_prefix, Hk.
    - intros q Hq. apply In_pres_set. right. split; [exact (Hr q Hq)|].
      apply (wk_clear _ _ _ Hwf); [apply in_or_app; left; apply in_map; exact Ha|apply required_allowed; exact Hq].
    - apply set_val_nodup. exact Hn.
  Qed.

  Lemma set_all_inv : forall kw m m', set_all S attrs kw m = Ok m' -> inv m -> inv m'.
  Proof.
    induction kw as [|[a v] kw IH]; simpl; intros m m' H Hi.
    - inversion H; subst. exact Hi.
    - destruct (set_attr S attrs a v m) as [m1|e] eqn:E; [|discriminate].
      apply (IH m1 m' H). apply set_attr_ok in E.
      destruct (find_attr attrs a) as [at_|] eqn:Ef; subst m1; [|exact Hi].
      apply set_val_inv; [apply (find_attr_in _ _ _ Ef)|exact Hi].
  Qed.

  Lemma set_attr_lookup b w m m1 : set_attr S attrs b w m = Ok m1 ->
    forall a, In a attrs ->
    lookup (a_path a) (vals m1)
    = if String.eqb b (a_name a) then Some (merge w (lookup (a_path a) (vals m)))
      else lookup (a_path a) (vals m).
  Proof.
    intros E a Ha. apply set_attr_ok in E.
    destruct (String.eqb_spec b (a_name a)) as [->|Hnb].
    - rewrite (find_attr_self attrs a (wk_names _ _ _ Hwf) Ha) in E. subst m1.
      rewrite lookup_set, path_eqb_refl. reflexivity.
    - destruct (find_attr attrs b) as [ab|] eqn:Ef; subst m1; [|reflexivity].
      apply find_attr_in in Ef as [Hab <-].
      assert (a_path ab <> a_path a) as Hne.
      { intros Hp. apply Hnb. f_equal. exact (NoDup_map_inj a_path attrs ab a (wk_paths _ _ _ Hwf) Hab Ha Hp). }
      rewrite lookup_set, (path_eqb_neq _ _ Hne), (wk_clear _ _ _ Hwf);
        [reflexivity| |apply (attr_closure_allowed a _ Ha), closure1_self].
      apply in_or_app. left. apply in_map. exact Hab.
  Qed.

  Lemma set_all_lookup : forall kw m m',
    set_all S attrs kw m = Ok m' -> NoDup (map fst kw) ->
    forall a, In a attrs ->
    lookup (a_path a) (vals m')
    = match assoc (a_name a) kw with
      | Some v => Some (merge v (lookup (a_path a) (vals m)))
      | None => lookup (a_path a) (vals m)
      end.
  Proof.
    induction kw as [|[b w] kw IH]; simpl; intros m m' H Hnd a Ha.
    - inversion H; subst. reflexivity.
    - inversion Hnd as [|? ? Hnotin Hnd']; subst.
      destruct (set_attr S attrs b w m) as [m1|e] eqn:E; [|discriminate].
      rewrite (IH m1 m' H Hnd' a Ha), (set_attr_lookup b w m m1 E a Ha).
      destruct (String.eqb_spec b (a_name a)) as [->|_]; [|reflexivity].
      rewrite (assoc_not_in (a_name a) kw Hnotin). reflexivity.
  Qed.

  Lemma get_after_create kw m :
    set_all S attrs kw (init_wrap S sel) = Ok m -> NoDup (map fst kw) ->
    forall a, In a attrs -> get_attr S a (canon S m) = expected S a kw.
  Proof.
    intros Hc Hnd a Ha.
    destruct (get_attr_wf S a (canon S m) (wk_attr _ _ _ Hwf a Ha)) as (fd & Er & Ho & ->).
    pose proof (set_all_inv _ _ _ Hc init_inv) as (_ & _ & _ & Hnodup).
    unfold canon. cbn [vals].
    rewrite (lookup_filter_nodup _ (keep S) _ Hnodup), (set_all_lookup kw _ _ Hc Hnd a Ha), init_wrap_vals.
    unfold expected, unset_value. rewrite Er. cbn [lookup].
    destruct (assoc (a_name a) kw) as [v|]; [|reflexivity].
    rewrite merge_none. destruct (keep S (a_path a, v)) eqn:Ek; [reflexivity|].
    (* dropped by the wire: reads back as the default, which is what was given *)
    destruct (keep_false S _ _ fd Er Ek) as [-> Hp]. rewrite Ho, Hp, norm_value_default. reflexivity.
  Qed.

  Lemma canon_support m q v : inv m -> lookup q (vals (canon S m)) = Some v -> In q A.
  Proof.
    intros (Hv & _) El. cbn [canon vals] in El. apply lookup_In, filter_In in El as [El _]. exact (Hv _ _ El).
  Qed.

  Lemma present_queried m pg q : inv m -> In pg (queries S) -> In q (query_members S pg) ->
    present (canon S m) q = mem_path q R.
  Proof.
    intros Hi Hpg Hmem. pose proof Hi as (_ & Hp & Hr & _).
    apply eq_true_iff_eq. unfold present, has_key. rewrite orb_true_iff, !mem_path_In. cbn [canon pres].
    split; [|intros H; left; exact (Hr _ H)].
    intros [H|H]; apply (wk_query _ _ _ Hwf pg q Hpg Hmem); [exact (Hp _ H)|].
    destruct (lookup q _) eqn:El; [exact (canon_support m q _ Hi El)|discriminate].
  Qed.

  (** what the dispatchers see of any message of this class is fixed by the class alone *)
  Lemma view_static m : inv m -> same_reads S (view_of S (canon S m)) (static_view S sel).
  Proof.
    intros Hi. split.
    - intros p g Hpg. unfold view_of, static_view. cbn [v_wo]. unfold which_oneof.
      destruct (msg_at (s_desc S) (s_root S) p) as [mn|] eqn:Em; [|reflexivity].
      destruct (oneof_members (s_desc S) mn g) as [|n0 ms] eqn:Eo; [reflexivity|].
      f_equal. apply find_ext. intros n Hn. apply (present_queried m (p, g) _ Hi Hpg).
      unfold query_members. cbn [fst snd]. rewrite Em, Eo. apply (in_map (fun x => p ++ [x])). exact Hn.
    - intros p Hpv. unfold view_of, static_view. cbn [v_int].
      destruct (lookup p (vals (canon S m))) eqn:El; [|reflexivity].
      contradiction (wk_value _ _ _ Hwf p Hpv). exact (canon_support m p _ Hi El).
  Qed.
End Wrapper.

(** * What [wf_schema] says *)

Definition given (ar : args) (p : string) : Prop := exists pr, assoc p ar = Some (Some pr).

Record factory_ok (S : schema) (f : factory) : Prop := {
  fk_ops : NoDup (map op_attr (fa_ops f));
  (* every parameter flows to an op that is guarded, if at all, by that very parameter *)
  fk_params : forall ar p, In p (fa_params f) -> given ar (fst p) ->
    exists o, In o (fa_ops f) /\ effective o ar = true /\ expr_param (op_expr o) = Some (fst p);
  (* the per-version checks, at every version *)
  fk_bound : forall v, 1 <= v ->
    exists c, bound S (fa_reg f) (fa_target f) v = Some c
      /\ match find_class S c with
         | Some (CWrap attrs _) => forall ar, appends_declared attrs (fa_ops f) ar = true
         | Some (CFixed _) => fa_ops f = []
         | _ => False
         end }.

Lemma wf_factoryP S f : wf_factory S f = true -> factory_ok S f.
Proof.
  unfold wf_factory, wf_factory_checks. cbn [forallb snd]. intros H.
  apply andb_prop in H as [H1 H]. apply andb_prop in H as [H2 H]. apply andb_prop in H as [H3 H].
  apply andb_prop in H as [H4 H]. apply andb_prop in H as [_ H]. apply andb_prop in H as [H6 H].
  apply andb_prop in H as [H7 _].
  rewrite forallb_forall in H2, H3, H4, H6, H7. constructor.
  - apply nodup_str_NoDup, H1.
  - intros ar p Hp [pr Hg]. apply H2, existsb_exists in Hp as (o & Ho & He).
    exists o. split; [exact Ho|]. specialize (H3 o Ho). unfold effective.
    destruct (expr_param (op_expr o)) as [q|]; [|discriminate]. apply String.eqb_eq in He. subst q.
    split; [|reflexivity]. destruct (op_guard o) as [g|]; [|reflexivity].
    apply String.eqb_eq in H3. subst g. rewrite Hg. reflexivity.
  - intros v Hv. destruct (version_in_range S v Hv) as (v' & Hin & Hbv). rewrite Hbv.
    specialize (H4 v' Hin). specialize (H6 v' Hin). specialize (H7 v' Hin).
    destruct (bound S (fa_reg f) (fa_target f) v') as [c|]; [|discriminate].
    exists c. split; [reflexivity|]. unfold class_is_leaf in H4.
    destruct (find_class S c) as [[attrs sel|content|? ? ?|? ? ?|? ?|?]|] eqn:Ec; try discriminate.
    + intros ar. apply forallb_forall. intros o Ho. rewrite forallb_forall in H6. specialize (H6 o Ho).
      destruct o as [a e g|a e g]; [reflexivity|]. unfold declared_in, attrs_of in H6. rewrite Ec in H6.
      destruct (find_attr attrs a); [apply orb_true_r|discriminate].
    + destruct (fa_ops f); [reflexivity|discriminate].
Qed.

Record schema_ok (S : schema) : Prop := {
  ok_wrap : forall cid attrs sel, find_class S cid = Some (CWrap attrs sel) -> wrap_ok S attrs sel;
  ok_route : routes S;
  ok_total : forall v d, is_msg_or_none (hub_parse S v d);
  ok_factory : forall f, In f (s_factories S) -> factory_ok S f }.

Lemma wf_schemaP S : wf_schema S = true -> schema_ok S.
Proof.
  unfold wf_schema. intros H.
  apply andb_prop in H as [H Hfac]. apply andb_prop in H as [H Hparse].
  apply andb_prop in H as [H Hroute]. apply andb_prop in H as [_ Hcls].
  rewrite forallb_forall in Hcls, Hfac. constructor.
  - intros cid attrs sel Hc. apply wf_wrapP. exact (Hcls _ (assoc_In _ _ _ Hc)).
  - exact (wf_routeP S Hroute).
  - intros v d. destruct (wf_parseP S v Hparse) as [Hd Hm].
    destruct d as [m|]; [exact (Hm _ (view_of_answers_queries S m))|exact Hd].
  - intros f Hf. exact (wf_factoryP S f (Hfac f Hf)).
Qed.

Lemma parse_total S : wf_schema S = true -> forall v d, is_msg_or_none (hub_parse S v d).
Proof. intros H. exact (ok_total S (wf_schemaP S H)). Qed.

(** * The round trip *)

Lemma parse_inv S : schema_ok S ->
  forall v reg name cid attrs sel m,
    1 <= v -> bound S reg name v = Some cid -> find_class S cid = Some (CWrap attrs sel) ->
    inv attrs sel m -> hub_parse S v (Decoded (canon S m)) = Msg cid.
Proof.
  intros Hok v reg name cid attrs sel m Hv Hb Hc Hi.
  pose proof (ok_wrap S Hok cid attrs sel Hc) as Hw.
  cbn [hub_parse]. rewrite (hub_parse_view_ext S v v _ _ (fun _ _ => eq_refl) (view_static S attrs sel Hw m Hi)).
  pose proof (ok_route S Hok v reg name cid Hv Hb) as H. rewrite Hc in H. exact H.
Qed.

(** a fixed-content class declares no field and takes no keyword *)
Theorem roundtrip_any_class S : wf_schema S = true ->
  forall v reg name cid kw m,
    1 <= v -> bound S reg name v = Some cid -> NoDup (map fst kw) -> create S cid kw = Ok m ->
    hub_parse S v (Decoded (canon S m)) = Msg cid
    /\ forall a, In a (attrs_of S cid) -> get_attr S a (canon S m) = expected S a kw.
Proof.
  intros Hok v reg name cid kw m Hv Hb Hnd Hcr. apply wf_schemaP in Hok.
  unfold create in Hcr. unfold attrs_of.
  destruct (find_class S cid) as [[attrs sel|content| | | | ]|] eqn:Hc; try discriminate.
  - pose proof (ok_wrap S Hok cid attrs sel Hc) as Hw. split.
    + apply (parse_inv S Hok v reg name cid attrs sel m Hv Hb Hc).
      exact (set_all_inv S attrs sel Hw _ _ _ Hcr (init_inv S attrs sel Hw)).
    + exact (get_after_create S attrs sel Hw kw m Hcr Hnd).
  - destruct kw; [|discriminate]. inversion Hcr; subst m. split; [|intros a []].
    pose proof (ok_route S Hok v reg name cid Hv Hb) as H. rewrite Hc in H. exact H.
Qed.

Theorem roundtrip S : wf_schema S = true ->
  forall (v : nat) (reg name cid : string) attrs sel (kw : list (string * value)) (m : pb),
    1 <= v -> bound S reg name v = Some cid -> find_class S cid = Some (CWrap attrs sel) ->
    NoDup (map fst kw) -> create S cid kw = Ok m ->
    hub_parse S v (Decoded (canon S m)) = Msg cid
    /\ forall a, In a attrs -> get_attr S a (canon S m) = expected S a kw.
Proof.
  intros Hwf v reg name cid attrs sel kw m Hv Hb Hc Hnd Hcr.
  pose proof (roundtrip_any_class S Hwf v reg name cid kw m Hv Hb Hnd Hcr) as H.
  unfold attrs_of in H. rewrite Hc in H. exact H.
Qed.

(** keyword values within the range of their field are accepted *)
Definition admissible (S : schema) (attrs : list attr) (kw : list (string * value)) : Prop :=
  forall a v at_ fd, In (a, v) kw -> find_attr attrs a = Some at_ ->
    resolve (s_desc S) (s_root S) (a_path at_) = Some fd -> fits (s_desc S) fd v = true.

Lemma create_ok S : wf_schema S = true ->
  forall cid attrs sel kw, find_class S cid = Some (CWrap attrs sel) -> admissible S attrs kw ->
  exists m, create S cid kw = Ok m.
Proof.
  intros Hwf cid attrs sel kw Hc Hadm.
  pose proof (wk_attr S attrs sel (ok_wrap S (wf_schemaP S Hwf) cid attrs sel Hc)) as Hattr.
  unfold create. rewrite Hc. generalize (init_wrap S sel).
  induction kw as [|[a v] kw IH]; intros m; simpl; [eauto|].
  assert (exists m1, set_attr S attrs a v m = Ok m1) as [m1 ->].
  { unfold set_attr. destruct (find_attr attrs a) as [at_|] eqn:Ef; [|eauto].
    destruct (get_attr_wf S at_ m (Hattr at_ (proj1 (find_attr_in _ _ _ Ef)))) as (fd & Er & _).
    rewrite Er, (Hadm a v at_ fd (or_introl eq_refl) Ef Er). eauto. }
  apply IH. intros a' v' at' fd' Hin. apply Hadm. right. exact Hin.
Qed.

(** * Factories *)

Lemma kw_of_keys ops ar : forall kw, kw_of ops ar = Some kw ->
  map fst kw = map op_attr (filter (fun o => runs o ar) ops).
Proof.
  induction ops as [|o ops IH]; simpl; intros kw H.
  - inversion H. reflexivity.
  - destruct (runs o ar).
    + destruct (eval (op_expr o) ar); [|discriminate]. destruct (kw_of ops ar) as [l|]; [|discriminate].
      inversion H; subst. simpl. f_equal. apply IH. reflexivity.
    + apply IH. exact H.
Qed.

Lemma kw_of_In ops ar : forall kw, kw_of ops ar = Some kw ->
  forall o, In o ops -> runs o ar = true ->
  exists val, eval (op_expr o) ar = Some val /\ In (op_attr o, val) kw.
Proof.
  induction ops as [|o0 ops IH]; simpl; intros kw H o Hin He; [contradiction|].
  destruct (runs o0 ar) eqn:E0.
  - destruct (eval (op_expr o0) ar) as [v0|] eqn:Ev; [|discriminate].
    destruct (kw_of ops ar) as [l|]; [|discriminate]. inversion H; subst kw.
    destruct Hin as [<-|Hin]; [exists v0; split; [exact Ev|left; reflexivity]|].
    destruct (IH l eq_refl o Hin He) as (val & H1 & H2). exists val. split; [exact H1|right; exact H2].
  - destruct Hin as [<-|Hin]; [congruence|]. exact (IH kw H o Hin He).
Qed.

Lemma kw_of_untargeted ops ar a : forall kw, kw_of ops ar = Some kw ->
  (forall o, In o ops -> runs o ar = true -> op_attr o <> a) -> assoc a kw = None.
Proof.
  intros kw H Hno. apply assoc_not_in. rewrite (kw_of_keys ops ar kw H).
  intros Hin. apply in_map_iff in Hin as [o [Ho Hin]]. apply filter_In in Hin as [Hin He].
  exact (Hno o Hin He Ho).
Qed.

Lemma run_factory_ok S f v ar cid m : run_factory S f v ar = Ok (cid, m) ->
  exists kw, bound S (fa_reg f) (fa_target f) v = Some cid /\ kw_of (fa_ops f) ar = Some kw
             /\ create S cid kw = Ok m.
Proof.
  unfold run_factory. destruct (bound S (fa_reg f) (fa_target f) v) as [c|]; [|discriminate].
  destruct (kw_of (fa_ops f) ar) as [kw|]; [|discriminate]. intros H. exists kw.
  assert (match create S c kw with Ok m => Ok (c, m) | Raise e => Raise e end = Ok (cid, m)) as H'.
  { destruct (find_class S c) as [[attrs sel| | | | | ]|]; try exact H.
    destruct (appends_declared attrs (fa_ops f) ar); [exact H|discriminate]. }
  destruct (create S c kw) as [m0|] eqn:Ecr; [|discriminate]. inversion H'; subst. auto.
Qed.

Theorem factory_carries_args S : wf_schema S = true ->
  forall (f : factory) (v : nat) (ar : args) (cid : string) (m : pb),
    In f (s_factories S) -> 1 <= v -> run_factory S f v ar = Ok (cid, m) ->
    (* same kind after the wire round trip *)
    hub_parse S v (Decoded (canon S m)) = Msg cid
    (* every keyword / assignment that runs is read back as the value of its expression *)
    /\ (forall o at_, In o (fa_ops f) -> runs o ar = true ->
          find_attr (attrs_of S cid) (op_attr o) = Some at_ ->
          exists val, eval (op_expr o) ar = Some val
                      /\ get_attr S at_ (canon S m) = expected S at_ [(a_name at_, val)])
    (* fields no running op targets are reported unset *)
    /\ (forall at_, In at_ (attrs_of S cid) ->
          (forall o, In o (fa_ops f) -> runs o ar = true -> op_attr o <> a_name at_) ->
          get_attr S at_ (canon S m) = unset_value S at_)
    (* every argument that is given is carried by an op that runs *)
    /\ (forall p, In p (fa_params f) -> given ar (fst p) ->
          exists o, In o (fa_ops f) /\ effective o ar = true /\ expr_param (op_expr o) = Some (fst p)).
Proof.
  intros Hwf f v ar cid m Hf Hv Hrun.
  destruct (ok_factory S (wf_schemaP S Hwf) f Hf) as [Hnd Hparams _].
  destruct (run_factory_ok S f v ar cid m Hrun) as (kw & Eb & Ek & Ecr).
  assert (NoDup (map fst kw)) as Hkw.
  { rewrite (kw_of_keys _ _ _ Ek). apply NoDup_map_filter. exact Hnd. }
  destruct (roundtrip_any_class S Hwf v _ _ cid kw m Hv Eb Hkw Ecr) as [Hkind Hget].
  split; [exact Hkind|]. split; [|split; [|exact (Hparams ar)]].
  - intros o at_ Ho He Hfa. destruct (kw_of_In _ _ _ Ek o Ho He) as (val & Hev & Has).
    apply (In_assoc _ _ _ Hkw) in Has. apply find_attr_in in Hfa as [Hin Hname].
    exists val. split; [exact Hev|].
    rewrite (Hget at_ Hin). unfold expected. rewrite Hname, Has. simpl. rewrite String.eqb_refl. reflexivity.
  - intros at_ Hin Hno. rewrite (Hget at_ Hin). unfold expected.
    rewrite (kw_of_untargeted _ _ (a_name at_) _ Ek Hno). reflexivity.
Qed.

(** admissible, well-shaped arguments are accepted: the factory builds a message *)
Theorem factory_total S : wf_schema S = true ->
  forall (f : factory) (v : nat) (ar : args) (kw : list (string * value)),
    In f (s_factories S) -> 1 <= v -> kw_of (fa_ops f) ar = Some kw ->
    (forall cid attrs sel, bound S (fa_reg f) (fa_target f) v = Some cid ->
       find_class S cid = Some (CWrap attrs sel) -> admissible S attrs kw) ->
    exists cid m, run_factory S f v ar = Ok (cid, m).
Proof.
  intros Hwf f v ar kw Hf Hv Hk Hadm.
  destruct (ok_factory S (wf_schemaP S Hwf) f Hf) as [_ _ Hver].
  destruct (Hver v Hv) as (c & Hb & Hc).
  unfold run_factory. rewrite Hb, Hk.
  destruct (find_class S c) as [[attrs sel|content|? ? ?|? ? ?|? ?|?]|] eqn:Ec; try contradiction.
  - rewrite Hc. destruct (create_ok S Hwf c attrs sel kw Ec (Hadm c attrs sel Hb Ec)) as [m ->]. eauto.
  - rewrite Hc in Hk. simpl in Hk. inversion Hk; subst kw.
    unfold create. rewrite Ec. eauto.
Qed.

(** * With the protobuf wire codec as a parameter *)

Section Wire.
  Variable S : schema.
  Hypothesis Hwf : wf_schema S = true.
  Variable serialize : pb -> list N.
  Variable parse_bytes : list N -> decoded.
  Hypothesis codec : forall m, parse_bytes (serialize m) = Decoded (canon S m).

  Theorem roundtrip_wire :
    forall (v : nat) (reg name cid : string) attrs sel (kw : list (string * value)),
      1 <= v -> bound S reg name v = Some cid -> find_class S cid = Some (CWrap attrs sel) ->
      NoDup (map fst kw) -> admissible S attrs kw ->
      exists m m', create S cid kw = Ok m /\ parse_bytes (serialize m) = Decoded m'
                   /\ hub_parse S v (Decoded m') = Msg cid
                   /\ forall a, In a attrs -> get_attr S a m' = expected S a kw.
  Proof.
    intros v reg name cid attrs sel kw Hv Hb Hc Hnd Hadm.
    destruct (create_ok S Hwf cid attrs sel kw Hc Hadm) as [m Hm].
    destruct (roundtrip S Hwf v reg name cid attrs sel kw m Hv Hb Hc Hnd Hm) as [H1 H2].
    exists m, (canon S m). repeat split; auto.
  Qed.

  Theorem parse_total_wire : forall (v : nat) (b : list N), is_msg_or_none (hub_parse S v (parse_bytes b)).
  Proof. intros v b. apply parse_total. exact Hwf. Qed.
End Wire.
