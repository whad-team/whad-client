(** C18 — property theorems only, each a few lines from the lemmas of Proofs.v; the witnesses of
    the code before the fixes that compare concrete AES outputs are closed by evaluation.
    [E] / [D] are an arbitrary block function and its inverse direction: every theorem holds
    for every such pair with 16-byte outputs (AES-128 is one; it is plugged in by the
    correspondence check and by the concrete witnesses). [std_variant] is the code under
    verification, [legacy_variant] the code before the `fix:` commits recorded for this property. *)
From Coq Require Import List NArith Arith.
From Whad Require Import Lib.Bytes Lib.Xor Lib.Aes Lib.Ccm Lib.Cmac C18.Model C18.Proofs.
Import ListNotations.

(** ** LoRaWAN *)

(** Data frames (MType 2..5, any DevAddr, FCnt, FCtrl bits, FPort 0..255, FOpts 0..15 bytes,
    payload such that the PHY length fits the MIC block, i.e. 0..222 bytes with 15 FOpts
    bytes): encrypt_packet succeeds, the MIC it wrote verifies, and decrypt_packet returns the
    original frame (all fields; the MIC field holds the computed MIC). *)
Theorem C18_lorawan_data_self_inverse :
  forall E D : bytes -> bytes -> bytes,
    (forall k b, length (E k b) = 16) -> (forall k b, length (D k b) = 16) ->
    (forall k b, length b = 16 -> E k (D k b) = b) ->
    forall (appkey appkey' : option bytes) (a n : bytes) (d : lw_data),
      lw_wf d ->
      exists d',
        encrypt_packet E D std_variant appkey (Some a) (Some n) (PData d) = Ok (PData d') /\
        lw_mic_dir E (dir_of (d_mtype d')) n (d_addr d') (d_fcnt d') (data_nomic d') = Ok (d_mic d') /\
        decrypt_packet E std_variant appkey' (Some a) (Some n) (PData d') = Ok (PData (with_mic d (d_mic d'))).
Proof.
  intros E D HE _ _ appkey appkey' a n d Hwf. exists (enc_result E a n d).
  split; [exact (enc_data_ok E HE a n d Hwf)|].
  split; [exact (enc_result_mic_ok E HE a n d Hwf)|exact (dec_data_ok E HE a n d Hwf)].
Qed.

(** Join accept (12-byte body, or 28 with a CFList; any RFU/Major bits): the frame encrypted
    with the AES decrypt direction decrypts to the original with its MIC. *)
Theorem C18_lorawan_join_self_inverse :
  forall E D : bytes -> bytes -> bytes,
    (forall k b, length (E k b) = 16) -> (forall k b, length (D k b) = 16) ->
    (forall k b, length b = 16 -> E k (D k b) = b) ->
    forall (k : bytes) (s n s' n' : option bytes) (lo : N) (body mic0 : bytes),
      (length body + 4) mod 16 = 0 ->
      exists body' mic',
        encrypt_packet E D std_variant (Some k) s n (PJoin lo body mic0) = Ok (PJoin lo body' mic') /\
        length mic' = 4 /\
        decrypt_packet E std_variant (Some k) s' n' (PJoin lo body' mic')
        = Ok (PJoin lo body (lw_mic E k ((32 + lo)%N :: body))).
Proof.
  intros E D HE HD HED k s n s' n' lo body mic0 Hal.
  destruct (lw_join_roundtrip E D HE HD HED k lo body Hal) as (enc & He & H4 & Hd).
  exists (drop_last 4 enc), (take_last 4 enc). cbn [encrypt_packet decrypt_packet]. unfold enc_join.
  rewrite He. split; [reflexivity|]. split; [apply take_last_length, H4|exact Hd].
Qed.

(** The wire path: scapy re-dissects the bytes it built into the same frame. *)
Theorem C18_lorawan_wire_data : forall d, lw_wf d -> dissect (build (PData d)) = Some (PData d).
Proof. exact dissect_build_data. Qed.

Theorem C18_lorawan_wire_join : forall lo body mic, (lo < 32)%N -> length mic = 4 ->
  dissect (build (PJoin lo body mic)) = Some (PJoin lo body mic).
Proof. exact dissect_build_join. Qed.

(** Integrity: for the supported MTypes, returning normally means the MIC matched ... *)
Theorem C18_lorawan_ok_means_verified_partial :
  forall (E : bytes -> bytes -> bytes) (a s n : option bytes) (p x : packet),
    (forall mt lo b m, p <> POther mt lo b m) ->
    decrypt_packet E std_variant a s n p = Ok x -> lw_mic_verified E a s n p.
Proof.
  intros E a s n p x Hp H. apply lw_decrypt_ok_cases in H. destruct p; try exact H.
  exfalso. eapply Hp. reflexivity.
Qed.

(** ... and a frame whose MIC field differs from the recomputed MIC is rejected with the
    dedicated error (tamper => fail, conditional on MAC inequality). *)
Theorem C18_lorawan_data_tamper_rejected :
  forall (E : bytes -> bytes -> bytes) (a : option bytes) (s n : bytes) (d : lw_data) (exp : bytes),
    lw_mic_dir E (dir_of (d_mtype d)) n (d_addr d) (d_fcnt d) (data_nomic d) = Ok exp ->
    exp <> d_mic d ->
    decrypt_packet E std_variant a (Some s) (Some n) (PData d) = Raise BadMICError.
Proof.
  intros E a s n d exp Hm Hne. cbn [decrypt_packet std_variant v_legacy].
  rewrite dec_data_std, Hm, bytes_eqb_neq by exact Hne. reflexivity.
Qed.

Theorem C18_lorawan_join_tamper_rejected :
  forall (E : bytes -> bytes -> bytes) (k : bytes) (s n : option bytes) (lo : N) (body mic dec : bytes),
    ecb E k (body ++ mic) = Ok dec ->
    lw_mic E k ((32 + lo)%N :: drop_last 4 dec) <> take_last 4 dec ->
    decrypt_packet E std_variant (Some k) s n (PJoin lo body mic) = Raise BadMICError.
Proof.
  intros E k s n lo body mic dec He Hne. cbn [decrypt_packet]. unfold dec_join.
  rewrite He, bytes_eqb_neq by exact Hne. reflexivity.
Qed.

(** The MIC is computed over an injective encoding of direction, DevAddr, FCnt and of every
    field of the frame (MHDR, FCtrl, FOpts, FPort, FRMPayload): no protected byte is left out. *)
Theorem C18_lorawan_mic_input_injective :
  forall dir dir' a a' c c' f f',
    (a < 4294967296)%N -> (a' < 4294967296)%N -> (c < 4294967296)%N -> (c' < 4294967296)%N ->
    lw_mic_input dir a c f = lw_mic_input dir' a' c' f' ->
    dir = dir' /\ a = a' /\ c = c' /\ f = f'.
Proof.
  intros dir dir' a a' c c' f f' Ha Ha' Hc Hc' H. unfold lw_mic_input in H.
  apply app_inj_length in H as [Hb ->]; [|reflexivity].
  apply (lw_block_inj _ _ _ _ _ _ _ _ _ _ Ha Ha' Hc Hc') in Hb. tauto.
Qed.

Theorem C18_lorawan_mic_covers_all_fields :
  forall d d', lw_wf d -> lw_wf d' -> data_nomic d = data_nomic d' -> with_mic d [] = with_mic d' [].
Proof. exact data_nomic_injective. Qed.

(** FULL STATEMENT of "returning normally means a MIC was verified" — refuted on the MTypes
    decrypt_packet does not support (KNOWN-FINDING lorawan-unsupported-mtype-not-verified). *)
Definition C18_lorawan_ok_means_verified_statement : Prop :=
  forall (E : bytes -> bytes -> bytes) (a s n : option bytes) (p x : packet),
    decrypt_packet E std_variant a s n p = Ok x -> lw_mic_verified E a s n p.

Theorem C18_lorawan_ok_means_verified_refuted :
  forall (E : bytes -> bytes -> bytes) a s n,
    exists p x, decrypt_packet E std_variant a s n p = Ok x /\ ~ lw_mic_verified E a s n p.
Proof.
  intros E a s n. exists (POther 0 0 [] [0;0;0;0]%N), (POther 0 0 [] [0;0;0;0]%N).
  split; [reflexivity|]. cbn. tauto.
Qed.

(** one flipped MHDR bit of any unconfirmed uplink frame reaches that case *)
Theorem C18_lorawan_mtype_flip_passthrough :
  forall (E : bytes -> bytes -> bytes) a s n rest,
    4 <= length rest ->
    exists p, dissect (flip_bit 6 (64%N :: rest)) = Some p /\ decrypt_packet E std_variant a s n p = Ok p.
Proof.
  intros E a s n rest Hl. cbn [flip_bit Nat.ltb Nat.leb]. unfold dissect.
  change (N.lxor 64 (N.shiftl 1 (N.of_nat 6))) with 0%N.
  rewrite (proj2 (Nat.ltb_ge _ 4)) by exact Hl. cbn. eexists. split; reflexivity.
Qed.

(** A missing key is MissingKeyError — for encrypt and decrypt, every frame of a supported
    type, whatever the other keys are (also for the code before the fixes). *)
Theorem C18_lorawan_missing_key_is_MissingKeyError :
  forall (E D : bytes -> bytes -> bytes) (v : variant) (a s n : option bytes) (p : packet),
    match p with
    | PJoin _ _ _ => a = None
    | PData _ => s = None \/ n = None
    | POther _ _ _ _ => False
    end ->
    encrypt_packet E D v a s n p = Raise MissingKeyError /\
    decrypt_packet E v a s n p = Raise MissingKeyError.
Proof. exact lw_missing_key. Qed.

(** The defects of the code before the `fix:` commits (witnesses replayed by the seeded reverts). *)
Theorem C18_legacy_lorawan_downlink_raises :
  forall (E : bytes -> bytes -> bytes) (a : option bytes) (s n : bytes) (d : lw_data),
    is_uplink (d_mtype d) = false ->
    decrypt_packet E legacy_variant a (Some s) (Some n) (PData d) = Raise AttributeError.
Proof.
  intros E a s n d H. cbn [decrypt_packet legacy_variant v_legacy]. unfold dec_data. rewrite H. reflexivity.
Qed.

Theorem C18_legacy_lorawan_port0_refuted :
  exists b, snd (lw_roundtrip legacy_variant w_keys w_keys (PData w_up0)) = Ok b /\
            drop_last 4 b <> drop_last 4 (build (PData w_up0)).
Proof.
  eexists. split; [exact (lw_roundtrip_legacy_up0 _ _ _ _ _ w_up0_wf eq_refl eq_refl)|].
  cbn [build]. rewrite !drop_last_app by (apply (lw_mic_length aes128_enc aes128_enc_length) || reflexivity).
  unfold data_nomic.
  cbn [with_fopts_payload with_mic enc_result enc_fields w_up0 d_mtype d_lo d_addr d_fhi d_fcnt d_fopts d_fport d_payload].
  intros H. do 6 apply app_inv_head in H. vm_compute in H. discriminate.
Qed.

Theorem C18_legacy_lorawan_join_mhdr_refuted :
  snd (lw_roundtrip legacy_variant w_keys w_keys (PJoin 1 [86;52;18;66;0;0;204;187;170;0;53;5]%N [0;0;0;0]%N))
  = Raise BadMICError.
Proof. vm_compute. reflexivity. Qed.

(** ** RF4CE *)

(** For every frame type, counter, header, payload (also empty), MIC placeholder, security flag
    given set or clear, 8-byte addresses, with or without a MAC header in front: encrypt returns
    a packet which, re-dissected by the receiver, decrypt accepts, returning the original frame
    (security and reserved bits set) followed by the MIC. *)
Theorem C18_rf4ce_self_inverse :
  forall E : bytes -> bytes -> bytes,
    (forall k b, length (E k b) = 16) ->
    forall (key : bytes) (x : rf_in) (src dst : bytes),
      rf_wf x -> r_src x = Some src -> r_dst x = Some dst ->
      let fa := N.lor (N.lor (r_fctl x) 32) 4 in
      exists w x' tag,
        rf_encrypt E std_variant key x = RPkt w /\
        rf_parse (length (r_pre x)) (Some src) (Some dst) (r_has_mac x) w = Some x' /\
        length tag = 4 /\
        rf_decrypt E std_variant key x' = RTuple (r_pre x ++ rf_nwk fa (r_fc x) (r_hdr x) (r_payload x) tag) true.
Proof. exact rf_self_inverse. Qed.

(** Integrity: acceptance implies that the received MIC is the recomputed CCM tag ... *)
Theorem C18_rf4ce_accept_means_tag :
  forall E : bytes -> bytes -> bytes,
    (forall k b, length (E k b) = 16) ->
    forall (key : bytes) (x : rf_in) (src dst b : bytes),
      length (r_mic x) = 4 -> rf_sec (r_fctl x) = true -> r_src x = Some src -> r_dst x = Some dst ->
      let f0 := N.lor (r_fctl x) 32 in
      rf_decrypt E std_variant key x = RTuple b true ->
      r_mic x = ccm_tag E 4 2 key (rf_nonce src (r_fc x)) (rf_auth f0 (r_fc x) dst)
                        (ccm_keystream_xor E 2 key (rf_nonce src (r_fc x)) (r_payload x)).
Proof.
  intros E _ key x src dst b _ Hsec Hs Hd f0 H. apply bytes_eqb_eq.
  assert (Ha : rf_accepts E key x = true) by (unfold rf_accepts; rewrite H; reflexivity).
  rewrite rf_accepts_eq, Hs, Hd, Hsec in Ha. exact Ha.
Qed.

(** ... and a frame whose MIC is not that tag is rejected: (packet, False). *)
Theorem C18_rf4ce_tamper_rejected :
  forall E : bytes -> bytes -> bytes,
    (forall k b, length (E k b) = 16) ->
    forall (key : bytes) (x : rf_in) (src dst : bytes),
      length (r_mic x) = 4 -> rf_sec (r_fctl x) = true -> r_src x = Some src -> r_dst x = Some dst ->
      let f0 := N.lor (r_fctl x) 32 in
      r_mic x <> ccm_tag E 4 2 key (rf_nonce src (r_fc x)) (rf_auth f0 (r_fc x) dst)
                         (ccm_keystream_xor E 2 key (rf_nonce src (r_fc x)) (r_payload x)) ->
      rf_decrypt E std_variant key x
      = RTuple (r_pre x ++ rf_nwk f0 (r_fc x) (r_hdr x) (r_payload x) (r_mic x)) false.
Proof.
  intros E _ key x src dst Hmic Hsec Hs Hd f0 Hne. rewrite (rf_decrypt_std E key x src dst Hmic Hsec Hs Hd).
  apply (ccm_decrypt_none_iff E) in Hne. fold f0. rewrite Hne. reflexivity.
Qed.

(** The CBC-MAC input determines source, frame counter, frame control byte (as authenticated),
    destination and payload. *)
Theorem C18_rf4ce_mic_covers :
  forall s s' fc fc' f f' d d' m m',
    length s = 8 -> length s' = 8 -> length fc = 4 -> length fc' = 4 ->
    length d = 8 -> length d' = 8 -> (N.of_nat (length m) < 65536)%N -> (N.of_nat (length m') < 65536)%N ->
    ccm_auth_blocks 4 2 (rf_nonce s fc) (rf_auth f fc d) m = ccm_auth_blocks 4 2 (rf_nonce s' fc') (rf_auth f' fc' d') m' ->
    s = s' /\ fc = fc' /\ f = f' /\ d = d' /\ m = m'.
Proof. exact rf_auth_injective. Qed.

(** FULL STATEMENTS "any modification of the header is rejected" — refuted: the profile / vendor
    id bytes are outside the authenticated data (KNOWN-FINDING rf4ce-profile-vendor-unauthenticated)
    and the reserved bit is overwritten before authentication (KNOWN-FINDING rf4ce-reserved-bit-forced).
    The general form: acceptance does not depend on them at all. *)
Definition C18_rf4ce_any_header_change_rejected_statement : Prop := rf_any_header_change_rejected_statement.

Theorem C18_rf4ce_any_header_change_rejected_refuted : ~ rf_any_header_change_rejected_statement.
Proof.
  intros H.
  specialize (H wk_a w_sealed [1;2;3]%N (rf_fa_sec _) eq_refl ltac:(discriminate) w_sealed_accepted).
  rewrite rf_hdr_unauthenticated, w_sealed_accepted in H. discriminate.
Qed.

Theorem C18_rf4ce_profile_vendor_unauthenticated :
  forall E : bytes -> bytes -> bytes,
    (forall k b, length (E k b) = 16) ->
    forall (key : bytes) (x : rf_in) (src dst h : bytes),
      length (r_mic x) = 4 -> rf_sec (r_fctl x) = true -> r_src x = Some src -> r_dst x = Some dst ->
      rf_accepts E key (with_hdr x h) = rf_accepts E key x.
Proof. intros E _ key x _ _ h _ _ _ _. apply rf_hdr_unauthenticated. Qed.

Definition C18_rf4ce_reserved_bit_change_rejected_statement : Prop := rf_reserved_bit_change_rejected_statement.

Theorem C18_rf4ce_reserved_bit_change_rejected_refuted : ~ rf_reserved_bit_change_rejected_statement.
Proof.
  intros H. specialize (H wk_a w_sealed (rf_fa_sec _) w_sealed_accepted).
  rewrite rf_reserved_unauthenticated, w_sealed_accepted in H. discriminate.
Qed.

Theorem C18_rf4ce_reserved_bit_unauthenticated :
  forall E : bytes -> bytes -> bytes,
    (forall k b, length (E k b) = 16) ->
    forall (key : bytes) (x : rf_in) (src dst : bytes),
      length (r_mic x) = 4 -> rf_sec (r_fctl x) = true -> r_src x = Some src -> r_dst x = Some dst ->
      rf_accepts E key (with_fctl x (N.lxor (r_fctl x) 32)) = rf_accepts E key x.
Proof. intros E _ key x _ _ _ _ _ _. apply rf_reserved_unauthenticated. Qed.

(** "Cannot be (de)crypted because something is missing" always ends in the dedicated signal of the
    RF4CE manager: MissingRF4CESecurityFlag (flag clear, checked before anything else),
    MissingRF4CEHeader (no RF4CE layer), (packet, False) for a missing address — and no other
    exception can leave encrypt() / decrypt(). *)
Theorem C18_rf4ce_flag_clear_is_MissingRF4CESecurityFlag :
  forall (E : bytes -> bytes -> bytes) key x,
    rf_sec (r_fctl x) = false -> rf_decrypt E std_variant key x = RRaise MissingSecurityFlag.
Proof. intros E key x H. rewrite rf_decrypt_std_eq, H. reflexivity. Qed.

Theorem C18_rf4ce_missing_address_is_reported :
  forall (E : bytes -> bytes -> bytes) key x,
    r_src x = None \/ r_dst x = None ->
    (exists b, rf_encrypt E std_variant key x = RTuple b false) /\
    (rf_sec (r_fctl x) = true -> exists b, rf_decrypt E std_variant key x = RTuple b false).
Proof. exact rf_missing_address_dedicated. Qed.

(** Addressing: the 8-byte source / destination are the caller's argument when given, else the long
    address of the 802.15.4 header (mode 3); short addresses, absent fields and a missing MAC layer
    provide none. *)
Theorem C18_rf4ce_address_resolution :
  forall arg h a, rf_resolve arg h = Some a <-> (arg = Some a \/ (arg = None /\ h = Some (AMLong a))).
Proof. exact rf_resolve_spec. Qed.

(** Self-inverse for EVERY combination of source / destination addressing mode (none, short, long,
    no MAC layer) and caller-supplied source / destination (given, absent) in which both addresses
    are available to sender and receiver. *)
Theorem C18_rf4ce_self_inverse_addressing :
  forall E : bytes -> bytes -> bytes,
    (forall k b, length (E k b) = 16) ->
    forall key x asrc adst hsrc hdst dasrc dadst src dst,
      rf_wf x ->
      rf_resolve asrc hsrc = Some src -> rf_resolve adst hdst = Some dst ->
      rf_resolve dasrc hsrc = Some src -> rf_resolve dadst hdst = Some dst ->
      let fa := N.lor (N.lor (r_fctl x) 32) 4 in
      let has_mac := match hsrc with Some _ => true | None => false end in
      exists w x' tag,
        rf_encrypt E std_variant key (rf_with_addrs x asrc adst hsrc hdst) = RPkt w /\
        rf_parse (length (r_pre x)) (rf_resolve dasrc hsrc) (rf_resolve dadst hdst) has_mac w = Some x' /\
        length tag = 4 /\
        rf_decrypt E std_variant key x' = RTuple (r_pre x ++ rf_nwk fa (r_fc x) (r_hdr x) (r_payload x) tag) true.
Proof.
  intros E HE key x asrc adst hsrc hdst dasrc dadst src dst Hwf Hs Hd Hs' Hd' fa has_mac.
  rewrite Hs', Hd'. exact (rf_self_inverse E HE key (rf_with_addrs x asrc adst hsrc hdst) src dst Hwf Hs Hd).
Qed.

(** In every other combination (source, or destination, neither given nor long in the header) the
    missing address is reported: (packet, False), no exception, nothing protected. *)
Theorem C18_rf4ce_missing_address_is_reported_addressing :
  forall (E : bytes -> bytes -> bytes) key x asrc adst hsrc hdst,
    (asrc = None /\ rf_header_long hsrc = None) \/ (adst = None /\ rf_header_long hdst = None) ->
    (exists b, rf_encrypt E std_variant key (rf_with_addrs x asrc adst hsrc hdst) = RTuple b false) /\
    (rf_sec (r_fctl x) = true ->
     exists b, rf_decrypt E std_variant key (rf_with_addrs x asrc adst hsrc hdst) = RTuple b false).
Proof.
  intros E key x asrc adst hsrc hdst H.
  apply (rf_missing_address_dedicated E key (rf_with_addrs x asrc adst hsrc hdst)).
  cbn [rf_with_addrs r_src r_dst]. unfold rf_resolve.
  destruct H as [[-> H]|[-> H]]; rewrite H; auto.
Qed.

Theorem C18_rf4ce_no_header_is_MissingRF4CEHeader :
  forall (E : bytes -> bytes -> bytes) v key,
    rf_encrypt_top E v key None = RRaise MissingHeader /\ rf_decrypt_top E v key None = RRaise MissingHeader.
Proof. intros. split; reflexivity. Qed.

Theorem C18_rf4ce_only_dedicated_errors :
  forall (E : bytes -> bytes -> bytes) key o e,
    (rf_encrypt_top E std_variant key o = RRaise e -> e = MissingHeader) /\
    (rf_decrypt_top E std_variant key o = RRaise e -> e = MissingHeader \/ e = MissingSecurityFlag).
Proof. exact rf_only_dedicated_errors. Qed.

Theorem C18_legacy_rf4ce_flag_clear_struct_error :
  forall (E : bytes -> bytes -> bytes) key x src dst,
    r_src x = Some src -> r_dst x = Some dst -> r_has_layer x = true -> rf_sec (r_fctl x) = false ->
    rf_decrypt E legacy_variant key x = RRaise StructError.
Proof.
  intros E key x src dst Hs Hd Hl Hsec. unfold rf_decrypt. cbn [legacy_variant v_legacy negb andb].
  rewrite Hs, Hd, Hl, Hsec. reflexivity.
Qed.

Theorem C18_legacy_rf4ce_bare_frame_no_address_attribute_error :
  forall (E : bytes -> bytes -> bytes) key x,
    r_src x = None -> r_has_mac x = false ->
    rf_encrypt E legacy_variant key x = RRaise AttributeError /\
    rf_decrypt E legacy_variant key x = RRaise AttributeError.
Proof.
  intros E key x Hs Hm. unfold rf_encrypt, rf_decrypt. cbn [legacy_variant v_legacy negb andb].
  rewrite Hs, Hm. split; reflexivity.
Qed.

(** The defects of the code before the `fix:` commits. *)
Theorem C18_legacy_rf4ce_no_payload_raises :
  forall (E : bytes -> bytes -> bytes) (key : bytes) (x : rf_in) (src dst : bytes),
    r_src x = Some src -> r_dst x = Some dst -> r_has_layer x = false ->
    rf_encrypt E legacy_variant key x = RRaise IndexError /\
    rf_decrypt E legacy_variant key x = RRaise IndexError.
Proof.
  intros E key x src dst Hs Hd Hl. unfold rf_encrypt, rf_decrypt. rewrite Hs, Hd, Hl. split; reflexivity.
Qed.

Theorem C18_legacy_rf4ce_security_flag_clear_refuted : rf_rt_accepted legacy_variant (w_rf 169 [65%N] true) = false.
Proof. vm_compute. reflexivity. Qed.

Theorem C18_legacy_rf4ce_mic_none_refuted : rf_rt_accepted legacy_variant (w_rf 173 [65%N] true) = false.
Proof. vm_compute. reflexivity. Qed.

Theorem C18_legacy_rf4ce_crop0_refuted :
  exists w, rf_encrypt aes128_enc legacy_variant wk_a (w_rf 169 [] true) = RPkt w /\ length w = 4.
Proof.
  exact (rf_legacy_crop0 aes128_enc aes128_enc_length wk_a (w_rf 169 [] true) _ _ eq_refl eq_refl eq_refl eq_refl eq_refl).
Qed.

(** ** Logitech Unifying *)

(** decrypt(encrypt(frame)) = frame, for every key, keystroke payload, AES counter, device index,
    unused / trailing bytes and checksum-field value: every field is restored and the bytes of the
    result are the bytes of the original frame. *)
Theorem C18_unifying_self_inverse :
  forall E : bytes -> bytes -> bytes,
    (forall k b, length (E k b) = 16) ->
    forall (key : bytes) (p : un_frame),
      un_wf p ->
      exists q q',
        un_crypt E std_variant key p = Ok q /\ un_crypt E std_variant key q = Ok q' /\
        un_fields q' = un_fields p /\ un_build false q' = un_build false p.
Proof.
  intros E HE key p Hwf. exists (un_crypted E key p), (un_crypted E key (un_crypted E key p)).
  split; [apply (un_crypt_ok E HE), Hwf|].
  split; [apply (un_crypt_ok E HE), (un_crypted_wf E HE), Hwf|apply (un_crypted_twice E HE), Hwf].
Qed.

(** through the wire: the receiver re-dissects the encrypted bytes into the same fields and bytes *)
Theorem C18_unifying_wire :
  forall q, un_wf q ->
    exists q1, un_dissect (un_build false q) = Some q1 /\ un_wf q1 /\ un_fields q1 = un_fields q /\
               un_build false q1 = un_build false q.
Proof.
  intros q (Hft & Hh & Hc & Hu). eexists. split; [apply un_dissect_build; assumption|].
  split; [repeat split; assumption|]. split; [reflexivity|]. apply un_build_std_cks; reflexivity.
Qed.

(** A frame without encrypted keystroke payload is reported with the dedicated
    MissingEncryptedKeystrokePayload (every variant, key, frame); nothing else is raised on frames
    whose fields have their fixed lengths. *)
Theorem C18_unifying_missing_payload_is_dedicated_error :
  forall (E : bytes -> bytes -> bytes) v key p,
    u_ft p <> 0xD3%N -> un_crypt E v key p = Raise MissingPayload.
Proof. exact un_missing_payload_dedicated. Qed.

Theorem C18_unifying_only_dedicated_errors :
  forall (E : bytes -> bytes -> bytes),
    (forall k b, length (E k b) = 16) ->
    forall key p e, length (u_hid p) = 7 -> length (u_ctr p) = 4 -> length (u_unused p) = 7 ->
      un_crypt E std_variant key p = Raise e -> e = MissingPayload.
Proof.
  intros E HE key p e Hh Hc Hu H. destruct (N.eqb_spec (u_ft p) 0xD3) as [Hft|Hft].
  - rewrite (un_crypt_ok E HE key p) in H by (repeat split; assumption). discriminate.
  - rewrite (un_missing_payload_dedicated E std_variant key p Hft) in H. injection H as <-. reflexivity.
Qed.

(** The defect of the code before "fix: Logitech_Unifying_Hdr.post_build replaces the checksum
    trailer": the round trip returned the frame followed by two stale checksum bytes. *)
Theorem C18_legacy_unifying_grows_refuted :
  exists b, snd (fst (un_roundtrip legacy_variant wk_a wk_a w_un)) = Ok b /\
            b <> un_build true w_un /\ length b = length (un_build true w_un) + 2.
Proof. eexists. split; [vm_compute; reflexivity|]. split; [vm_compute; discriminate|vm_compute; reflexivity]. Qed.

(** ** Non-vacuity: AES-128 meets the hypotheses on the FIPS-197 vectors, and concrete frames of
    each protocol satisfy the well-formedness conditions and go through the model with AES. *)
Example C18_nonvacuous :
  (forall k b, length (aes128_enc k b) = 16) /\ (forall k b, length (aes128_dec k b) = 16) /\
  aes128_enc fips197_B_key (aes128_dec fips197_B_key fips197_B_ct) = fips197_B_ct /\
  lw_wf w_up0 /\
  (exists b, snd (lw_roundtrip std_variant w_keys w_keys (PData w_up0)) = Ok b /\
             drop_last 4 b = drop_last 4 (build (PData w_up0))) /\
  rf_rt_accepted std_variant (w_rf 169 [65%N] true) = true /\
  rf_rt_accepted std_variant (w_rf 169 [] true) = true /\
  un_wf w_un /\
  snd (un_roundtrip std_variant wk_a wk_a w_un) = Ok (un_build false w_un).
Proof.
  split; [exact aes128_enc_length|]. split; [exact aes128_dec_length|].
  split; [exact (proj1 aes_inverse_on_fips_vector)|]. split; [exact w_up0_wf|].
  split; [exact lw_std_port0_ok|].
  split; [exact (rf_rt_accepted_std _ _ _ (w_rf_wf 169 _ _ eq_refl) eq_refl eq_refl)|].
  split; [exact (rf_rt_accepted_std _ _ _ (w_rf_wf 169 _ _ eq_refl) eq_refl eq_refl)|].
  split; [exact w_un_wf|exact (proj2 un_std_witness_ok)].
Qed.
