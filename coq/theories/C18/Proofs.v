(** C18 — lemmas about the model of Model.v.  Every decrypt function is first brought to the form
    "recompute the MIC or tag, compare, undo the keystream" ([dec_data_std], [rf_decrypt_std]); round
    trip, rejection and what acceptance depends on are read off that form. *)
From Coq Require Import List NArith Arith Bool Lia.
From Whad Require Import Lib.Lists Lib.Bytes Lib.Xor Lib.Aes Lib.Ccm Lib.Cmac Lib.PyOps C18.Model.
Import ListNotations.

(** * Lists *)

Lemma firstn_app_nth {A} (d : A) (n : nat) : forall l, length l = S n -> firstn n l ++ [nth n l d] = l.
Proof.
  induction n as [|n IH]; intros [|x l] H; try discriminate H.
  - destruct l; [reflexivity|discriminate H].
  - cbn [firstn nth app]. f_equal. apply IH. injection H as H. exact H.
Qed.

Lemma drop_last_app (n : nat) (a m : bytes) : length m = n -> drop_last n (a ++ m) = a.
Proof.
  intros H. unfold drop_last. rewrite app_length, H, Nat.add_sub. apply firstn_app_exact. reflexivity.
Qed.

Lemma take_last_app (n : nat) (a m : bytes) : length m = n -> take_last n (a ++ m) = m.
Proof.
  intros H. unfold take_last. rewrite app_length, H, Nat.add_sub. apply skipn_app_exact. reflexivity.
Qed.

Lemma drop_take_last (n : nat) (b : bytes) : drop_last n b ++ take_last n b = b.
Proof. unfold drop_last, take_last. apply firstn_skipn. Qed.

Lemma take_last_length (n : nat) (b : bytes) : n <= length b -> length (take_last n b) = n.
Proof. intros H. unfold take_last. rewrite skipn_length. lia. Qed.

Lemma bytes_eqb_neq (a b : bytes) : a <> b -> bytes_eqb a b = false.
Proof.
  intros H. destruct (bytes_eqb a b) eqn:E; [|reflexivity].
  apply bytes_eqb_eq in E. contradiction.
Qed.

Lemma concat_blocks_inj (bs bs' : list bytes) :
  Forall (fun b => length b = 16) bs -> Forall (fun b => length b = 16) bs' ->
  concat bs = concat bs' -> bs = bs'.
Proof.
  intros H. revert bs'. induction H as [|b bs H16 _ IH]; intros cs [|b' bs' H16' H'] E; cbn [concat] in E.
  - reflexivity.
  - apply (f_equal (@length N)) in E. rewrite app_length, H16' in E. discriminate.
  - apply (f_equal (@length N)) in E. rewrite app_length, H16 in E. discriminate.
  - apply app_inj_length in E as [-> E]; [|congruence]. f_equal. apply IH; assumption.
Qed.

Lemma chunks16_concat_blocks (bs : list bytes) :
  Forall (fun b => length b = 16) bs -> chunks16 (concat bs) = bs.
Proof.
  intros H. apply concat_blocks_inj; [|exact H|apply chunks16_concat].
  apply chunks16_block_length. rewrite (concat_length_const 16) by exact H.
  apply Nat.mod_mul. discriminate.
Qed.

Lemma le32_length n : length (le32 n) = 4. Proof. reflexivity. Qed.
Lemma le16_length n : length (le16 n) = 2. Proof. reflexivity. Qed.

Lemma packed_div (b hi lo : N) : (lo < b)%N -> ((hi * b + lo) / b = hi)%N.
Proof. intros H. symmetry. apply N.div_unique with lo; [exact H | lia]. Qed.

Lemma packed_mod (b hi lo : N) : (lo < b)%N -> ((hi * b + lo) mod b = lo)%N.
Proof. intros H. symmetry. apply N.mod_unique with hi; [exact H | lia]. Qed.

(** * LoRaWAN *)

Lemma lw_block_length f d a c l : length (lw_block f d a c l) = 16.
Proof. reflexivity. Qed.

Lemma lw_nblocks_spec len : len <= 16 * lw_nblocks len < len + 16.
Proof.
  unfold lw_nblocks. pose proof (Nat.div_mod_eq len 16) as Hd.
  pose proof (Nat.mod_upper_bound len 16 ltac:(discriminate)) as Hm.
  destruct (Nat.eqb_spec (len mod 16) 0) as [Hz|Hz]; revert Hd Hm Hz;
    generalize (len / 16), (len mod 16); lia.
Qed.

Lemma data_nomic_length d : length (data_nomic d) = 9 + length (d_fopts d) + length (d_payload d).
Proof. unfold data_nomic, le32, le16. repeat rewrite app_length. cbn [length]. lia. Qed.

Lemma data_nomic_with_mic d m : data_nomic (with_mic d m) = data_nomic d.
Proof. reflexivity. Qed.

Section LW_DATA.
  Variable E : bytes -> bytes -> bytes.
  Hypothesis E_length : forall k b, length (E k b) = 16.

  Lemma lw_keystream_length key dir addr fcnt nb :
    length (lw_keystream E key dir addr fcnt nb) = 16 * nb.
  Proof.
    unfold lw_keystream. rewrite (flat_map_length_const _ 16), seq_length by (intros i; apply E_length).
    reflexivity.
  Qed.

  Lemma encrypt_frame_length key dir addr fcnt x :
    length (encrypt_frame E key dir addr fcnt x) = length x.
  Proof.
    unfold encrypt_frame. apply xor_bytes_length_le. rewrite lw_keystream_length.
    apply lw_nblocks_spec.
  Qed.

  Lemma encrypt_frame_involutive key dir addr fcnt x :
    encrypt_frame E key dir addr fcnt (encrypt_frame E key dir addr fcnt x) = x.
  Proof.
    unfold encrypt_frame at 1. rewrite encrypt_frame_length. unfold encrypt_frame.
    apply xor_bytes_involutive_gen. rewrite lw_keystream_length.
    pose proof (lw_nblocks_spec (length x)). lia.
  Qed.

  Lemma encrypt_fopts_length key dir addr fcnt fo :
    length fo <= 16 -> length (encrypt_fopts E key dir addr fcnt fo) = length fo.
  Proof. intros H. unfold encrypt_fopts. apply xor_bytes_length_le. rewrite E_length. exact H. Qed.

  Lemma encrypt_fopts_involutive key dir addr fcnt fo :
    length fo <= 16 ->
    encrypt_fopts E key dir addr fcnt (encrypt_fopts E key dir addr fcnt fo) = fo.
  Proof.
    intros H. unfold encrypt_fopts. apply xor_bytes_involutive_gen. rewrite E_length. lia.
  Qed.

  Lemma lw_mic_length key buf : length (lw_mic E key buf) = 4.
  Proof. unfold lw_mic. rewrite firstn_length, (cmac_length E E_length). reflexivity. Qed.

  (** what encrypt_packet and decrypt_packet both do to FOpts and FRMPayload *)
  Definition enc_fields (a n : bytes) (d : lw_data) : lw_data :=
    let dir := dir_of (d_mtype d) in
    with_fopts_payload d
      (encrypt_fopts E a dir (d_addr d) (d_fcnt d) (d_fopts d))
      (encrypt_frame E (if N.eqb (d_fport d) 0 then n else a) dir (d_addr d) (d_fcnt d) (d_payload d)).

  Definition enc_result (a n : bytes) (d : lw_data) : lw_data :=
    with_mic (enc_fields a n d)
      (lw_mic E n (lw_mic_input (dir_of (d_mtype d)) (d_addr d) (d_fcnt d) (data_nomic (enc_fields a n d)))).

  Lemma enc_fields_involutive a n d m : length (d_fopts d) <= 16 ->
    enc_fields a n (with_mic (enc_fields a n d) m) = with_mic d m.
  Proof.
    intros Hfo. unfold enc_fields.
    cbn [with_mic with_fopts_payload d_mtype d_addr d_fcnt d_fopts d_fport d_payload].
    rewrite encrypt_fopts_involutive, encrypt_frame_involutive by exact Hfo. destruct d; reflexivity.
  Qed.

  Lemma enc_fields_small a n d : lw_wf d -> (256 <=? length (data_nomic (enc_fields a n d))) = false.
  Proof.
    intros (_ & _ & _ & _ & _ & Hfo & _ & Hlen & _).
    apply Nat.leb_gt. rewrite data_nomic_length. unfold enc_fields.
    cbn [with_fopts_payload d_fopts d_payload].
    rewrite encrypt_fopts_length by lia. rewrite encrypt_frame_length. lia.
  Qed.

  Lemma enc_data_ok a n d : lw_wf d -> enc_data E a n d = Ok (PData (enc_result a n d)).
  Proof.
    intros Hwf. unfold enc_data, enc_result. fold (enc_fields a n d).
    unfold lw_mic_dir. rewrite (enc_fields_small a n d Hwf). reflexivity.
  Qed.

  Lemma enc_result_mic_ok a n d : lw_wf d ->
    lw_mic_dir E (dir_of (d_mtype (enc_result a n d))) n (d_addr (enc_result a n d)) (d_fcnt (enc_result a n d))
               (data_nomic (enc_result a n d)) = Ok (d_mic (enc_result a n d)).
  Proof.
    intros Hwf. unfold enc_result at 4. rewrite data_nomic_with_mic.
    unfold lw_mic_dir. rewrite (enc_fields_small a n d Hwf). reflexivity.
  Qed.

  Lemma dec_data_std a n d :
    dec_data E false a n d =
    match lw_mic_dir E (dir_of (d_mtype d)) n (d_addr d) (d_fcnt d) (data_nomic d) with
    | Raise e => Raise e
    | Ok exp => if bytes_eqb exp (d_mic d) then Ok (PData (enc_fields a n d)) else Raise BadMICError
    end.
  Proof. unfold dec_data, enc_fields. destruct (N.eqb (d_fport d) 0); reflexivity. Qed.

  Lemma enc_fields_result a n d : lw_wf d ->
    enc_fields a n (enc_result a n d) = with_mic d (d_mic (enc_result a n d)).
  Proof. intros (_ & _ & _ & _ & _ & Hfo & _). apply enc_fields_involutive. lia. Qed.

  Lemma dec_data_ok a n d : lw_wf d ->
    dec_data E false a n (enc_result a n d) = Ok (PData (with_mic d (d_mic (enc_result a n d)))).
  Proof.
    intros Hwf.
    rewrite dec_data_std, (enc_result_mic_ok a n d Hwf), bytes_eqb_refl, (enc_fields_result a n d Hwf).
    reflexivity.
  Qed.

  (** the code before the fix: on port 0 the FRMPayload of an uplink frame is left as received *)
  Lemma dec_data_legacy_up0 a n d :
    is_uplink (d_mtype d) = true -> d_fport d = 0%N ->
    dec_data E true a n d =
    match lw_mic_dir E (dir_of (d_mtype d)) n (d_addr d) (d_fcnt d) (data_nomic d) with
    | Raise e => Raise e
    | Ok exp =>
      if bytes_eqb exp (d_mic d)
      then Ok (PData (with_fopts_payload d (d_fopts (enc_fields a n d)) (d_payload d)))
      else Raise BadMICError
    end.
  Proof. intros Hu Hp. unfold dec_data. rewrite Hu, Hp. reflexivity. Qed.

  Lemma enc_result_wf a n d : lw_wf d -> lw_wf (enc_result a n d).
  Proof.
    intros (Hmt & Hlo & Haddr & Hfhi & Hfcnt & Hfo & Hport & Hlen & Hmic). unfold lw_wf, enc_result, enc_fields.
    cbn [with_mic with_fopts_payload d_mtype d_lo d_addr d_fhi d_fcnt d_fopts d_fport d_payload d_mic].
    rewrite encrypt_fopts_length, encrypt_frame_length, lw_mic_length by lia.
    repeat split; solve [assumption | apply Hmt | reflexivity].
  Qed.
End LW_DATA.

(** ** join accept *)

Lemma ecb_blocks F key (bs : list bytes) :
  Forall (fun b => length b = 16) bs -> ecb F key (concat bs) = Ok (concat (map (F key) bs)).
Proof.
  intros Hb. unfold ecb. rewrite (concat_length_const 16), Nat.mod_mul by (exact Hb || discriminate).
  cbn [Nat.eqb]. rewrite chunks16_concat_blocks, flat_map_concat_map by exact Hb. reflexivity.
Qed.

Section LW_JOIN.
  Variable E D : bytes -> bytes -> bytes.
  Hypothesis E_length : forall k b, length (E k b) = 16.
  Hypothesis D_length : forall k b, length (D k b) = 16.
  (** AES decryption is the inverse permutation of AES encryption on 16-byte blocks *)
  Hypothesis ED_inv : forall k b, length b = 16 -> E k (D k b) = b.

  Lemma ecb_E_D key x :
    length x mod 16 = 0 ->
    exists enc, ecb D key x = Ok enc /\ length enc = length x /\ ecb E key enc = Ok x.
  Proof.
    intros Hal. pose proof (chunks16_block_length x Hal) as Hbs. rewrite <- (chunks16_concat x).
    revert Hbs. generalize (chunks16 x). intros bs Hbs.
    assert (HD : Forall (fun b => length b = 16) (map (D key) bs))
      by (apply Forall_map, Forall_forall; intros; apply D_length).
    exists (concat (map (D key) bs)). split; [apply ecb_blocks, Hbs|].
    split; [rewrite !(concat_length_const 16), map_length by assumption; reflexivity|].
    rewrite ecb_blocks, map_map by exact HD. do 2 f_equal.
    etransitivity; [|apply map_id]. apply map_ext_in. intros b Hb. apply ED_inv.
    exact (proj1 (Forall_forall _ bs) Hbs b Hb).
  Qed.

  (** body and MIC field of the emitted frame are the two parts of the ECB "decryption" of body ++ MIC *)
  Lemma lw_join_roundtrip k lo body :
    (length body + 4) mod 16 = 0 ->
    let m := lw_mic E k ((32 + lo)%N :: body) in
    exists enc, ecb D k (body ++ m) = Ok enc /\ 4 <= length enc /\
                dec_join E k lo (drop_last 4 enc) (take_last 4 enc) = Ok (PJoin lo body m).
  Proof.
    intros Hal m. assert (Hm : length m = 4) by apply (lw_mic_length E E_length).
    destruct (ecb_E_D k (body ++ m)) as (enc & He & Hl & Hd).
    { rewrite app_length, Hm. exact Hal. }
    exists enc. split; [exact He|]. split; [rewrite Hl, app_length, Hm; lia|].
    unfold dec_join. rewrite drop_take_last, Hd.
    rewrite drop_last_app, take_last_app by exact Hm.
    fold m. rewrite bytes_eqb_refl. reflexivity.
  Qed.

End LW_JOIN.

Section LW_PACKET.
  Variable E D : bytes -> bytes -> bytes.

  (** ** unsupported MTypes are returned as they are *)
  Lemma lw_other_identity : forall v a s n mt lo b m,
    encrypt_packet E D v a s n (POther mt lo b m) = Ok (POther mt lo b m) /\
    decrypt_packet E v a s n (POther mt lo b m) = Ok (POther mt lo b m).
  Proof. intros. split; reflexivity. Qed.

  (** ** returning normally means that the MIC matched, or that the MType is one of those
      returned as they are *)
  Theorem lw_decrypt_ok_cases : forall a s n p x,
    decrypt_packet E std_variant a s n p = Ok x ->
    match p with POther _ _ _ _ => x = p | _ => lw_mic_verified E a s n p end.
  Proof.
    intros a s n p x H. destruct p as [lo body mic|d|mt lo b m].
    - cbn [decrypt_packet] in H. destruct a as [k|]; [|discriminate].
      unfold dec_join in H. destruct (ecb E k (body ++ mic)) as [dec|e] eqn:Ee; [|discriminate].
      destruct (bytes_eqb _ _) eqn:Eq in H; [|discriminate].
      apply bytes_eqb_eq in Eq. cbn [lw_mic_verified]. exists k, dec. auto.
    - cbn [decrypt_packet std_variant v_legacy] in H.
      destruct n as [nk|]; [|discriminate]. destruct s as [sk|]; [|discriminate].
      rewrite dec_data_std in H.
      destruct (lw_mic_dir E _ nk _ _ _) as [exp|e] eqn:Em; [|discriminate].
      destruct (bytes_eqb exp (d_mic d)) eqn:Eq; [|discriminate].
      apply bytes_eqb_eq in Eq. subst exp. cbn [lw_mic_verified]. exists nk. auto.
    - injection H as <-. reflexivity.
  Qed.

  (** ** a missing key is MissingKeyError, for every variant, frame and other key *)
  Theorem lw_missing_key : forall v a s n p,
    match p with
    | PJoin _ _ _ => a = None
    | PData _ => s = None \/ n = None
    | POther _ _ _ _ => False
    end ->
    encrypt_packet E D v a s n p = Raise MissingKeyError /\
    decrypt_packet E v a s n p = Raise MissingKeyError.
  Proof.
    intros v a s n p H. destruct p as [lo body mic|d|mt lo b m]; cbn [encrypt_packet decrypt_packet].
    - subst a. split; reflexivity.
    - destruct H as [-> | ->].
      + destruct n; split; reflexivity.
      + split; reflexivity.
    - contradiction.
  Qed.
End LW_PACKET.

(** ** B0 | msg is an injective encoding of (direction, DevAddr, FCnt, msg) *)
Lemma lw_block_inj f f' d d' a a' c c' l l' :
  (a < 4294967296)%N -> (a' < 4294967296)%N -> (c < 4294967296)%N -> (c' < 4294967296)%N ->
  lw_block f d a c l = lw_block f' d' a' c' l' -> f = f' /\ d = d' /\ a = a' /\ c = c' /\ l = l'.
Proof.
  intros Ha Ha' Hc Hc' H. unfold lw_block in H.
  apply app_inj_length in H as [Hh H]; [|reflexivity]. injection Hh as Hf Hd.
  apply app_inj_length in H as [Ea H]; [|reflexivity].
  apply app_inj_length in H as [Ec H]; [|reflexivity].
  injection H as Hl. repeat split; try assumption; apply le32_inj; assumption.
Qed.

(** ** scapy dissection of the bytes scapy built (wire path of the round trip) *)
Lemma dissect_build_data : forall d, lw_wf d -> dissect (build (PData d)) = Some (PData d).
Proof.
  intros d (Hmt & Hlo & Haddr & Hfhi & Hfcnt & Hfo & Hport & Hlen & Hmic).
  cbn [build]. unfold data_nomic. cbn [app]. set (body := le32 _ ++ _). unfold dissect.
  rewrite (proj2 (Nat.ltb_ge _ 4)) by (rewrite app_length, Hmic; lia).
  rewrite drop_last_app, take_last_app, packed_div, packed_mod by assumption.
  rewrite (proj2 (N.eqb_neq _ 1)) by lia.
  rewrite (proj2 (N.leb_le 2 _)), (proj2 (N.leb_le _ 5)) by lia.
  subst body. cbn [andb app le32 le16].
  rewrite packed_mod, packed_div, Nat2N.id by lia.
  rewrite (proj2 (Nat.ltb_ge _ _)) by (rewrite app_length; cbn [length]; lia).
  rewrite (firstn_app_exact _ (d_fopts d) _ eq_refl), nth_middle, skipn_add, (skipn_app_exact _ (d_fopts d) _ eq_refl).
  rewrite (le32_value _ Haddr), (N.add_comm (_ mod 256)), <- N.div_mod'. destruct d; reflexivity.
Qed.

(** the PHY bytes are an injective encoding of every field of the frame except the
    MIC itself: the MIC covers MHDR, DevAddr, FCtrl, FCnt, FOpts, FPort and FRMPayload.
    Dissection is a decoder: followed by any four MIC bytes, [data_nomic d] is dissected into [d] *)
Theorem data_nomic_injective : forall d d',
  lw_wf d -> lw_wf d' -> data_nomic d = data_nomic d' -> with_mic d [] = with_mic d' [].
Proof.
  intros d d' Hwf Hwf' H. set (m := [0; 0; 0; 0]%N).
  assert (Hdec : forall e, lw_wf e -> dissect (data_nomic e ++ m) = Some (PData (with_mic e m))).
  { intros e (H1 & H2 & H3 & H4 & H5 & H6 & H7 & H8 & _).
    apply (dissect_build_data (with_mic e m)). repeat split; solve [assumption | apply H1 | reflexivity]. }
  pose proof (Hdec d Hwf) as Hd. rewrite H, (Hdec d' Hwf') in Hd.
  destruct d, d'. injection Hd as -> -> -> -> -> -> -> ->. reflexivity.
Qed.

Lemma dissect_build_join : forall lo body mic, (lo < 32)%N -> length mic = 4 ->
  dissect (build (PJoin lo body mic)) = Some (PJoin lo body mic).
Proof.
  intros lo body mic Hlo Hmic. cbn [build]. unfold dissect.
  rewrite (proj2 (Nat.ltb_ge _ 4)) by (rewrite app_length; lia).
  rewrite drop_last_app, take_last_app by exact Hmic.
  change (32 + lo)%N with (1 * 32 + lo)%N. rewrite packed_div, packed_mod by exact Hlo. reflexivity.
Qed.

(** * RF4CE *)

Lemma lor_32_4 f : N.lor (N.lor f 32) 4 = N.lor f 36.
Proof. rewrite <- N.lor_assoc. reflexivity. Qed.

Lemma rf_fa_sec f : rf_sec (N.lor (N.lor f 32) 4) = true.
Proof. unfold rf_sec. rewrite N.lor_spec. change (N.testbit 4 2) with true. apply orb_true_r. Qed.

Lemma rf_ftype_lor f m : N.land m 3 = 0%N -> rf_ftype (N.lor f m) = rf_ftype f.
Proof. intros H. unfold rf_ftype. rewrite N.land_lor_distr_l, H. apply N.lor_0_r. Qed.

Lemma rf_dv_lor f m : N.land m 3 = 0%N -> rf_dv (N.lor f m) = rf_dv f.
Proof. intros H. unfold rf_dv. rewrite rf_ftype_lor by exact H. reflexivity. Qed.

Lemma rf_sec_lor32 f : rf_sec (N.lor f 32) = rf_sec f.
Proof. unfold rf_sec. rewrite N.lor_spec. change (N.testbit 32 2) with false. apply orb_false_r. Qed.

Lemma lor_idem f m : N.lor (N.lor f m) m = N.lor f m.
Proof. rewrite <- N.lor_assoc, N.lor_diag. reflexivity. Qed.

Lemma rf_fa_lor32 f : N.lor (N.lor (N.lor f 32) 4) 32 = N.lor (N.lor f 32) 4.
Proof. rewrite !lor_32_4. rewrite <- N.lor_assoc. reflexivity. Qed.

(** the reserved bit of the received frame control byte does not reach the cipher *)
Lemma lor32_flip f : N.lor (N.lxor f 32) 32 = N.lor f 32.
Proof.
  apply N.bits_inj. intros n. rewrite !N.lor_spec, N.lxor_spec.
  destruct (N.testbit 32 n); [rewrite !orb_true_r; reflexivity|]. rewrite xorb_false_r. reflexivity.
Qed.

Lemma rf_nwk_sec f fc hdr pl mic : rf_sec f = true -> rf_nwk f fc hdr pl mic = [f] ++ fc ++ hdr ++ pl ++ mic.
Proof. intros H. unfold rf_nwk. rewrite H. reflexivity. Qed.

Lemma rf_parse_nwk : forall pre f fc hdr pl mic s d hm,
  rf_sec f = true -> length fc = 4 -> length mic = 4 -> length hdr = (if rf_dv f then 3 else 0) ->
  rf_parse (length pre) s d hm (pre ++ rf_nwk f fc hdr pl mic)
  = Some {| r_pre := pre; r_fctl := f; r_fc := fc; r_hdr := hdr; r_payload := pl; r_mic := mic;
            r_mic_none := false; r_has_layer := negb (Nat.eqb (length pl) 0);
            r_src := s; r_dst := d; r_has_mac := hm |}.
Proof.
  intros pre f fc hdr pl mic s d hm Hsec Hfc Hmic Hhdr.
  unfold rf_parse. rewrite (firstn_app_exact _ pre _ eq_refl), (skipn_app_exact _ pre _ eq_refl).
  rewrite rf_nwk_sec by exact Hsec. cbn [app]. rewrite Hsec. cbn [negb].
  set (hl := if rf_dv f then 3 else 0) in *. set (rest := fc ++ hdr ++ pl ++ mic).
  assert (Hlen : length rest = 4 + hl + length pl + 4) by (unfold rest; rewrite !app_length; lia).
  rewrite (proj2 (Nat.ltb_ge _ _)) by lia.
  replace (length rest - 4 - hl - 4) with (length pl) by lia.
  replace (length rest - 4) with (4 + hl + length pl) by lia.
  (* the four fields lie one behind the other: skip them in turn *)
  rewrite !skipn_add. unfold rest.
  rewrite (firstn_app_exact 4 fc _ Hfc), (skipn_app_exact 4 fc _ Hfc).
  rewrite (firstn_app_exact hl hdr _ Hhdr), (skipn_app_exact hl hdr _ Hhdr).
  rewrite (firstn_app_exact _ pl mic eq_refl), (skipn_app_exact _ pl mic eq_refl). reflexivity.
Qed.

(** bytes(packet) cut in front of the payload *)
Lemma rf_nwk_split pre f fc hdr pl mic : rf_sec f = true ->
  pre ++ rf_nwk f fc hdr pl mic = (pre ++ [f] ++ fc ++ hdr) ++ pl ++ mic.
Proof. intros H. rewrite rf_nwk_sec by exact H. rewrite <- !app_assoc. reflexivity. Qed.

Section RF_MANAGER.
  Variable E : bytes -> bytes -> bytes.

  (** encrypt() and decrypt() of the code under verification, without the branches of the earlier
      code *)
  Lemma rf_encrypt_std_eq key x :
    rf_encrypt E std_variant key x =
    let fa := N.lor (N.lor (r_fctl x) 32) 4 in
    let full := r_pre x ++ rf_nwk fa (r_fc x) (r_hdr x) (r_payload x) (r_mic x) in
    match r_src x, r_dst x with
    | Some src, Some dst =>
      let ctag := ccm_encrypt E 4 2 key (rf_nonce src (r_fc x)) (rf_auth fa (r_fc x) dst) (r_payload x) in
      RPkt (drop_last (length (r_payload x) + 4) full ++ fst ctag ++ snd ctag)
    | _, _ => RTuple full false
    end.
  Proof.
    unfold rf_encrypt. cbn [std_variant v_legacy negb andb]. rewrite orb_true_r.
    destruct (r_src x), (r_dst x); try reflexivity.
    rewrite (proj2 (Nat.eqb_neq (length (r_payload x) + 4) 0)) by lia. reflexivity.
  Qed.

  Lemma rf_decrypt_std_eq key x :
    rf_decrypt E std_variant key x =
    let f0 := N.lor (r_fctl x) 32 in
    let full := r_pre x ++ rf_nwk f0 (r_fc x) (r_hdr x) (r_payload x) (r_mic x) in
    if rf_sec (r_fctl x) then
      match r_src x with
      | None => RTuple (r_pre x ++ rf_nwk (if r_has_mac x then r_fctl x else f0) (r_fc x) (r_hdr x)
                                          (r_payload x) (r_mic x)) false
      | Some src =>
        match r_dst x with
        | None => RTuple full false
        | Some dst =>
          match ccm_decrypt E 4 2 key (rf_nonce src (r_fc x)) (rf_auth f0 (r_fc x) dst) (r_payload x) (r_mic x) with
          | Some pt => RTuple (drop_last (4 + length (r_payload x)) full ++ pt ++ r_mic x) true
          | None => RTuple full false
          end
        end
      end
    else RRaise MissingSecurityFlag.
  Proof.
    unfold rf_decrypt. cbn [std_variant v_legacy negb andb]. rewrite orb_true_r.
    destruct (rf_sec (r_fctl x)); reflexivity.
  Qed.

  (** what encrypt() emits: the header as given (reserved and security bits set), the CCM
      ciphertext of the payload and the 4-byte tag *)
  Lemma rf_encrypt_std : forall key x src dst,
    length (r_mic x) = 4 -> r_src x = Some src -> r_dst x = Some dst ->
    let fa := N.lor (N.lor (r_fctl x) 32) 4 in
    let ctag := ccm_encrypt E 4 2 key (rf_nonce src (r_fc x)) (rf_auth fa (r_fc x) dst) (r_payload x) in
    rf_encrypt E std_variant key x = RPkt (r_pre x ++ rf_nwk fa (r_fc x) (r_hdr x) (fst ctag) (snd ctag)).
  Proof.
    intros key x src dst Hmic Hs Hd fa ctag.
    rewrite rf_encrypt_std_eq, Hs, Hd. cbv zeta. fold fa. fold ctag.
    rewrite !rf_nwk_split by apply rf_fa_sec.
    rewrite drop_last_app by (rewrite app_length; lia). reflexivity.
  Qed.

  Lemma rf_decrypt_std : forall key x src dst,
    length (r_mic x) = 4 -> rf_sec (r_fctl x) = true -> r_src x = Some src -> r_dst x = Some dst ->
    let f0 := N.lor (r_fctl x) 32 in
    rf_decrypt E std_variant key x =
    match ccm_decrypt E 4 2 key (rf_nonce src (r_fc x)) (rf_auth f0 (r_fc x) dst) (r_payload x) (r_mic x) with
    | Some pt => RTuple (r_pre x ++ rf_nwk f0 (r_fc x) (r_hdr x) pt (r_mic x)) true
    | None => RTuple (r_pre x ++ rf_nwk f0 (r_fc x) (r_hdr x) (r_payload x) (r_mic x)) false
    end.
  Proof.
    intros key x src dst Hmic Hsec Hs Hd f0.
    rewrite rf_decrypt_std_eq, Hsec, Hs, Hd. cbv zeta. fold f0.
    destruct (ccm_decrypt E 4 2 key _ _ _ _) as [pt|]; [|reflexivity].
    rewrite !rf_nwk_split by (unfold f0; rewrite rf_sec_lor32; exact Hsec).
    rewrite drop_last_app by (rewrite app_length; lia). reflexivity.
  Qed.

  (** ** the MIC is checked: a frame is accepted iff its security flag is set, both addresses are
      known and the received MIC is the recomputed CCM tag *)
  Definition rf_accepts (key : bytes) (x : rf_in) : bool :=
    match rf_decrypt E std_variant key x with RTuple _ true => true | _ => false end.

  Lemma rf_accepts_eq key x :
    rf_accepts key x =
    match r_src x, r_dst x with
    | Some src, Some dst =>
      rf_sec (r_fctl x) &&
      bytes_eqb (r_mic x)
        (ccm_tag E 4 2 key (rf_nonce src (r_fc x)) (rf_auth (N.lor (r_fctl x) 32) (r_fc x) dst)
                 (ccm_keystream_xor E 2 key (rf_nonce src (r_fc x)) (r_payload x)))
    | _, _ => false
    end.
  Proof.
    unfold rf_accepts. rewrite rf_decrypt_std_eq. cbv zeta. unfold ccm_decrypt.
    destruct (rf_sec (r_fctl x)), (r_src x) as [src|], (r_dst x) as [dst|]; try reflexivity.
    destruct (bytes_eqb _ _); reflexivity.
  Qed.

  (** ** what is not covered: the profile / vendor id bytes are not read at all, and the reserved bit
      is overwritten before it is (known findings) *)
  Definition with_hdr (x : rf_in) (h : bytes) : rf_in :=
    {| r_pre := r_pre x; r_fctl := r_fctl x; r_fc := r_fc x; r_hdr := h; r_payload := r_payload x;
       r_mic := r_mic x; r_mic_none := r_mic_none x; r_has_layer := r_has_layer x;
       r_src := r_src x; r_dst := r_dst x; r_has_mac := r_has_mac x |}.

  Definition with_fctl (x : rf_in) (f : N) : rf_in :=
    {| r_pre := r_pre x; r_fctl := f; r_fc := r_fc x; r_hdr := r_hdr x; r_payload := r_payload x;
       r_mic := r_mic x; r_mic_none := r_mic_none x; r_has_layer := r_has_layer x;
       r_src := r_src x; r_dst := r_dst x; r_has_mac := r_has_mac x |}.

  Lemma rf_hdr_unauthenticated key x h : rf_accepts key (with_hdr x h) = rf_accepts key x.
  Proof. rewrite !rf_accepts_eq. reflexivity. Qed.

  Lemma rf_reserved_unauthenticated key x :
    rf_accepts key (with_fctl x (N.lxor (r_fctl x) 32)) = rf_accepts key x.
  Proof.
    rewrite !rf_accepts_eq. cbn [with_fctl r_fctl r_fc r_payload r_mic r_src r_dst].
    rewrite lor32_flip. unfold rf_sec. rewrite N.lxor_spec. change (N.testbit 32 2) with false.
    rewrite xorb_false_r. reflexivity.
  Qed.

  (** ** "cannot (de)crypt because something is missing" ends in the dedicated signal *)
  (** a missing source or destination address: (packet, False), never an exception *)
  Theorem rf_missing_address_dedicated : forall key x,
    r_src x = None \/ r_dst x = None ->
    (exists b, rf_encrypt E std_variant key x = RTuple b false) /\
    (rf_sec (r_fctl x) = true -> exists b, rf_decrypt E std_variant key x = RTuple b false).
  Proof.
    intros key x H. rewrite rf_encrypt_std_eq, rf_decrypt_std_eq. cbv zeta. split.
    - destruct (r_src x); [destruct H as [H|H]; [discriminate|rewrite H]|]; eexists; reflexivity.
    - intros ->. destruct (r_src x); [destruct H as [H|H]; [discriminate|rewrite H]|]; eexists; reflexivity.
  Qed.

  Theorem rf_only_dedicated_errors : forall key o e,
    (rf_encrypt_top E std_variant key o = RRaise e -> e = MissingHeader) /\
    (rf_decrypt_top E std_variant key o = RRaise e -> e = MissingHeader \/ e = MissingSecurityFlag).
  Proof.
    intros key [x|] e; cbn [rf_encrypt_top rf_decrypt_top]; [|split; intros H; injection H as <-; auto].
    rewrite rf_encrypt_std_eq, rf_decrypt_std_eq. cbv zeta. split; intros H.
    - destruct (r_src x), (r_dst x); discriminate.
    - destruct (rf_sec (r_fctl x)); [|injection H as <-; auto].
      destruct (r_src x); [|discriminate]. destruct (r_dst x); [|discriminate].
      destruct (ccm_decrypt E 4 2 key _ _ _ _); discriminate.
  Qed.
End RF_MANAGER.

Section RF_SEALED.
  Variable E : bytes -> bytes -> bytes.
  Hypothesis E_length : forall k b, length (E k b) = 16.

  (** the frame the receiver dissects out of what encrypt() emitted for [x] *)
  Definition rf_sealed (key : bytes) (x : rf_in) (src dst : bytes) : rf_in :=
    let fa := N.lor (N.lor (r_fctl x) 32) 4 in
    let ctag := ccm_encrypt E 4 2 key (rf_nonce src (r_fc x)) (rf_auth fa (r_fc x) dst) (r_payload x) in
    {| r_pre := r_pre x; r_fctl := fa; r_fc := r_fc x; r_hdr := r_hdr x;
       r_payload := fst ctag; r_mic := snd ctag;
       r_mic_none := false; r_has_layer := negb (Nat.eqb (length (fst ctag)) 0);
       r_src := Some src; r_dst := Some dst; r_has_mac := r_has_mac x |}.

  Lemma rf_sealed_mic_length key x src dst : length (r_mic (rf_sealed key x src dst)) = 4.
  Proof. apply (ccm_tag_length E E_length). lia. Qed.

  Lemma rf_encrypt_parse : forall key x src dst,
    rf_wf x -> r_src x = Some src -> r_dst x = Some dst ->
    exists w, rf_encrypt E std_variant key x = RPkt w /\
              rf_parse (length (r_pre x)) (Some src) (Some dst) (r_has_mac x) w = Some (rf_sealed key x src dst).
  Proof.
    intros key x src dst (Hfc & Hmic & Hhdr) Hs Hd. eexists. split; [apply (rf_encrypt_std E key x src dst Hmic Hs Hd)|].
    apply rf_parse_nwk; [apply rf_fa_sec | exact Hfc | apply rf_sealed_mic_length |].
    rewrite lor_32_4, rf_dv_lor by reflexivity. exact Hhdr.
  Qed.

  Lemma rf_decrypt_sealed : forall key x src dst,
    let fa := N.lor (N.lor (r_fctl x) 32) 4 in
    rf_decrypt E std_variant key (rf_sealed key x src dst)
    = RTuple (r_pre x ++ rf_nwk fa (r_fc x) (r_hdr x) (r_payload x) (r_mic (rf_sealed key x src dst))) true.
  Proof.
    intros key x src dst fa.
    rewrite (rf_decrypt_std E key _ src dst) by (apply rf_sealed_mic_length || apply rf_fa_sec || reflexivity).
    cbn [rf_sealed r_pre r_fctl r_fc r_hdr r_payload r_mic]. rewrite rf_fa_lor32.
    rewrite (ccm_decrypt_encrypt_gen E E_length). reflexivity.
  Qed.

  Theorem rf_self_inverse : forall key x src dst,
    rf_wf x -> r_src x = Some src -> r_dst x = Some dst ->
    let fa := N.lor (N.lor (r_fctl x) 32) 4 in
    exists w x' tag,
      rf_encrypt E std_variant key x = RPkt w /\
      rf_parse (length (r_pre x)) (Some src) (Some dst) (r_has_mac x) w = Some x' /\
      length tag = 4 /\
      rf_decrypt E std_variant key x' = RTuple (r_pre x ++ rf_nwk fa (r_fc x) (r_hdr x) (r_payload x) tag) true.
  Proof.
    intros key x src dst Hwf Hs Hd fa.
    destruct (rf_encrypt_parse key x src dst Hwf Hs Hd) as (w & He & Hp).
    exists w, (rf_sealed key x src dst), (r_mic (rf_sealed key x src dst)).
    split; [exact He|]. split; [exact Hp|]. split; [apply rf_sealed_mic_length|apply rf_decrypt_sealed].
  Qed.

  Lemma rf_accepts_sealed key x src dst : rf_accepts E key (rf_sealed key x src dst) = true.
  Proof. unfold rf_accepts. rewrite rf_decrypt_sealed. reflexivity. Qed.

  (** the code before the fix, payload empty and [mic] None: [bytes(packet)[:-0]] is empty, so only
      the four tag bytes are emitted *)
  Lemma rf_legacy_crop0 key x src dst :
    r_src x = Some src -> r_dst x = Some dst -> r_has_layer x = true ->
    r_payload x = [] -> r_mic_none x = true ->
    exists w, rf_encrypt E legacy_variant key x = RPkt w /\ length w = 4.
  Proof.
    intros Hs Hd Hl Hp Hm. unfold rf_encrypt. rewrite Hs, Hd, Hl, Hp, Hm.
    cbn [legacy_variant v_legacy andb negb length Nat.add Nat.eqb]. rewrite andb_false_r.
    eexists. split; [reflexivity|]. cbn [app ccm_encrypt fst snd].
    rewrite app_length, (ccm_keystream_xor_length E E_length), (ccm_tag_length E E_length) by lia.
    reflexivity.
  Qed.
End RF_SEALED.

(** ** where the addresses come from: caller's argument, else the long address of the header *)
Lemma rf_resolve_spec : forall arg h a,
  rf_resolve arg h = Some a <-> (arg = Some a \/ (arg = None /\ h = Some (AMLong a))).
Proof.
  intros arg h a. unfold rf_resolve, rf_header_long. split.
  - destruct arg as [b|]; [intros H; injection H as <-; auto|].
    destruct h as [[|s|l]|]; try discriminate. intros H; injection H as <-. auto.
  - intros [->|[-> ->]]; reflexivity.
Qed.

Lemma rf_resolve_none : forall arg h,
  rf_resolve arg h = None <-> (arg = None /\ forall a, h <> Some (AMLong a)).
Proof.
  intros arg h. unfold rf_resolve, rf_header_long. split.
  - destruct arg; [discriminate|]. destruct h as [[|s|l]|]; try discriminate; intros _; split; try reflexivity;
      intros a; discriminate.
  - intros [-> H]. destruct h as [[|s|l]|]; try reflexivity. exfalso. apply (H l). reflexivity.
Qed.

(** ** the CBC-MAC input determines source, frame counter, frame control (reserved bit forced),
    destination and payload: the MIC covers all of them *)
Theorem rf_auth_injective : forall s s' fc fc' f f' d d' m m',
  length s = 8 -> length s' = 8 -> length fc = 4 -> length fc' = 4 ->
  length d = 8 -> length d' = 8 -> (N.of_nat (length m) < 65536)%N -> (N.of_nat (length m') < 65536)%N ->
  ccm_auth_blocks 4 2 (rf_nonce s fc) (rf_auth f fc d) m = ccm_auth_blocks 4 2 (rf_nonce s' fc') (rf_auth f' fc' d') m' ->
  s = s' /\ fc = fc' /\ f = f' /\ d = d' /\ m = m'.
Proof.
  intros s s' fc fc' f f' d d' m m' Hs Hs' Hfc Hfc' Hd Hd' Hm Hm' H.
  apply ccm_auth_blocks_injective in H.
  - destruct H as (Hn & Ha & Hmm). unfold rf_nonce in Hn. unfold rf_auth in Ha.
    apply app_inj_length in Hn; [|lia]. destruct Hn as [-> Hn].
    apply app_inj_length in Hn; [|lia]. destruct Hn as [-> _].
    injection Ha as -> Ha. apply app_inj_length in Ha; [|reflexivity]. destruct Ha as [_ ->].
    repeat split; assumption.
  - lia.
  - unfold rf_nonce. rewrite !app_length. cbn [length]. lia.
  - exact Hm.
  - exact Hm'.
  - unfold rf_auth. rewrite !app_length, Hfc, Hd. cbn [length]. reflexivity.
  - unfold rf_auth. rewrite !app_length, Hfc', Hd'. cbn [length]. reflexivity.
Qed.

(** * Logitech Unifying *)

Lemma un_body_std_eq p : un_body false p =
  [u_dev p; u_ft p] ++ u_hid p ++ [u_unk p] ++ u_ctr p ++ u_unused p ++ u_extra p.
Proof. unfold un_body. rewrite app_nil_r. reflexivity. Qed.

(** re-dissecting the built bytes gives the frame back; only the checksum field now holds the
    computed checksum (which the next build does not use) *)
Lemma un_dissect_build : forall p,
  length (u_hid p) = 7 -> length (u_ctr p) = 4 -> length (u_unused p) = 7 ->
  un_dissect (un_build false p)
  = Some {| u_dev := u_dev p; u_ft := u_ft p; u_hid := u_hid p; u_unk := u_unk p; u_ctr := u_ctr p;
            u_unused := u_unused p; u_extra := u_extra p;
            u_cks := Some (un_checksum (un_body false p)) |}.
Proof.
  intros p Hh Hc Hu. unfold un_dissect, un_build.
  set (ck := un_checksum (un_body false p)). rewrite un_body_std_eq. cbn [app].
  set (mid := u_hid p ++ _).
  rewrite (proj2 (Nat.ltb_ge _ 22))
    by (cbn [length]; unfold mid; rewrite !app_length; cbn [length]; rewrite !app_length; lia).
  rewrite (drop_last_app 1 mid [ck] eq_refl), last_last.
  (* the fields are read at offsets 7, 8, 12 and 19 of [mid]: skip one field after the other *)
  rewrite (skipn_add 12 7 mid : skipn 19 mid = _), (skipn_add 8 4 mid : skipn 12 mid = _),
    (skipn_add 7 1 mid : skipn 8 mid = _).
  unfold mid. rewrite app_nth2, Hh by lia.
  rewrite (firstn_app_exact 7 _ _ Hh), (skipn_app_exact 7 _ _ Hh), skipn_cons, skipn_O.
  rewrite (firstn_app_exact 4 _ _ Hc), (skipn_app_exact 4 _ _ Hc).
  rewrite (firstn_app_exact 7 _ _ Hu), (skipn_app_exact 7 _ _ Hu). reflexivity.
Qed.

(** the built bytes do not depend on the value held by the checksum field *)
Lemma un_build_std_cks : forall p q,
  u_dev p = u_dev q -> u_ft p = u_ft q -> u_hid p = u_hid q -> u_unk p = u_unk q -> u_ctr p = u_ctr q ->
  u_unused p = u_unused q -> u_extra p = u_extra q -> un_build false p = un_build false q.
Proof.
  intros p q H1 H2 H3 H4 H5 H6 H7. unfold un_build. rewrite !un_body_std_eq.
  rewrite H1, H2, H3, H4, H5, H6, H7. reflexivity.
Qed.

Lemma un_crypt_std_cks (E : bytes -> bytes -> bytes) key p c :
  un_crypt E std_variant key
    {| u_dev := u_dev p; u_ft := u_ft p; u_hid := u_hid p; u_unk := u_unk p; u_ctr := u_ctr p;
       u_unused := u_unused p; u_extra := u_extra p; u_cks := c |}
  = un_crypt E std_variant key p.
Proof. reflexivity. Qed.

Section UN_PROOFS.
  Variable E : bytes -> bytes -> bytes.
  Hypothesis E_length : forall k b, length (E k b) = 16.

  Definition un_vec (key ctr : bytes) : bytes := firstn 8 (E key (un_aes_in ctr)).

  Lemma un_vec_length key ctr : length (un_vec key ctr) = 8.
  Proof. unfold un_vec. rewrite firstn_length, E_length. reflexivity. Qed.

  (** what one application returns; the checksum field holds the checksum of the frame as given *)
  Definition un_crypted (key : bytes) (p : un_frame) : un_frame :=
    let r := xor_bytes (un_vec key (u_ctr p)) (u_hid p ++ [u_unk p]) in
    {| u_dev := u_dev p; u_ft := u_ft p; u_hid := firstn 7 r; u_unk := nth 7 r 0%N; u_ctr := u_ctr p;
       u_unused := u_unused p; u_extra := u_extra p; u_cks := Some (un_checksum (un_body false p)) |}.

  Lemma un_crypt_ok key p : un_wf p -> un_crypt E std_variant key p = Ok (un_crypted key p).
  Proof.
    intros (Hft & Hh & Hc & Hu). unfold un_crypt.
    rewrite Hft. cbn [N.eqb Pos.eqb negb std_variant v_legacy]. fold (un_vec key (u_ctr p)).
    rewrite (proj2 (Nat.ltb_ge _ _)) by (rewrite un_vec_length, app_length, Hh; reflexivity).
    rewrite un_dissect_build by assumption. reflexivity.
  Qed.

  Lemma un_crypted_payload key p : un_wf p ->
    u_hid (un_crypted key p) ++ [u_unk (un_crypted key p)]
    = xor_bytes (un_vec key (u_ctr p)) (u_hid p ++ [u_unk p]).
  Proof.
    intros (_ & Hh & _). apply firstn_app_nth.
    rewrite xor_bytes_length, un_vec_length, app_length, Hh. reflexivity.
  Qed.

  Lemma un_crypted_wf key p : un_wf p -> un_wf (un_crypted key p).
  Proof.
    intros (Hft & Hh & Hc & Hu). repeat split; try assumption. cbn [un_crypted u_hid].
    rewrite firstn_length, xor_bytes_length, un_vec_length, app_length, Hh. reflexivity.
  Qed.

  (** a second application xors the same keystream on: the payload is back *)
  Lemma un_crypted_twice key p : un_wf p ->
    let q' := un_crypted key (un_crypted key p) in
    un_fields q' = un_fields p /\ un_build false q' = un_build false p.
  Proof.
    intros Hwf q'. assert (H : u_hid q' = u_hid p /\ u_unk q' = u_unk p).
    { apply app_inj_tail. unfold q'.
      rewrite un_crypted_payload, un_crypted_payload by (try apply un_crypted_wf; exact Hwf).
      cbn [un_crypted u_ctr]. destruct Hwf as (_ & Hh & _).
      rewrite (xor_bytes_comm _ (u_hid p ++ [u_unk p])), xor_bytes_comm.
      apply xor_bytes_involutive_gen. rewrite un_vec_length, app_length, Hh. apply Nat.le_refl. }
    destruct H as [Hh Hk]. split; [unfold un_fields; rewrite Hh, Hk; reflexivity|].
    apply un_build_std_cks; assumption || reflexivity.
  Qed.
End UN_PROOFS.

(** Unifying: a frame that carries no encrypted keystroke payload: the dedicated
    MissingEncryptedKeystrokePayload, for every variant and key *)
Theorem un_missing_payload_dedicated : forall (E : bytes -> bytes -> bytes) v key p,
  u_ft p <> 0xD3%N -> un_crypt E v key p = Raise MissingPayload.
Proof.
  intros E v key p H. unfold un_crypt. apply N.eqb_neq in H. rewrite H. reflexivity.
Qed.

(** * AES plugged in: the driver's round trips, and the concrete frames for the defects of the code
    before the `fix:` commits, and for the non-vacuity example *)
Local Open Scope N_scope.

Definition wk_a : bytes := [0;1;2;3;4;5;6;7;8;9;10;11;12;13;14;15].
Definition wk_n : bytes := [16;17;18;19;20;21;22;23;24;25;26;27;28;29;30;31].
Definition wk_k : bytes := [32;33;34;35;36;37;38;39;40;41;42;43;44;45;46;47].
Definition w_keys : keys3 := (Some wk_k, Some wk_a, Some wk_n).

Definition w_up0 : lw_data :=
  {| d_mtype := 2; d_lo := 0; d_addr := 287454020; d_fhi := 8; d_fcnt := 7; d_fopts := [2];
     d_fport := 0; d_payload := [97;98;99]; d_mic := [0;0;0;0] |}.

Lemma w_up0_wf : lw_wf w_up0.
Proof. unfold lw_wf, w_up0. cbn. repeat split; lia. Qed.

(** the driver's round trip is encrypt, serialise, re-dissect, decrypt: the wire path changes nothing *)
Lemma lw_roundtrip_data v ak ak' a n d : lw_wf d ->
  snd (lw_roundtrip v (ak, Some a, Some n) (ak', Some a, Some n) (PData d))
  = out_bytes (dec_data aes128_enc (v_legacy v) a n (enc_result aes128_enc a n d)).
Proof.
  intros Hwf. unfold lw_roundtrip, lw_enc, lw_dec. cbn [snd encrypt_packet].
  rewrite (enc_data_ok aes128_enc aes128_enc_length a n d Hwf).
  rewrite dissect_build_data by (apply enc_result_wf; [exact aes128_enc_length|exact Hwf]).
  reflexivity.
Qed.

Lemma lw_roundtrip_std ak ak' a n d : lw_wf d ->
  snd (lw_roundtrip std_variant (ak, Some a, Some n) (ak', Some a, Some n) (PData d))
  = Ok (build (PData (with_mic d (d_mic (enc_result aes128_enc a n d))))).
Proof.
  intros Hwf. rewrite lw_roundtrip_data by exact Hwf. cbn [std_variant v_legacy].
  rewrite (dec_data_ok aes128_enc aes128_enc_length a n d Hwf). reflexivity.
Qed.

Lemma lw_roundtrip_legacy_up0 ak ak' a n d :
  lw_wf d -> is_uplink (d_mtype d) = true -> d_fport d = 0 ->
  let e := enc_result aes128_enc a n d in
  snd (lw_roundtrip legacy_variant (ak, Some a, Some n) (ak', Some a, Some n) (PData d))
  = Ok (build (PData (with_fopts_payload e (d_fopts d) (d_payload e)))).
Proof.
  intros Hwf Hu Hp e. rewrite lw_roundtrip_data by exact Hwf. cbn [legacy_variant v_legacy].
  rewrite (dec_data_legacy_up0 aes128_enc a n (enc_result aes128_enc a n d) Hu Hp).
  rewrite (enc_result_mic_ok aes128_enc aes128_enc_length a n d Hwf), bytes_eqb_refl.
  rewrite (enc_fields_result aes128_enc aes128_enc_length a n d Hwf). reflexivity.
Qed.

Lemma lw_std_port0_ok :
  exists b, snd (lw_roundtrip std_variant w_keys w_keys (PData w_up0)) = Ok b /\
            drop_last 4 b = drop_last 4 (build (PData w_up0)).
Proof.
  eexists. split; [exact (lw_roundtrip_std _ _ _ _ _ w_up0_wf)|].
  cbn [build]. rewrite !drop_last_app by (apply (lw_mic_length aes128_enc aes128_enc_length) || reflexivity).
  apply data_nomic_with_mic.
Qed.

(** RF4CE: frame given with the security flag clear; scapy-built frame with mic = None;
    empty payload with no MIC ([:-0]) *)
Definition w_rf (fctl : N) (pl : bytes) (mic_none : bool) : rf_in :=
  {| r_pre := []; r_fctl := fctl; r_fc := [4;3;2;1]; r_hdr := [192;52;18]; r_payload := pl; r_mic := [0;0;0;0];
     r_mic_none := mic_none; r_has_layer := true;
     r_src := Some [136;119;102;85;68;51;34;17]; r_dst := Some [0;255;238;221;204;187;170;153]; r_has_mac := false |}.

Definition rf_rt_accepted (v : variant) (x : rf_in) : bool :=
  match snd (rf_roundtrip v wk_a wk_a x (r_src x) (r_dst x)) with RTuple _ true => true | _ => false end.

Lemma w_rf_wf fctl pl mn : rf_dv fctl = true -> rf_wf (w_rf fctl pl mn).
Proof. intros H. unfold rf_wf. cbn [w_rf r_fc r_mic r_hdr r_fctl]. rewrite H. repeat split. Qed.

Lemma rf_rt_accepted_std x src dst :
  rf_wf x -> r_src x = Some src -> r_dst x = Some dst -> rf_rt_accepted std_variant x = true.
Proof.
  intros Hwf Hs Hd. unfold rf_rt_accepted, rf_roundtrip. cbn [snd]. rewrite Hs, Hd.
  destruct (rf_encrypt_parse aes128_enc aes128_enc_length wk_a x src dst Hwf Hs Hd) as (w & He & Hp).
  rewrite He, Hp. exact (rf_accepts_sealed aes128_enc aes128_enc_length wk_a x src dst).
Qed.

Definition w_sealed : rf_in :=
  rf_sealed aes128_enc wk_a (w_rf 173 [65] true) [136;119;102;85;68;51;34;17] [0;255;238;221;204;187;170;153].

Lemma w_sealed_accepted : rf_accepts aes128_enc wk_a w_sealed = true.
Proof. apply rf_accepts_sealed, aes128_enc_length. Qed.

Definition rf_any_header_change_rejected_statement : Prop :=
  forall key x h, rf_sec (r_fctl x) = true -> length h = length (r_hdr x) -> h <> r_hdr x ->
    rf_accepts aes128_enc key x = true -> rf_accepts aes128_enc key (with_hdr x h) = false.

Definition rf_reserved_bit_change_rejected_statement : Prop :=
  forall key x, rf_sec (r_fctl x) = true ->
    rf_accepts aes128_enc key x = true -> rf_accepts aes128_enc key (with_fctl x (N.lxor (r_fctl x) 32)) = false.

Definition w_un : un_frame :=
  {| u_dev := 3; u_ft := 0xD3; u_hid := [0;4;0;0;0;0;0]; u_unk := 0xC9; u_ctr := [1;2;3;4];
     u_unused := [0;0;0;0;0;0;0]; u_extra := []; u_cks := None |}.

Lemma w_un_wf : un_wf w_un.
Proof. repeat split. Qed.

(** the driver's two results: decrypted in memory, and decrypted after re-dissection of the encrypted bytes *)
Lemma un_roundtrip_std key p : un_wf p ->
  snd (fst (un_roundtrip std_variant key key p)) = Ok (un_build false p) /\
  snd (un_roundtrip std_variant key key p) = Ok (un_build false p).
Proof.
  intros Hwf. pose proof (un_crypted_wf aes128_enc aes128_enc_length key p Hwf) as Hwfq.
  unfold un_roundtrip. cbn [fst snd std_variant v_legacy].
  rewrite (un_crypt_ok aes128_enc aes128_enc_length key p Hwf). cbn [un_bind].
  rewrite un_dissect_build, un_crypt_std_cks by apply Hwfq.
  rewrite (un_crypt_ok aes128_enc aes128_enc_length key _ Hwfq). cbn [un_out].
  rewrite (proj2 (un_crypted_twice aes128_enc aes128_enc_length key p Hwf)). split; reflexivity.
Qed.

Lemma un_std_witness_ok :
  snd (fst (un_roundtrip std_variant wk_a wk_a w_un)) = Ok (un_build false w_un) /\
  snd (un_roundtrip std_variant wk_a wk_a w_un) = Ok (un_build false w_un).
Proof. exact (un_roundtrip_std wk_a w_un w_un_wf). Qed.

Lemma aes_inverse_on_fips_vector :
  aes128_enc fips197_B_key (aes128_dec fips197_B_key fips197_B_ct) = fips197_B_ct /\
  aes128_enc fips197_C1_key (aes128_dec fips197_C1_key fips197_C1_ct) = fips197_C1_ct.
Proof. split; vm_compute; reflexivity. Qed.
