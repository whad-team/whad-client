(** C12 — proofs about the model of the layer framework.
    - The handler table built by [Layer.__init__] is the dictionary of declared (source, tag) pairs.
    - [cache_okd]: every memoised entry equals the uncached scoped lookup seen from the object that
      holds it; [get_layer], instantiate, destroy and load keep that true.
    - [Inv]: instance names are unique and below the class counters, object ids unique and below the
      allocator.  One case analysis of a step ([stepped]) serves all invariants.
    - Erasing the caches turns a step of the implementation model into the reference's ([step_erase]).
    - Save/load identity on stacks of the shape [conf]. *)
From Coq Require Import List NArith Bool Lia Btauto.
From Whad Require Import Lib.Lists C12.Model.
Import ListNotations.
Open Scope N_scope.

Lemma optN_eqb_eq a b : optN_eqb a b = true <-> a = b.
Proof.
  destruct a, b; simpl; split; intro H; try discriminate; try reflexivity.
  - apply N.eqb_eq in H. congruence.
  - inversion H. apply N.eqb_refl.
Qed.
Lemma pair_eqb_eq {A B} (ea : A -> A -> bool) (eb : B -> B -> bool) :
  (forall x y, ea x y = true <-> x = y) -> (forall x y, eb x y = true <-> x = y) ->
  forall a b : A * B, ea (fst a) (fst b) && eb (snd a) (snd b) = true <-> a = b.
Proof.
  intros Ha Hb [a1 a2] [b1 b2]. cbn [fst snd]. rewrite andb_true_iff, Ha, Hb.
  split; [intros [-> ->]; reflexivity | intro H; inversion H; auto].
Qed.
Lemma name_eqb_eq a b : name_eqb a b = true <-> a = b.
Proof. apply (pair_eqb_eq N.eqb optN_eqb N.eqb_eq optN_eqb_eq). Qed.
Lemma key_eqb_eq a b : key_eqb a b = true <-> a = b.
Proof. apply (pair_eqb_eq N.eqb N.eqb N.eqb_eq N.eqb_eq). Qed.
Lemma name_eqb_refl a : name_eqb a a = true.
Proof. apply name_eqb_eq. reflexivity. Qed.
Lemma name_eqb_neq a b : name_eqb a b = false <-> a <> b.
Proof.
  split; intro H.
  - intro E. apply name_eqb_eq in E. congruence.
  - destruct (name_eqb a b) eqn:E; [apply name_eqb_eq in E; contradiction | reflexivity].
Qed.
Lemma name_eqb_sym a b : name_eqb a b = name_eqb b a.
Proof.
  destruct (name_eqb a b) eqn:E.
  - apply name_eqb_eq in E. subst. symmetry. apply name_eqb_refl.
  - symmetry. apply name_eqb_neq. apply name_eqb_neq in E. congruence.
Qed.

Section DictLemmas.
  Context {K V : Type} (eqb : K -> K -> bool).
  Hypothesis eqb_eq : forall a b, eqb a b = true <-> a = b.

  Lemma aget_aset (d : list (K * V)) k v k' :
    aget eqb (aset eqb d k v) k' = if eqb k k' then Some v else aget eqb d k'.
  Proof.
    induction d as [|[k0 v0] d IH]; simpl.
    - reflexivity.
    - destruct (eqb k0 k) eqn:E0; simpl.
      + apply eqb_eq in E0. subst k0. destruct (eqb k k'); reflexivity.
      + rewrite IH. destruct (eqb k0 k') eqn:E1; [|reflexivity].
        apply eqb_eq in E1. subst k0. destruct (eqb k k') eqn:E2; [|reflexivity].
        apply eqb_eq in E2. subst k'. assert (eqb k k = true) by (apply eqb_eq; reflexivity). congruence.
  Qed.
End DictLemmas.

Lemma aget_aset_other {V} (d : list (N * V)) k v k' : k <> k' -> aget N.eqb (aset N.eqb d k v) k' = aget N.eqb d k'.
Proof. intro H. rewrite (aget_aset N.eqb N.eqb_eq). destruct (N.eqb k k') eqn:E; [apply N.eqb_eq in E; contradiction|reflexivity]. Qed.

Lemma len_le1_eq {A} (l : list A) x y : (length l <= 1)%nat -> In x l -> In y l -> x = y.
Proof.
  destruct l as [|a [|b r]]; cbn; intros H Hx Hy; try lia; try contradiction.
  destruct Hx as [->|[]], Hy as [->|[]]. reflexivity.
Qed.

Lemma Forall2_impl_in {A B} (R R' : A -> B -> Prop) l1 l2 :
  Forall2 R l1 l2 -> (forall a b, In a l1 -> In b l2 -> R a b -> R' a b) -> Forall2 R' l1 l2.
Proof.
  induction 1 as [|a b l1 l2 Hab _ IH]; intro H; constructor.
  - apply H; [left; reflexivity|left; reflexivity|exact Hab].
  - apply IH. intros x y Hx Hy. apply H; right; assumption.
Qed.

Lemma Forall2_map_eq {A B} (f : A -> B) l l' : Forall2 (fun a b => f a = f b) l l' <-> map f l = map f l'.
Proof.
  split.
  - induction 1 as [|a b l l' H _ IH]; [reflexivity|]. cbn [map]. rewrite H, IH. reflexivity.
  - revert l'. induction l as [|a l IH]; intros [|b l'] H; cbn [map] in H; try discriminate; constructor.
    + injection H as H1 _. exact H1.
    + apply IH. injection H as _ H2. exact H2.
Qed.

Lemma Forall2_comp {A B C} (R : A -> B -> Prop) (Q : B -> C -> Prop) (T : A -> C -> Prop) l1 l2 l3 :
  Forall2 R l1 l2 -> Forall2 Q l2 l3 -> (forall a b c, R a b -> Q b c -> T a c) -> Forall2 T l1 l3.
Proof.
  intros H HQ HT. revert l3 HQ. induction H; intros l3 HQ; inversion HQ; subst; constructor; eauto.
Qed.

Lemma Forall_Forall2 {B C} (P : B -> Prop) (Q : B -> C -> Prop) (T : C -> Prop) l2 l3 :
  Forall P l2 -> Forall2 Q l2 l3 -> (forall b c, P b -> Q b c -> T c) -> Forall T l3.
Proof.
  intros H HQ HT. revert l3 HQ. induction H; intros l3 HQ; inversion HQ; subst; constructor; eauto.
Qed.

Lemma last_app_ne {A} (l1 l2 : list A) d d' : l2 <> [] -> last (l1 ++ l2) d = last l2 d'.
Proof. intro H. rewrite (app_removelast_last d' H) at 1. rewrite app_assoc. apply last_last. Qed.

Definition ms_has (m : msources) (s : alias) (t : tag) : bool :=
  existsb (fun st => N.eqb (fst st) s && existsb (N.eqb t) (snd st)) m.

Lemma ms_add_has m s' t' s t :
  ms_has (ms_add m s' t') s t = ms_has m s t || (N.eqb s' s && N.eqb t' t).
Proof.
  induction m as [|[s0 ts] m IH]; simpl.
  - rewrite !orb_false_r. rewrite (N.eqb_sym t t'). reflexivity.
  - destruct (N.eqb s0 s') eqn:E0; simpl.
    + apply N.eqb_eq in E0. subst s0.
      destruct (N.eqb s' s) eqn:E1; simpl; [|rewrite orb_false_r; reflexivity].
      destruct (existsb (N.eqb t') ts) eqn:E2.
      * destruct (N.eqb t' t) eqn:E3; [|rewrite orb_false_r; reflexivity].
        apply N.eqb_eq in E3. subst t'. rewrite E2. reflexivity.
      * rewrite existsb_app. cbn [existsb]. rewrite (N.eqb_sym t t'). btauto.
    + rewrite IH. rewrite orb_assoc. reflexivity.
Qed.

Definition decos_have (ds : list deco) (s : alias) (t : tag) : bool :=
  existsb (fun d => N.eqb (d_src d) s && N.eqb (d_tag d) t) ds.

Lemma decorate_some ds : forall m c,
  exists m', fold_left apply_deco ds (Some (m, c)) = Some (m', c) /\
    forall s t, ms_has m' s t = ms_has m s t || decos_have ds s t.
Proof.
  induction ds as [|d ds IH]; intros m c; simpl.
  - exists m. split; [reflexivity|]. intros. rewrite orb_false_r. reflexivity.
  - destruct (IH (ms_add m (d_src d) (d_tag d)) c) as [m' [H1 H2]].
    exists m'. split; [exact H1|]. intros s t. rewrite H2, ms_add_has, orb_assoc. reflexivity.
Qed.

Lemma decorate_spec ds :
  match decorate ds with
  | None => ds = []
  | Some (m, c) => c = match ds with d :: _ => d_ctx d | [] => false end /\ forall s t, ms_has m s t = decos_have ds s t
  end.
Proof.
  unfold decorate. destruct ds as [|d ds]; [reflexivity|].
  cbn [fold_left]. change (apply_deco None d) with (Some ([(d_src d, [d_tag d])], d_ctx d)).
  destruct (decorate_some ds [(d_src d, [d_tag d])] (d_ctx d)) as [m' [H1 H2]].
  rewrite H1.
  split; [reflexivity|].
  intros s t. rewrite H2. unfold ms_has, decos_have. cbn [existsb fst snd].
  rewrite (N.eqb_sym t (d_tag d)). btauto.
Qed.

Lemma reg_tags_get m s' ts : forall tb s t,
  aget key_eqb (reg_tags m s' ts tb) (s, t)
  = if N.eqb s' s && existsb (N.eqb t) ts then Some m else aget key_eqb tb (s, t).
Proof.
  unfold reg_tags. induction ts as [|t0 ts IH]; intros tb s t; simpl.
  - rewrite andb_false_r. reflexivity.
  - rewrite IH. rewrite (aget_aset key_eqb key_eqb_eq).
    unfold key_eqb at 1. simpl.
    destruct (N.eqb s' s) eqn:E; simpl; [|reflexivity].
    rewrite (N.eqb_sym t t0).
    destruct (existsb (N.eqb t) ts); [rewrite orb_true_r; reflexivity|].
    rewrite orb_false_r. reflexivity.
Qed.

Lemma reg_ms_get m ms : forall tb s t,
  aget key_eqb (fold_left (fun tb st => reg_tags m (fst st) (snd st) tb) ms tb) (s, t)
  = if ms_has ms s t then Some m else aget key_eqb tb (s, t).
Proof.
  induction ms as [|[s0 ts] ms IH]; intros tb s t; simpl; [reflexivity|].
  rewrite IH, reg_tags_get.
  destruct (ms_has ms s t); [rewrite orb_true_r; reflexivity|].
  rewrite orb_false_r. reflexivity.
Qed.

Lemma reg_method_get tb h s t :
  aget key_eqb (reg_method tb h) (s, t)
  = if declares h s t then Some (h_id h, h_contextual h) else aget key_eqb tb (s, t).
Proof.
  unfold reg_method. pose proof (decorate_spec (h_decos h)) as D.
  destruct (decorate (h_decos h)) as [[m c]|].
  - destruct D as [-> Hh]. rewrite reg_ms_get, Hh. reflexivity.
  - unfold declares. rewrite D. reflexivity.
Qed.

Lemma build_handlers_get_gen hs : forall tb s t,
  aget key_eqb (fold_left reg_method hs tb) (s, t)
  = fold_left (fun acc h => if declares h s t then Some (h_id h, h_contextual h) else acc) hs (aget key_eqb tb (s, t)).
Proof.
  induction hs as [|h hs IH]; intros tb s t; simpl; [reflexivity|]. rewrite IH, reg_method_get. reflexivity.
Qed.

Lemma build_handlers_get hs s t : aget key_eqb (build_handlers hs) (s, t) = spec_declared hs s t.
Proof. apply build_handlers_get_gen. Qed.

Theorem handler_table_exact hs s t : impl_table hs s t = spec_table hs s t.
Proof.
  unfold impl_table, get_handler, spec_table. rewrite !build_handlers_get. reflexivity.
Qed.

Lemma spec_declared_find hs s t :
  spec_declared hs s t
  = option_map (fun h => (h_id h, h_contextual h)) (find (fun h => declares h s t) (rev hs)).
Proof.
  unfold spec_declared.
  transitivity (fold_right (fun h acc => if declares h s t then Some (h_id h, h_contextual h) else acc) None (rev hs));
    [symmetry; apply fold_left_rev_right|].
  induction (rev hs) as [|h l IH]; [reflexivity|]. cbn [fold_right find].
  destruct (declares h s t); [reflexivity|exact IH].
Qed.

Lemma handler_sound hs s t m x :
  get_handler (build_handlers hs) s t = Some (m, x) ->
  exists h, In h hs /\ m = h_id h /\ x = h_contextual h /\
    (declares h s t = true \/
     (declares h s 0 = true /\ forall h', In h' hs -> declares h' s t = false)).
Proof.
  intro H. change (impl_table hs s t = Some (m, x)) in H.
  rewrite handler_table_exact in H. unfold spec_table in H. rewrite !spec_declared_find in H.
  destruct (find (fun h => declares h s t) (rev hs)) as [h|] eqn:F; cbn [option_map] in H.
  - apply find_some in F. destruct F as [Hin Hd]. apply in_rev in Hin.
    inversion H; subst. exists h. auto 6.
  - destruct (find (fun h => declares h s 0) (rev hs)) as [h|] eqn:F0; [|discriminate H].
    apply find_some in F0. destruct F0 as [Hin Hd]. apply in_rev in Hin.
    inversion H; subst. exists h. split; [exact Hin|]. split; [reflexivity|]. split; [reflexivity|].
    right. split; [exact Hd|]. intros h' Hin'. apply (find_none _ _ F). apply in_rev in Hin'. exact Hin'.
Qed.

Lemma handler_complete hs s t h :
  In h hs -> declares h s t = true ->
  exists h', In h' hs /\ declares h' s t = true /\
    get_handler (build_handlers hs) s t = Some (h_id h', h_contextual h').
Proof.
  intros Hin Hd. change (get_handler (build_handlers hs) s t) with (impl_table hs s t).
  rewrite handler_table_exact. unfold spec_table. rewrite spec_declared_find.
  destruct (find (fun h => declares h s t) (rev hs)) as [h'|] eqn:F.
  - apply find_some in F. destruct F as [Hin' Hd']. apply in_rev in Hin'. exists h'. auto.
  - apply in_rev in Hin. rewrite (find_none _ _ F h Hin) in Hd. discriminate.
Qed.

(** [inst], [cls] and [sstate] nest through lists: the generated induction principles give no
    hypothesis for the sub-objects, these do *)
Section InstInd.
  Context (P : inst -> Prop).
  Hypothesis HI : forall u c nm s ca kids, Forall P kids -> P (Inst u c nm s ca kids).
  Fixpoint inst_ind' (i : inst) : P i :=
    match i with
    | Inst u c nm s ca kids =>
        HI u c nm s ca kids
          ((fix go (l : list inst) : Forall P l :=
              match l with
              | [] => Forall_nil P
              | k :: r => Forall_cons k (inst_ind' k) (go r)
              end) kids)
    end.
End InstInd.

Section ClsInd.
  Context (P : cls -> Prop).
  Hypothesis HC : forall a x hs subs, Forall P subs -> P (Cls a x hs subs).
  Fixpoint cls_ind' (c : cls) : P c :=
    match c with
    | Cls a x hs subs =>
        HC a x hs subs
          ((fix go (l : list cls) : Forall P l :=
              match l with
              | [] => Forall_nil P
              | k :: r => Forall_cons k (cls_ind' k) (go r)
              end) subs)
    end.
End ClsInd.

Section SsInd.
  Context (P : sstate -> Prop).
  Hypothesis HS : forall nm st subs, Forall P subs -> P (SS nm st subs).
  Fixpoint sstate_ind' (s : sstate) : P s :=
    match s with
    | SS nm st subs =>
        HS nm st subs
          ((fix go (l : list sstate) : Forall P l :=
              match l with
              | [] => Forall_nil P
              | k :: r => Forall_cons k (sstate_ind' k) (go r)
              end) subs)
    end.
End SsInd.

Lemma find_kid_in l n k : find_kid l n = Some k -> In k l /\ i_name k = n.
Proof.
  induction l as [|x r IH]; [discriminate|]. cbn [find_kid].
  destruct (name_eqb (i_name x) n) eqn:E; intro H.
  - inversion H; subst. split; [left; reflexivity|apply name_eqb_eq; exact E].
  - destruct (IH H). split; [right; assumption|assumption].
Qed.

Lemma find_kid_app a b n :
  find_kid (a ++ b) n = match find_kid a n with Some k => Some k | None => find_kid b n end.
Proof.
  induction a as [|x r IH]; [reflexivity|]. cbn [app find_kid].
  destruct (name_eqb (i_name x) n); [reflexivity|exact IH].
Qed.

Lemma find_kid_none l n : find_kid l n = None <-> forall k, In k l -> i_name k <> n.
Proof.
  induction l as [|x r IH]; cbn [find_kid]; [split; [intros _ k []|reflexivity]|].
  destruct (name_eqb (i_name x) n) eqn:E.
  - split; [discriminate|]. intro H. apply name_eqb_eq in E. destruct (H x (or_introl eq_refl) E).
  - rewrite IH. apply name_eqb_neq in E. split.
    + intros H k [<-|Hk]; [exact E|apply H, Hk].
    + intros H k Hk. apply H. right. exact Hk.
Qed.

Lemma find_kid_skip l k r n : (forall x, In x l -> i_name x <> n) -> i_name k = n ->
  find_kid (l ++ k :: r) n = Some k.
Proof.
  intros H Hk. rewrite find_kid_app, (proj2 (find_kid_none l n) H). cbn [find_kid].
  rewrite Hk, name_eqb_refl. reflexivity.
Qed.

Lemma set_kid_append l k' : find_kid l (i_name k') = None -> set_kid l k' = l ++ [k'].
Proof.
  induction l as [|x r IH]; [reflexivity|]. cbn [find_kid set_kid].
  destruct (name_eqb (i_name x) (i_name k')); [discriminate|]. intro H. rewrite IH; [reflexivity|exact H].
Qed.

Lemma set_kid_skip l k r k' : (forall x, In x l -> i_name x <> i_name k') -> i_name k = i_name k' ->
  set_kid (l ++ k :: r) k' = l ++ k' :: r.
Proof.
  intros H Hk. induction l as [|x l IH]; cbn [app set_kid].
  - rewrite Hk, name_eqb_refl. reflexivity.
  - destruct (name_eqb (i_name x) (i_name k')) eqn:E.
    + apply name_eqb_eq in E. exfalso. apply (H x); [left; reflexivity|exact E].
    + rewrite IH; [reflexivity|]. intros y Hy. apply H. right. exact Hy.
Qed.

Lemma map_kid_id l n f : (forall k, find_kid l n = Some k -> f k = k) -> map_kid l n f = l.
Proof.
  induction l as [|x r IH]; intro H; [reflexivity|]. cbn [map_kid find_kid] in *.
  destruct (name_eqb (i_name x) n).
  - rewrite H; reflexivity.
  - rewrite IH; [reflexivity|exact H].
Qed.

Lemma map_kid_rel (R : inst -> inst -> Prop) l x g :
  (forall k, R k k) -> (forall k, find_kid l x = Some k -> R k (g k)) -> Forall2 R l (map_kid l x g).
Proof.
  intro Hr. induction l as [|y r IH]; intro H; [constructor|]. cbn [map_kid find_kid] in *.
  destruct (name_eqb (i_name y) x).
  - constructor; [apply H; reflexivity|]. clear IH H. induction r; constructor; auto.
  - constructor; [apply Hr|apply IH, H].
Qed.

Lemma map_kid_forall (P Q : inst -> Prop) l x f k :
  find_kid l x = Some k -> Forall P l -> (forall z, P z -> Q z) -> (P k -> Q (f k)) ->
  Forall Q (map_kid l x f).
Proof.
  intros Ek Hl HPQ Hf. apply (Forall_Forall2 P (fun z z' => P z -> Q z') Q l _ Hl); [|auto].
  apply map_kid_rel; [exact HPQ|]. intros k0 Hk0. rewrite Ek in Hk0. injection Hk0 as <-. exact Hf.
Qed.

Lemma find_kid_map_kid_tgt l x g n :
  (forall k, find_kid l x = Some k -> i_name (g k) = i_name k /\ tgt_of (g k) = tgt_of k) ->
  option_map tgt_of (find_kid (map_kid l x g) n) = option_map tgt_of (find_kid l n).
Proof.
  induction l as [|y r IH]; intro H; [reflexivity|]. cbn [map_kid find_kid] in *.
  destruct (name_eqb (i_name y) x) eqn:E.
  - destruct (H y eq_refl) as [A B]. cbn [find_kid]. rewrite A.
    destruct (name_eqb (i_name y) n); [cbn; rewrite B; reflexivity|reflexivity].
  - cbn [find_kid]. destruct (name_eqb (i_name y) n); [reflexivity|apply IH; exact H].
Qed.

Lemma del_kid_app_skip l1 l2 n : (forall k, In k l1 -> i_name k <> n) -> del_kid (l1 ++ l2) n = l1 ++ del_kid l2 n.
Proof.
  induction l1 as [|x r IH]; intro H; [reflexivity|]. cbn [app del_kid].
  destruct (name_eqb (i_name x) n) eqn:E.
  - apply name_eqb_eq in E. exfalso. apply (H x); [left; reflexivity|exact E].
  - rewrite IH; [reflexivity|]. intros k Hk. apply H. right. exact Hk.
Qed.

Lemma del_kid_incl l n : incl (del_kid l n) l.
Proof.
  induction l as [|x r IH]; [apply incl_refl|]. cbn [del_kid].
  destruct (name_eqb (i_name x) n); [apply incl_tl, incl_refl|].
  intros y [<-|Hy]; [left; reflexivity|right; apply IH; exact Hy].
Qed.

Lemma del_kid_nodup l n : NoDup (map i_name l) -> NoDup (map i_name (del_kid l n)).
Proof.
  induction l as [|x r IH]; intro H; [constructor|]. cbn [del_kid map] in *.
  inversion H as [|? ? Hn Hr]; subst. destruct (name_eqb (i_name x) n); [exact Hr|].
  cbn [map]. constructor; [|apply IH; exact Hr].
  intro Hin. apply Hn. apply in_map_iff in Hin. destruct Hin as [y [E Hy]].
  apply in_map_iff. exists y. split; [exact E|apply (del_kid_incl r n); exact Hy].
Qed.

Lemma with_subs_id i : with_subs i (i_subs i) = i.
Proof. destruct i; reflexivity. Qed.

Lemma set_node_id p : forall i j, get_node i p = Some j -> set_node i p j = i.
Proof.
  induction p as [|x q IH]; intros i j H; cbn [get_node set_node] in *.
  - inversion H. reflexivity.
  - rewrite map_kid_id; [apply with_subs_id|].
    intros k Hk. rewrite Hk in H. apply IH. exact H.
Qed.

Lemma get_node_snoc p : forall i x,
  get_node i (p ++ [x]) = match get_node i p with Some j => find_kid (i_subs j) x | None => None end.
Proof.
  induction p as [|y q IH]; intros i x; cbn [app get_node].
  - destruct (find_kid (i_subs i) x); reflexivity.
  - destruct (find_kid (i_subs i) y); [apply IH|reflexivity].
Qed.

Lemma find_cls_in l a c : find_cls l a = Some c -> In c l /\ c_alias c = a.
Proof.
  induction l as [|x r IH]; [discriminate|]. cbn [find_cls].
  destruct (N.eqb (c_alias x) a) eqn:E; intro H.
  - inversion H; subst. split; [left; reflexivity|apply N.eqb_eq; exact E].
  - destruct (IH H). split; [right; assumption|assumption].
Qed.

(** The loops over the children are anonymous [fix]es inside the model's [s_sub] and [sub_get]
    (nested, so that the recursion on the tree is guarded) and no lemma can speak of them: here each
    stands on its own ([s_loop], [g_loop]), with the equation that puts it in place of the inner [fix]. *)
Fixpoint s_loop (l : list inst) (n : name) : option tgt :=
  match l with
  | [] => None
  | k :: r => if inst_ctx k then s_loop r n
              else match s_sub k n with Some t => Some t | None => s_loop r n end
  end.

Lemma s_sub_eq i n :
  s_sub i n =
  if name_eqb n (c_alias (i_cls i), None) then Some (tgt_of i)
  else match find_kid (i_subs i) n with
       | Some k => Some (tgt_of k)
       | None => s_loop (i_subs i) n
       end.
Proof.
  destruct i as [u c nm s ca kids]. cbn [s_sub i_cls i_subs tgt_of i_uid].
  destruct (name_eqb n (c_alias c, None)); [reflexivity|].
  destruct (find_kid kids n); [reflexivity|].
  induction kids as [|k r IH]; [reflexivity|].
  cbn [s_loop]. destruct (inst_ctx k); [exact IH|]. destruct (s_sub k n); [reflexivity|exact IH].
Qed.

Lemma s_sub_with_subs r kids' n :
  option_map tgt_of (find_kid kids' n) = option_map tgt_of (find_kid (i_subs r) n) ->
  s_loop kids' n = s_loop (i_subs r) n -> s_sub (with_subs r kids') n = s_sub r n.
Proof.
  intros Hf Hl. rewrite !s_sub_eq. destruct r as [u c nm s ca kids]. cbn [with_subs i_cls i_subs tgt_of i_uid] in *.
  destruct (name_eqb n (c_alias c, None)); [reflexivity|]. rewrite Hl.
  destruct (find_kid kids' n), (find_kid kids n); cbn [option_map] in Hf; congruence.
Qed.

Lemma s_loop_app a b n :
  s_loop (a ++ b) n = match s_loop a n with Some t => Some t | None => s_loop b n end.
Proof.
  induction a as [|x r IH]; [reflexivity|]. cbn [app s_loop].
  destruct (inst_ctx x); [exact IH|]. destruct (s_sub x n); [reflexivity|exact IH].
Qed.

Lemma s_loop_map_kid l x g n :
  (forall k, find_kid l x = Some k -> inst_ctx (g k) = inst_ctx k /\ s_sub (g k) n = s_sub k n) ->
  s_loop (map_kid l x g) n = s_loop l n.
Proof.
  induction l as [|y r IH]; intro H; [reflexivity|]. cbn [map_kid find_kid] in *.
  destruct (name_eqb (i_name y) x) eqn:E.
  - destruct (H y eq_refl) as [A B]. cbn [s_loop]. rewrite A, B. reflexivity.
  - cbn [s_loop]. rewrite IH by exact H. reflexivity.
Qed.

Lemma s_loop_some l n t : s_loop l n = Some t -> exists k, In k l /\ s_sub k n = Some t.
Proof.
  induction l as [|k r IH]; [discriminate|]. cbn [s_loop].
  destruct (inst_ctx k).
  - intro H. destruct (IH H) as [k0 [A B]]. exists k0. split; [right; exact A|exact B].
  - destruct (s_sub k n) eqn:E.
    + intro H. inversion H; subst. exists k. split; [left; reflexivity|exact E].
    + intro H. destruct (IH H) as [k0 [A B]]. exists k0. split; [right; exact A|exact B].
Qed.

Fixpoint g_loop (l : list inst) (n : name) : option tgt * list inst :=
  match l with
  | [] => (None, [])
  | k :: r =>
      if inst_ctx k then let '(x, r') := g_loop r n in (x, k :: r')
      else let '(x, k') := sub_get k n in
           match x with
           | Some t => (Some t, k' :: r)
           | None => let '(y, r') := g_loop r n in (y, k' :: r')
           end
  end.

Lemma sub_get_eq i n :
  sub_get i n =
  let 'Inst u c nm s cache kids := i in
  if name_eqb n (c_alias c, None) then (Some (u, c), i)
  else match aget name_eqb cache n with
  | Some t => (Some t, i)
  | None =>
    match find_kid kids n with
    | Some k => (Some (tgt_of k), i)
    | None =>
      let '(x, kids') := g_loop kids n in
      match x with
      | Some t => (Some t, Inst u c nm s (aset name_eqb cache n t) kids')
      | None => (None, Inst u c nm s cache kids')
      end
    end
  end.
Proof.
  destruct i as [u c nm s ca kids]. cbn [sub_get].
  destruct (name_eqb n (c_alias c, None)); [reflexivity|].
  destruct (aget name_eqb ca n); [reflexivity|].
  destruct (find_kid kids n); [reflexivity|].
  match goal with |- (let '(x, kids') := ?L kids in _) = _ => assert (E : L kids = g_loop kids n) end.
  { induction kids as [|k r IH]; [reflexivity|].
    cbn [g_loop]. rewrite <- IH. reflexivity. }
  rewrite E. reflexivity.
Qed.

Fixpoint c_pop (l : list cls) (u : N) : list inst * N :=
  match l with
  | [] => ([], u)
  | s :: r =>
      if c_ctx s then c_pop r u
      else let '(i, u1) := create s (c_alias s, None) u in
           let '(is, u2) := c_pop r u1 in (i :: is, u2)
  end.

Lemma create_eq c nm u :
  create c nm u = let '(kids, u') := c_pop (c_subs c) (u + 1) in (Inst u c nm None [] kids, u').
Proof.
  destruct c as [a x hs subs]. cbn [create c_subs].
  match goal with |- (let '(kids, u') := ?L subs (u + 1) in _) = _ =>
    assert (E : forall l v, L l v = c_pop l v) end.
  { induction l as [|k r IH]; intro v; [reflexivity|].
    cbn [c_pop]. destruct (c_ctx k); [apply IH|].
    destruct (create k (c_alias k, None) v) as [i u1]. rewrite IH. reflexivity. }
  rewrite E. reflexivity.
Qed.

Definition same_hdr (i' i : inst) : Prop :=
  i_uid i' = i_uid i /\ i_cls i' = i_cls i /\ i_name i' = i_name i.

Lemma with_state_hdr i s : same_hdr (with_state i s) i.
Proof. destruct i. cbn. repeat split. Qed.
Lemma with_subs_hdr i l : same_hdr (with_subs i l) i.
Proof. destruct i. cbn. repeat split. Qed.

Lemma set_node_hdr p r j v : get_node r p = Some j -> same_hdr v j -> same_hdr (set_node r p v) r.
Proof.
  destruct p as [|x q]; cbn [get_node set_node]; intros H Hv.
  - inversion H; subst. exact Hv.
  - apply with_subs_hdr.
Qed.

(** ** Forgetting caches (and layer state): [imap fs fc] rewrites every state with [fs]
    and every cache with [fc]; [erase] forgets caches, [skel] caches and states. *)
Section IMap.
  Context (fs : option N -> option N) (fc : list (name * tgt) -> list (name * tgt)).
  Fixpoint imap (i : inst) : inst :=
    let 'Inst u c nm s ca kids := i in Inst u c nm (fs s) (fc ca) (map imap kids).

  Lemma imap_uid i : i_uid (imap i) = i_uid i. Proof. destruct i; reflexivity. Qed.
  Lemma imap_cls i : i_cls (imap i) = i_cls i. Proof. destruct i; reflexivity. Qed.
  Lemma imap_name i : i_name (imap i) = i_name i. Proof. destruct i; reflexivity. Qed.
  Lemma imap_subs i : i_subs (imap i) = map imap (i_subs i). Proof. destruct i; reflexivity. Qed.
  Lemma imap_tgt i : tgt_of (imap i) = tgt_of i.
  Proof. unfold tgt_of. rewrite imap_uid, imap_cls. reflexivity. Qed.
  Lemma imap_ctx i : inst_ctx (imap i) = inst_ctx i.
  Proof. unfold inst_ctx. rewrite imap_cls. reflexivity. Qed.

  Lemma imap_hdr i : same_hdr (imap i) i.
  Proof. destruct i. cbn. repeat split. Qed.

  Lemma find_kid_imap l n : find_kid (map imap l) n = option_map imap (find_kid l n).
  Proof.
    induction l as [|k r IH]; [reflexivity|]. cbn [map find_kid]. rewrite imap_name.
    destruct (name_eqb (i_name k) n); [reflexivity|exact IH].
  Qed.

  Lemma get_node_imap p : forall i, get_node (imap i) p = option_map imap (get_node i p).
  Proof.
    induction p as [|x q IH]; intro i; [reflexivity|].
    cbn [get_node]. rewrite imap_subs, find_kid_imap.
    destruct (find_kid (i_subs i) x); [apply IH|reflexivity].
  Qed.

  Lemma map_kid_imap l n f g : (forall k, imap (f k) = g (imap k)) ->
    map imap (map_kid l n f) = map_kid (map imap l) n g.
  Proof.
    intro H. induction l as [|k r IH]; [reflexivity|]. cbn [map map_kid]. rewrite imap_name.
    destruct (name_eqb (i_name k) n); cbn [map]; [rewrite H; reflexivity|rewrite IH; reflexivity].
  Qed.

  Lemma with_subs_imap i l : imap (with_subs i l) = with_subs (imap i) (map imap l).
  Proof. destruct i; reflexivity. Qed.

  Lemma set_node_imap p : forall i v, imap (set_node i p v) = set_node (imap i) p (imap v).
  Proof.
    induction p as [|x q IH]; intros i v; [reflexivity|].
    cbn [set_node]. rewrite with_subs_imap, imap_subs.
    rewrite (map_kid_imap _ _ _ (fun k => set_node k q (imap v))); [reflexivity|].
    intro k. apply IH.
  Qed.

  Lemma set_node_imap_eq p i j j' : get_node i p = Some j -> imap j' = imap j -> imap (set_node i p j') = imap i.
  Proof. intros H E. rewrite set_node_imap, E. apply set_node_id. rewrite get_node_imap, H. reflexivity. Qed.

  Lemma set_kid_imap l k : map imap (set_kid l k) = set_kid (map imap l) (imap k).
  Proof.
    induction l as [|x r IH]; [reflexivity|]. cbn [map set_kid]. rewrite !imap_name.
    destruct (name_eqb (i_name x) (i_name k)); cbn [map]; [reflexivity|rewrite IH; reflexivity].
  Qed.

  Lemma del_kid_imap l n : map imap (del_kid l n) = del_kid (map imap l) n.
  Proof.
    induction l as [|x r IH]; [reflexivity|]. cbn [map del_kid]. rewrite imap_name.
    destruct (name_eqb (i_name x) n); cbn [map]; [reflexivity|rewrite IH; reflexivity].
  Qed.

  Lemma live_imap i : live (imap i) = live i.
  Proof.
    induction i as [u c nm s ca kids IH] using inst_ind'. cbn [imap live]. f_equal.
    induction IH as [|k r Hk _ IHr]; [reflexivity|]. cbn [map flat_map]. rewrite Hk, IHr. reflexivity.
  Qed.

  Lemma s_loop_imap l n : Forall (fun k => s_sub (imap k) n = s_sub k n) l ->
    s_loop (map imap l) n = s_loop l n.
  Proof.
    induction 1 as [|k r Hk _ IH]; [reflexivity|]. cbn [map s_loop].
    rewrite imap_ctx, Hk, IH. reflexivity.
  Qed.

  Lemma s_sub_imap i n : s_sub (imap i) n = s_sub i n.
  Proof.
    induction i as [u c nm s ca kids IH] using inst_ind'.
    rewrite !s_sub_eq. rewrite imap_cls, imap_tgt, imap_subs, find_kid_imap.
    destruct (name_eqb n (c_alias (i_cls (Inst u c nm s ca kids)), None)); [reflexivity|].
    cbn [i_subs]. destruct (find_kid kids n); cbn [option_map]; [rewrite imap_tgt; reflexivity|].
    apply s_loop_imap. exact IH.
  Qed.

  Lemma s_full_imap rp : forall rt n, s_full (imap rt) rp n = s_full rt rp n.
  Proof.
    induction rp as [|x rp' IH]; intros rt n; cbn [s_full]; rewrite get_node_imap;
      destruct (get_node rt _); cbn [option_map]; try reflexivity; rewrite s_sub_imap.
    - reflexivity.
    - destruct (s_sub i n); [reflexivity|apply IH].
  Qed.
End IMap.

Definition erase := imap (fun s => s) (fun _ => []).
Definition skel := imap (fun _ => None) (fun _ => []).

Lemma clear_caches_erase i : clear_caches i = erase i.
Proof.
  reflexivity.
Qed.

Lemma imap_imap f1 c1 f2 c2 i :
  imap f1 c1 (imap f2 c2 i) = imap (fun s => f1 (f2 s)) (fun c => c1 (c2 c)) i.
Proof.
  induction i as [u c nm s ca kids IH] using inst_ind'. cbn [imap]. f_equal.
  rewrite map_map. apply map_ext_Forall, IH.
Qed.

Lemma erase_erase i : erase (erase i) = erase i.
Proof. unfold erase. rewrite imap_imap. reflexivity. Qed.
Lemma skel_erase i : skel (erase i) = skel i.
Proof. unfold erase, skel. rewrite imap_imap. reflexivity. Qed.

Lemma save_erase i : save (erase i) = save i.
Proof.
  induction i as [u c nm s ca kids IH] using inst_ind'. cbn [erase imap save]. f_equal.
  rewrite map_map. apply map_ext_Forall, IH.
Qed.

(** the [imap] lemmas at [erase], in the form [rewrite] finds them *)
Lemma set_kid_erase l k : map erase (set_kid l k) = set_kid (map erase l) (erase k).
Proof. apply set_kid_imap. Qed.
Lemma del_kid_erase l n : map erase (del_kid l n) = del_kid (map erase l) n.
Proof. apply del_kid_imap. Qed.
Lemma erase_subs i : i_subs (erase i) = map erase (i_subs i).
Proof. apply imap_subs. Qed.
Lemma erase_with_subs i l : erase (with_subs i l) = with_subs (erase i) (map erase l).
Proof. apply with_subs_imap. Qed.
Lemma erase_set_node p i v : erase (set_node i p v) = set_node (erase i) p (erase v).
Proof. apply set_node_imap. Qed.
Lemma get_node_erase p i : get_node (erase i) p = option_map erase (get_node i p).
Proof. apply get_node_imap. Qed.
Lemma find_kid_erase l n : find_kid (map erase l) n = option_map erase (find_kid l n).
Proof. apply find_kid_imap. Qed.
Lemma live_erase i : live (erase i) = live i.
Proof. apply live_imap. Qed.
Lemma erase_hdr i : same_hdr (erase i) i.
Proof. apply imap_hdr. Qed.

Lemma skel_eq_hdr i j : skel i = skel j -> same_hdr i j.
Proof.
  intro H. destruct (imap_hdr (fun _ => None) (fun _ => []) i) as [A [B C]].
  destruct (imap_hdr (fun _ => None) (fun _ => []) j) as [A' [B' C']]. fold skel in *.
  rewrite H in *. repeat split; congruence.
Qed.

Lemma set_node_skel p i j j' : get_node i p = Some j -> skel j' = skel j -> skel (set_node i p j') = skel i.
Proof. apply set_node_imap_eq. Qed.
Lemma set_node_erase p i j j' : get_node i p = Some j -> erase j' = erase j -> erase (set_node i p j') = erase i.
Proof. apply set_node_imap_eq. Qed.

Lemma get_node_erase_eq r1 r2 p : erase r1 = erase r2 ->
  option_map erase (get_node r1 p) = option_map erase (get_node r2 p).
Proof. intro H. rewrite <- !get_node_erase, H. reflexivity. Qed.

Lemma with_state_live i s : live (with_state i s) = live i.
Proof. destruct i. reflexivity. Qed.
Lemma with_state_cache i s : i_cache (with_state i s) = i_cache i.
Proof. destruct i. reflexivity. Qed.
Lemma with_state_subs i s : i_subs (with_state i s) = i_subs i.
Proof. destruct i. reflexivity. Qed.
Lemma with_state_erase i s : erase (with_state i s) = with_state (erase i) s.
Proof. destruct i; reflexivity. Qed.
Lemma with_state_skel i s : skel (with_state i s) = skel i.
Proof. destruct i; reflexivity. Qed.
Lemma cache_set_erase i n t : erase (cache_set i n t) = erase i.
Proof. destruct i; reflexivity. Qed.
Lemma cache_set_skel i n t : skel (cache_set i n t) = skel i.
Proof. destruct i; reflexivity. Qed.

Lemma skel_eq_inv {A} (g : inst -> A) : (forall i, g (skel i) = g i) ->
  forall i j, skel i = skel j -> g i = g j.
Proof. intros G i j H. rewrite <- (G i), <- (G j), H. reflexivity. Qed.

Lemma s_sub_skel_eq i j n : skel i = skel j -> s_sub i n = s_sub j n.
Proof. apply (skel_eq_inv (fun z => s_sub z n)). intro. apply s_sub_imap. Qed.
Lemma s_full_skel_eq r1 r2 rp n : skel r1 = skel r2 -> s_full r1 rp n = s_full r2 rp n.
Proof. apply (skel_eq_inv (fun z => s_full z rp n)). intro. apply s_full_imap. Qed.
Lemma live_skel_eq i j : skel i = skel j -> live i = live j.
Proof. apply (skel_eq_inv live). intro. apply live_imap. Qed.

(** ** Cache validity: every memoised entry equals the uncached scoped lookup *)
Definition s_fullo (o : option tgt) (i : inst) (n : name) : option tgt :=
  match s_sub i n with Some t => Some t | None => o end.

(** validity of the caches of [i] and of everything below it, given what lies outside [i]:
    [o n] = what the parent's [get_layer(n)] yields; [cache_ok] is the case of the root, [o n] = None *)
Fixpoint cache_okd (o : name -> option tgt) (i : inst) : Prop :=
  (forall n t, aget name_eqb (i_cache i) n = Some t -> s_fullo (o n) i n = Some t) /\
  (let 'Inst _ _ _ _ _ kids := i in
   (fix all (l : list inst) : Prop :=
      match l with
      | [] => True
      | k :: r => cache_okd (fun n => s_fullo (o n) i n) k /\ all r
      end) kids).

Lemma cache_okd_eq o i :
  cache_okd o i <->
  (forall n t, aget name_eqb (i_cache i) n = Some t -> s_fullo (o n) i n = Some t) /\
  Forall (cache_okd (fun n => s_fullo (o n) i n)) (i_subs i).
Proof.
  destruct i as [u c nm s ca kids]. cbn [cache_okd i_subs i_cache].
  set (i := Inst u c nm s ca kids).
  assert (E : forall l,
    (fix all (l : list inst) : Prop :=
       match l with [] => True | k :: r => cache_okd (fun n => s_fullo (o n) i n) k /\ all r end) l
    <-> Forall (cache_okd (fun n => s_fullo (o n) i n)) l).
  { induction l as [|k r IH]; split; intro H.
    - constructor.
    - exact I.
    - destruct H as [H1 H2]. constructor; [exact H1|apply IH; exact H2].
    - inversion H; subst. split; [assumption|apply IH; assumption]. }
  rewrite E. reflexivity.
Qed.

Lemma cache_okd_mono i : forall o o', (forall n t, o n = Some t -> o' n = Some t) ->
  cache_okd o i -> cache_okd o' i.
Proof.
  induction i as [u c nm s ca kids IH] using inst_ind'. intros o o' M H.
  set (i0 := Inst u c nm s ca kids) in *.
  assert (M' : forall n t, s_fullo (o n) i0 n = Some t -> s_fullo (o' n) i0 n = Some t).
  { intros n t. unfold s_fullo. destruct (s_sub i0 n); [auto|apply M]. }
  apply cache_okd_eq in H. apply cache_okd_eq. destruct H as [H1 H2]. split.
  - intros n t Hn. apply M', H1, Hn.
  - cbn [i_subs] in *. rewrite Forall_forall in *. intros k Hk. apply (IH k Hk _ _ M'), H2, Hk.
Qed.

Lemma s_fullo_skel_eq o i j n : skel i = skel j -> s_fullo o i n = s_fullo o j n.
Proof. intro H. unfold s_fullo. rewrite (s_sub_skel_eq i j n H). reflexivity. Qed.

Lemma erase_skel_eq i j : erase i = erase j -> skel i = skel j.
Proof. intro H. rewrite <- (skel_erase i), <- (skel_erase j), H. reflexivity. Qed.

Lemma cache_okd_as o i i' : skel i' = skel i ->
  (forall n t, aget name_eqb (i_cache i') n = Some t -> s_fullo (o n) i n = Some t) ->
  Forall (cache_okd (fun n => s_fullo (o n) i n)) (i_subs i') -> cache_okd o i'.
Proof.
  intros Hsk Hc Hk. apply cache_okd_eq. split.
  - intros n t Hn. rewrite (s_fullo_skel_eq _ _ i _ Hsk). apply Hc, Hn.
  - rewrite Forall_forall in *. intros k Hin.
    apply (cache_okd_mono k (fun n => s_fullo (o n) i n)); [|apply Hk, Hin].
    intros n t. rewrite (s_fullo_skel_eq _ i' i n Hsk). auto.
Qed.

Lemma cache_okd_erase i : forall o, cache_okd o (erase i).
Proof.
  induction i as [u c nm s ca kids IH] using inst_ind'. intro o.
  apply cache_okd_eq. split.
  - intros n t H. discriminate H.
  - cbn [erase imap i_subs]. rewrite Forall_forall in *. intros k Hk.
    apply in_map_iff in Hk. destruct Hk as [k0 [<- Hk0]]. apply IH. exact Hk0.
Qed.

Lemma erased_cache_ok o i : erase i = i -> cache_okd o i.
Proof. intros <-. apply cache_okd_erase. Qed.

Lemma cache_set_ok o j n t : cache_okd o j -> s_fullo (o n) j n = Some t -> cache_okd o (cache_set j n t).
Proof.
  intros Hok Hn. apply cache_okd_eq in Hok. destruct Hok as [Hc Hk].
  apply (cache_okd_as o j); [apply cache_set_skel| |destruct j; exact Hk].
  destruct j as [u c nm s ca kids]. cbn [cache_set i_cache] in *. intros n0 t0 H0.
  rewrite (aget_aset name_eqb name_eqb_eq) in H0. destruct (name_eqb n n0) eqn:E; [|apply Hc; exact H0].
  apply name_eqb_eq in E. subst n0. inversion H0; subst. exact Hn.
Qed.

Lemma s_fullo_sub o i n t : s_sub i n = Some t -> s_fullo o i n = Some t.
Proof. unfold s_fullo. intros ->. reflexivity. Qed.
Lemma s_fullo_None i n : s_fullo None i n = s_sub i n.
Proof. unfold s_fullo. destruct (s_sub i n); reflexivity. Qed.

(** steps 1-4 of [get_layer] answer as the uncached search below the object does, or, when the search
    meets an entry that a sub-layer memoised from its parent, as the search from above ([o n]) does *)
Definition sub_get_stmt (i : inst) : Prop :=
  forall o n x i', cache_okd o i -> sub_get i n = (x, i') ->
    erase i' = erase i /\ cache_okd o i' /\ (x = s_sub i n \/ x = s_fullo (o n) i n).

Lemma g_loop_ok l : Forall sub_get_stmt l ->
  forall o n x l', Forall (cache_okd o) l -> g_loop l n = (x, l') ->
    map erase l' = map erase l /\ Forall (cache_okd o) l' /\
    (x = s_loop l n \/ x = o n).
Proof.
  induction 1 as [|k r Hk _ IH]; intros o n x l' Hok E.
  - cbn [g_loop] in E. inversion E; subst. split; [reflexivity|]. split; [constructor|]. left. reflexivity.
  - inversion Hok as [|? ? Hok1 Hok2]; subst. cbn [g_loop s_loop] in *.
    destruct (inst_ctx k).
    + destruct (g_loop r n) as [y r'] eqn:Er.
      destruct (IH o n y r' Hok2 Er) as [A [B D]]. inversion E; subst.
      split; [cbn [map]; rewrite A; reflexivity|]. split; [constructor; assumption|exact D].
    + destruct (sub_get k n) as [xk k'] eqn:Ek.
      destruct (Hk o n xk k' Hok1 Ek) as [A [B D]]. unfold s_fullo in D.
      destruct xk as [t|].
      * inversion E; subst. split; [cbn [map]; rewrite A; reflexivity|].
        split; [constructor; assumption|].
        destruct (s_sub k n) as [t0|].
        -- left. destruct D; assumption.
        -- right. destruct D as [D|D]; [discriminate D|exact D].
      * destruct (s_sub k n) as [t0|]; [destruct D; discriminate|].
        destruct (g_loop r n) as [y r'] eqn:Er.
        destruct (IH o n y r' Hok2 Er) as [A' [B' D']]. inversion E; subst.
        split; [cbn [map]; rewrite A, A'; reflexivity|]. split; [constructor; assumption|exact D'].
Qed.

Lemma sub_get_ok i : sub_get_stmt i.
Proof.
  induction i as [u c nm s ca kids IH] using inst_ind'.
  intros o n x i' Hok E. rewrite sub_get_eq in E. rewrite s_sub_eq.
  pose proof Hok as Hok'. apply cache_okd_eq in Hok'. destruct Hok' as [Hc Hk].
  cbn [i_cls i_subs i_cache tgt_of i_uid] in *.
  destruct (name_eqb n (c_alias c, None)) eqn:E1.
  { inversion E; subst. split; [reflexivity|]. split; [exact Hok|left; reflexivity]. }
  destruct (aget name_eqb ca n) as [t|] eqn:E2.
  { inversion E; subst. split; [reflexivity|]. split; [exact Hok|]. right. symmetry. exact (Hc n t E2). }
  destruct (find_kid kids n) as [k|] eqn:E3.
  { inversion E; subst. split; [reflexivity|]. split; [exact Hok|left; reflexivity]. }
  destruct (g_loop kids n) as [y kids'] eqn:E4.
  set (i0 := Inst u c nm s ca kids) in *.
  destruct (g_loop_ok kids IH (fun n => s_fullo (o n) i0 n) n y kids' Hk E4) as [A [B R]].
  (* [j]: the object once its sub-layers have searched, before the answer is memoised in its own cache *)
  set (j := Inst u c nm s ca kids').
  assert (He : erase j = erase i0) by (unfold j, i0; cbn [erase imap]; f_equal; exact A).
  assert (Hj : cache_okd o j) by (apply (cache_okd_as o i0); [apply erase_skel_eq, He|exact Hc|exact B]).
  destruct y as [t|]; inversion E; subst x i'; [|auto].
  change (Inst u c nm s (aset name_eqb ca n t) kids') with (cache_set j n t).
  split; [rewrite cache_set_erase; exact He|]. split; [|exact R].
  apply cache_set_ok; [exact Hj|]. rewrite (s_fullo_skel_eq _ j i0 n (erase_skel_eq _ _ He)).
  destruct R as [R|R]; [|symmetry; exact R].
  apply s_fullo_sub. rewrite s_sub_eq. unfold i0. cbn [i_cls i_subs]. rewrite E1, E3. symmetry. exact R.
Qed.

(** the value of the parent's lookup, seen from the layer at path [p] below [i] *)
Fixpoint outer_f (o : name -> option tgt) (i : inst) (p : path) : name -> option tgt :=
  match p with
  | [] => o
  | x :: q => match find_kid (i_subs i) x with
              | Some k => outer_f (fun n => s_fullo (o n) i n) k q
              | None => o
              end
  end.

Lemma outer_f_snoc p : forall o i j x k n,
  get_node i p = Some j -> find_kid (i_subs j) x = Some k ->
  outer_f o i (p ++ [x]) n = s_fullo (outer_f o i p n) j n.
Proof.
  induction p as [|y q IH]; intros o i j x k n H1 H2; cbn [app outer_f get_node] in *.
  - inversion H1; subst. rewrite H2. reflexivity.
  - destruct (find_kid (i_subs i) y) as [k0|]; [|discriminate]. eapply IH; eassumption.
Qed.

Lemma s_full_eq rt rp n :
  s_full rt rp n =
  match get_node rt (rev rp) with
  | None => None
  | Some i => s_fullo (match rp with [] => None | _ :: rp' => s_full rt rp' n end) i n
  end.
Proof. destruct rp; reflexivity. Qed.

Lemma outer_parent x rp' rt i n : get_node rt (rev (x :: rp')) = Some i ->
  outer_f (fun _ => None) rt (rev (x :: rp')) n = s_full rt rp' n.
Proof.
  revert x i. induction rp' as [|y rp'' IH]; intros x i H.
  all: cbn [rev] in H; rewrite get_node_snoc in H.
  all: destruct (get_node rt _) as [j|] eqn:Ej; [|discriminate].
  (* [j] is the parent; both sides are [s_fullo _ j n] of the parent's own context: none at the root *)
  all: cbn [rev]; rewrite (outer_f_snoc _ _ _ j x i n Ej H), s_full_eq; cbn [rev]; rewrite Ej; f_equal.
  apply (IH y j Ej).
Qed.

Lemma cache_okd_node p : forall o i j, cache_okd o i -> get_node i p = Some j -> cache_okd (outer_f o i p) j.
Proof.
  induction p as [|x q IH]; intros o i j Hok H; cbn [get_node outer_f] in *.
  - inversion H; subst. exact Hok.
  - destruct (find_kid (i_subs i) x) as [k|] eqn:Ek; [|discriminate].
    apply cache_okd_eq in Hok. destruct Hok as [_ Hk]. rewrite Forall_forall in Hk.
    apply IH; [|exact H]. apply Hk. apply (find_kid_in _ _ _ Ek).
Qed.

Lemma outer_f_skel p : forall o o' i i' n, (forall m, o m = o' m) -> skel i = skel i' ->
  outer_f o i p n = outer_f o' i' p n.
Proof.
  induction p as [|x q IH]; intros o o' i i' n Eo Es; cbn [outer_f].
  - apply Eo.
  - assert (F : option_map skel (find_kid (i_subs i) x) = option_map skel (find_kid (i_subs i') x)).
    { unfold skel. rewrite <- !find_kid_imap, <- !imap_subs. fold skel. rewrite Es. reflexivity. }
    destruct (find_kid (i_subs i) x) as [k|], (find_kid (i_subs i') x) as [k'|]; try discriminate F.
    + inversion F. apply IH; [|assumption]. intro m. rewrite Eo. apply s_fullo_skel_eq. exact Es.
    + apply Eo.
Qed.

Lemma set_node_ok p : forall o i j j',
  cache_okd o i -> get_node i p = Some j -> skel j' = skel j ->
  cache_okd (outer_f o i p) j' -> cache_okd o (set_node i p j').
Proof.
  induction p as [|x q IH]; intros o i j j' Hok H Es Hj; [exact Hj|].
  pose proof (set_node_skel (x :: q) i j j' H Es) as Hsk.
  cbn [get_node set_node outer_f] in *.
  destruct (find_kid (i_subs i) x) as [k|] eqn:Ek; [|discriminate].
  apply cache_okd_eq in Hok. destruct Hok as [Hc Hk].
  apply (cache_okd_as o i); [exact Hsk|destruct i; exact Hc|].
  destruct i as [u c nm s ca kids]. cbn [with_subs i_subs] in *.
  apply (map_kid_forall _ _ kids x _ k Ek Hk); [auto|].
  intro Hy. apply (IH _ k j j' Hy H Es Hj).
Qed.

Lemma with_state_ok o i s : cache_okd o i -> cache_okd o (with_state i s).
Proof.
  intro H. apply cache_okd_eq in H. destruct H as [H1 H2].
  apply (cache_okd_as o i); [apply with_state_skel|rewrite with_state_cache; exact H1|rewrite with_state_subs; exact H2].
Qed.

Definition cache_ok (rt : inst) : Prop := cache_okd (fun _ => None) rt.

(** ** [get_layer] returns what the uncached scoped lookup returns, and keeps caches valid *)
Lemma full_get_eq rt rp n :
  full_get rt rp n =
  match get_node rt (rev rp) with
  | None => (None, rt)
  | Some i =>
    let '(x, i') := sub_get i n in
    let rt1 := set_node rt (rev rp) i' in
    match x with
    | Some t => (Some t, rt1)
    | None =>
      match rp with
      | [] => (None, rt1)
      | _ :: rp' =>
        let '(y, rt2) := full_get rt1 rp' n in
        match y with
        | Some t => (Some t, match get_node rt2 (rev rp) with
                             | Some j => set_node rt2 (rev rp) (cache_set j n t)
                             | None => rt2 end)
        | None => (None, rt2)
        end
      end
    end
  end.
Proof. destruct rp; reflexivity. Qed.

Lemma sub_get_at rt p i n x i' : cache_ok rt -> get_node rt p = Some i -> sub_get i n = (x, i') ->
  erase (set_node rt p i') = erase rt /\ cache_ok (set_node rt p i') /\
  (x = s_sub i n \/ x = s_fullo (outer_f (fun _ => None) rt p n) i n).
Proof.
  intros Hok Ei Es. destruct (sub_get_ok i _ n x i' (cache_okd_node _ _ _ _ Hok Ei) Es) as [A [B R]].
  split; [exact (set_node_erase _ _ _ _ Ei A)|]. split; [|exact R].
  apply (set_node_ok _ _ _ i); [exact Hok|exact Ei|apply erase_skel_eq; exact A|exact B].
Qed.

Lemma full_get_ok rp : forall rt n x rt',
  cache_ok rt -> full_get rt rp n = (x, rt') ->
  x = s_full rt rp n /\ erase rt' = erase rt /\ cache_ok rt'.
Proof.
  induction rp as [|y rp' IH]; intros rt n x rt' Hok E.
  all: rewrite full_get_eq in E; rewrite s_full_eq.
  all: destruct (get_node rt (rev _)) as [i|] eqn:Ei; [|inversion E; subst; auto].
  all: destruct (sub_get i n) as [x0 i'] eqn:Es.
  all: destruct (sub_get_at _ _ _ _ _ _ Hok Ei Es) as [He1 [Hok1 R]]; cbv zeta in E.
  - (* the root has no parent to ask *)
    cbn [rev outer_f] in R. rewrite s_fullo_None in *.
    destruct x0 as [t|]; inversion E; subst x rt'; destruct R; auto.
  - rewrite (outer_parent y rp' rt i n Ei) in R.
    destruct x0 as [t|].
    { inversion E; subst x rt'. split; [|split; assumption].
      destruct R as [R|R]; [symmetry; apply s_fullo_sub|]; congruence. }
    assert (Sn : s_sub i n = None).
    { destruct R as [R|R]; [congruence|]. unfold s_fullo in R. destruct (s_sub i n); [discriminate R|reflexivity]. }
    unfold s_fullo. rewrite Sn. set (p := rev (y :: rp')) in *.
    destruct (full_get (set_node rt p i') rp' n) as [y0 rt2] eqn:Ef.
    destruct (IH _ n y0 rt2 Hok1 Ef) as [Y [He2 Hok2]].
    assert (Ert : erase rt2 = erase rt) by (rewrite He2; exact He1).
    assert (Y' : y0 = s_full rt rp' n).
    { rewrite Y. apply s_full_skel_eq, erase_skel_eq. exact He1. }
    destruct y0 as [t|]; inversion E; subst x rt'; (split; [exact Y'|]); [|split; assumption].
    (* the parent's answer is memoised in the layer at [p] of the stack the parent returned *)
    pose proof (get_node_erase_eq rt2 rt p Ert) as Hg. rewrite Ei in Hg.
    destruct (get_node rt2 p) as [j|] eqn:Ej; [|discriminate Hg]. injection Hg as Hj.
    split.
    + rewrite (set_node_erase _ _ j); [exact Ert|exact Ej|apply cache_set_erase].
    + apply (set_node_ok _ _ _ j); [exact Hok2|exact Ej|apply cache_set_skel|].
      apply cache_set_ok; [apply cache_okd_node; assumption|].
      unfold s_fullo. rewrite (s_sub_skel_eq j i n (erase_skel_eq _ _ Hj)), Sn.
      unfold p. rewrite (outer_parent y rp' rt2 j n Ej), Y'.
      apply s_full_skel_eq, erase_skel_eq. exact Ert.
Qed.

(** ** Counting live objects that satisfy a test *)
Section Counting.
  Local Open Scope nat_scope.
  Context (f : N * name -> bool).

  Definition b2n (b : bool) : nat := if b then 1 else 0.
  Definition lcnt (i : inst) : nat := length (filter f (live i)).
  Fixpoint lcntL (l : list inst) : nat :=
    match l with [] => 0 | k :: r => lcnt k + lcntL r end.

  Lemma filter_flat_map_len l : length (filter f (flat_map live l)) = lcntL l.
  Proof.
    induction l as [|k r IH]; [reflexivity|]. cbn [flat_map lcntL].
    rewrite filter_app, app_length, IH. reflexivity.
  Qed.

  Lemma lcnt_inst u c nm s ca kids : lcnt (Inst u c nm s ca kids) = b2n (f (u, nm)) + lcntL kids.
  Proof.
    unfold lcnt. cbn [live filter]. destruct (f (u, nm)); cbn [length b2n];
      rewrite filter_flat_map_len; reflexivity.
  Qed.

  Lemma lcnt_eq i : lcnt i = b2n (f (i_uid i, i_name i)) + lcntL (i_subs i).
  Proof. destruct i. apply lcnt_inst. Qed.

  Lemma lcnt_with_subs i l : lcnt (with_subs i l) = b2n (f (i_uid i, i_name i)) + lcntL l.
  Proof. destruct i. apply lcnt_inst. Qed.

  Lemma lcntL_app a b : lcntL (a ++ b) = lcntL a + lcntL b.
  Proof. induction a as [|k r IH]; [reflexivity|]. cbn [app lcntL]. rewrite IH. lia. Qed.

  Lemma lcnt_erase i : lcnt (erase i) = lcnt i.
  Proof. unfold lcnt. rewrite live_erase. reflexivity. Qed.

  Lemma set_kid_replace l k k' : find_kid l (i_name k') = Some k ->
    lcntL (set_kid l k') + lcnt k = lcntL l + lcnt k'.
  Proof.
    induction l as [|x r IH]; [discriminate|]. cbn [find_kid set_kid].
    destruct (name_eqb (i_name x) (i_name k')); intro H.
    - inversion H; subst. cbn [lcntL]. lia.
    - cbn [lcntL]. specialize (IH H). lia.
  Qed.

  Lemma del_kid_cnt l n k : find_kid l n = Some k -> lcntL (del_kid l n) + lcnt k = lcntL l.
  Proof.
    induction l as [|x r IH]; [discriminate|]. cbn [find_kid del_kid].
    destruct (name_eqb (i_name x) n); intro H.
    - inversion H; subst. cbn [lcntL]. lia.
    - cbn [lcntL]. specialize (IH H). lia.
  Qed.

  Lemma map_kid_cnt l x g k : find_kid l x = Some k ->
    lcntL (map_kid l x g) + lcnt k = lcntL l + lcnt (g k).
  Proof.
    induction l as [|y r IH]; [discriminate|]. cbn [find_kid map_kid].
    destruct (name_eqb (i_name y) x); intro H.
    - inversion H; subst. cbn [lcntL]. lia.
    - cbn [lcntL]. specialize (IH H). lia.
  Qed.

  Lemma find_kid_cnt_le l n k : find_kid l n = Some k -> lcnt k <= lcntL l.
  Proof. intro H. pose proof (del_kid_cnt l n k H). lia. Qed.

  Lemma set_node_cnt p : forall r j v, get_node r p = Some j ->
    lcnt (set_node r p v) + lcnt j = lcnt r + lcnt v.
  Proof.
    induction p as [|x q IH]; intros r j v H; cbn [get_node set_node] in *.
    - inversion H; subst. lia.
    - destruct (find_kid (i_subs r) x) as [k|] eqn:Ek; [|discriminate].
      rewrite lcnt_with_subs, (lcnt_eq r).
      pose proof (map_kid_cnt (i_subs r) x (fun k0 => set_node k0 q v) k Ek).
      pose proof (IH k j v H). lia.
  Qed.

  Lemma get_node_cnt_le p : forall r j, get_node r p = Some j -> lcnt j <= lcnt r.
  Proof.
    induction p as [|x q IH]; intros r j H; cbn [get_node] in *.
    - inversion H; subst. lia.
    - destruct (find_kid (i_subs r) x) as [k|] eqn:Ek; [|discriminate].
      pose proof (IH k j H). pose proof (find_kid_cnt_le _ _ _ Ek). rewrite (lcnt_eq r). lia.
  Qed.
End Counting.

(** tests on live objects: by name, by uid *)
Definition fn (n : name) (x : N * name) : bool := name_eqb (snd x) n.
Definition fu (u : N) (x : N * name) : bool := N.eqb (fst x) u.

(** the uids handed out between two readings of the allocator *)
Definition in_range (a v b : N) : bool := (a <=? v) && (v <? b).

Lemma in_range_spec a v b : if in_range a v b then a <= v < b else v < a \/ b <= v.
Proof. unfold in_range. destruct (N.leb_spec a v), (N.ltb_spec v b); cbn; lia. Qed.

Lemma in_range_split a b c v : a <= b -> b <= c ->
  (b2n (in_range a v b) + b2n (in_range b v c))%nat = b2n (in_range a v c).
Proof.
  intros H1 H2. pose proof (in_range_spec a v b). pose proof (in_range_spec b v c).
  pose proof (in_range_spec a v c).
  destruct (in_range a v b), (in_range b v c), (in_range a v c); cbn; lia.
Qed.

Lemma create_hdr c nm u : i_uid (fst (create c nm u)) = u /\ i_cls (fst (create c nm u)) = c
  /\ i_name (fst (create c nm u)) = nm /\ i_cache (fst (create c nm u)) = [] /\ i_state (fst (create c nm u)) = None.
Proof. rewrite create_eq. destruct (c_pop (c_subs c) (u + 1)). cbn. auto. Qed.

Definition create_stmt (c : cls) : Prop :=
  forall nm u, let '(i, u') := create c nm u in
    erase i = i /\ (u < u')%N /\
    (forall n, snd n <> None -> lcnt (fn n) i = b2n (name_eqb nm n)) /\
    (forall v, lcnt (fu v) i = b2n ((u <=? v)%N && (v <? u')%N)).

Lemma c_pop_ok l : Forall create_stmt l -> forall u,
  let '(kids, u') := c_pop l u in
    map erase kids = kids /\ (u <= u')%N /\
    (forall n, snd n <> None -> lcntL (fn n) kids = 0%nat) /\
    (forall v, lcntL (fu v) kids = b2n (in_range u v u')).
Proof.
  induction 1 as [|c r Hc _ IH]; intro u; cbn [c_pop].
  - split; [reflexivity|]. split; [lia|]. split; [reflexivity|].
    intro v. pose proof (in_range_spec u v u). destruct (in_range u v u); [lia|reflexivity].
  - destruct (c_ctx c); [apply IH|].
    specialize (Hc (c_alias c, None) u). destruct (create c (c_alias c, None) u) as [i u1].
    specialize (IH u1). destruct (c_pop r u1) as [is u2].
    destruct Hc as [A1 [A2 [A3 A4]]]. destruct IH as [B1 [B2 [B3 B4]]].
    split; [cbn [map]; rewrite A1, B1; reflexivity|]. split; [lia|]. split.
    + intros n Hn. cbn [lcntL]. rewrite A3, B3 by exact Hn.
      destruct n as [a [k|]]; [|contradiction]. unfold name_eqb. cbn. rewrite andb_false_r. reflexivity.
    + intro v. cbn [lcntL]. rewrite A4, B4. apply in_range_split; lia.
Qed.

Lemma create_ok c : create_stmt c.
Proof.
  induction c as [a x hs subs IH] using cls_ind'. intros nm u. rewrite create_eq. cbn [c_subs].
  pose proof (c_pop_ok subs IH (u + 1)) as H. destruct (c_pop subs (u + 1)) as [kids u'].
  destruct H as [A1 [A2 [A3 A4]]].
  split; [cbn [erase imap]; f_equal; exact A1|]. split; [lia|]. split.
  - intros n Hn. rewrite lcnt_inst, A3 by exact Hn. unfold fn. cbn [snd]. lia.
  - intro v. rewrite lcnt_inst, A4. unfold fu. cbn [fst].
    (* the object itself takes [u], its sub-layers the rest *)
    fold (in_range u v u'). rewrite <- (in_range_split u (u + 1) u' v) by lia. f_equal. f_equal.
    pose proof (in_range_spec u v (u + 1)). destruct (N.eqb_spec u v), (in_range u v (u + 1)); lia.
Qed.

Record created (c : cls) (nm : name) (u : N) (i : inst) (u' : N) : Prop := mkCreated {
  cr_cls : i_cls i = c;
  cr_name : i_name i = nm;
  cr_erased : erase i = i;
  cr_lt : u < u';
  cr_names : forall n, snd n <> None -> lcnt (fn n) i = b2n (name_eqb nm n);
  cr_uids : forall v, lcnt (fu v) i = b2n (in_range u v u')
}.
Arguments cr_cls {c nm u i u'}.
Arguments cr_name {c nm u i u'}.
Arguments cr_erased {c nm u i u'}.

Lemma create_spec {c nm u i u'} : create c nm u = (i, u') -> created c nm u i u'.
Proof.
  intro E. pose proof (create_ok c nm u) as H. pose proof (create_hdr c nm u) as [_ [Hc [Hn _]]].
  rewrite E in *. destruct H as [A [B [C D]]]. constructor; assumption.
Qed.

Lemma fresh_no_inst c nm u i u' : create c nm u = (i, u') -> snd nm = None ->
  forall a k, lcnt (fn (a, Some k)) i = 0%nat.
Proof.
  intros E Hn a k. destruct (create_spec E) as [_ _ _ _ H _]. rewrite H by discriminate.
  destruct nm as [ra rk]. cbn [snd] in Hn. subst rk. unfold name_eqb. cbn. rewrite andb_false_r. reflexivity.
Qed.

(** ** what a successful sub-tree lookup returns is a live object carrying that name *)
Lemma live_kid k i : In k (i_subs i) -> incl (live k) (live i).
Proof.
  destruct i as [u c nm s ca kids]. cbn [i_subs live]. intros H x Hx. right.
  apply in_flat_map. exists k. split; assumption.
Qed.

Lemma live_self i : In (i_uid i, i_name i) (live i).
Proof. destruct i. left. reflexivity. Qed.

Lemma s_sub_live i : forall n t, s_sub i n = Some t ->
  exists nm, In (fst t, nm) (live i) /\ (nm = n \/ snd n = None).
Proof.
  induction i as [u c nm s ca kids IH] using inst_ind'. intros n t H.
  rewrite s_sub_eq in H. cbn [i_cls i_subs] in H.
  destruct (name_eqb n (c_alias c, None)) eqn:E1.
  { inversion H; subst. exists nm. split; [left; reflexivity|]. right.
    apply name_eqb_eq in E1. subst n. reflexivity. }
  destruct (find_kid kids n) as [k|] eqn:E2.
  { inversion H; subst. destruct (find_kid_in _ _ _ E2) as [A B]. exists (i_name k). split; [|left; exact B].
    apply (live_kid k (Inst u c nm s ca kids) A). apply live_self. }
  destruct (s_loop_some _ _ _ H) as [k [A B]].
  rewrite Forall_forall in IH. destruct (IH k A n t B) as [nm' [C D]].
  exists nm'. split; [|exact D]. apply (live_kid k (Inst u c nm s ca kids) A). exact C.
Qed.

Lemma get_node_live p : forall r j, get_node r p = Some j -> incl (live j) (live r).
Proof.
  induction p as [|x q IH]; intros r j H; cbn [get_node] in *.
  - inversion H; subst. apply incl_refl.
  - destruct (find_kid (i_subs r) x) as [k|] eqn:Ek; [|discriminate].
    apply (incl_tran (IH k j H)). apply live_kid. apply (find_kid_in _ _ _ Ek).
Qed.

Lemma s_full_live rp : forall rt n t, s_full rt rp n = Some t ->
  exists nm, In (fst t, nm) (live rt) /\ (nm = n \/ snd n = None).
Proof.
  induction rp as [|x rp' IH]; intros rt n t H; cbn [s_full] in H;
    destruct (get_node rt _) as [i|] eqn:Ei; try discriminate.
  - destruct (s_sub i n) eqn:Es; [|discriminate]. inversion H; subst.
    destruct (s_sub_live _ _ _ Es) as [nm [A B]]. exists nm. split; [|exact B].
    apply (get_node_live _ _ _ Ei). exact A.
  - destruct (s_sub i n) eqn:Es.
    + inversion H; subst. destruct (s_sub_live _ _ _ Es) as [nm [A B]]. exists nm. split; [|exact B].
      apply (get_node_live _ _ _ Ei). exact A.
    + apply IH. exact H.
Qed.

Lemma lcnt_pos_in f i : (0 < lcnt f i)%nat <-> exists x, In x (live i) /\ f x = true.
Proof.
  unfold lcnt. split.
  - intro H. destruct (filter f (live i)) as [|x r] eqn:E; [cbn in H; lia|].
    exists x. apply filter_In. rewrite E. left. reflexivity.
  - intros [x Hx]. apply filter_In in Hx. destruct (filter f (live i)); [contradiction|cbn; lia].
Qed.

(** ** Adding a freshly named contextual instance keeps every cache valid
    [n0] is the new name.  No live object carries it and the lookup from above fails for it, so it
    has no answer anywhere; cache entries are answers, hence none is for [n0], and the answers for
    all other names do not change. *)
Lemma s_sub_none_of_cnt i n : snd n <> None -> lcnt (fn n) i = 0%nat -> s_sub i n = None.
Proof.
  intros Hs Hc. destruct (s_sub i n) as [t|] eqn:E; [|reflexivity]. exfalso.
  destruct (s_sub_live _ _ _ E) as [nm [A [B|B]]]; [|contradiction].
  assert (0 < lcnt (fn n) i)%nat; [|lia]. apply lcnt_pos_in. exists (fst t, nm). split; [exact A|].
  unfold fn. cbn [snd]. subst. apply name_eqb_refl.
Qed.

Lemma answers_except n0 (f g : name -> option tgt) :
  (forall n, n <> n0 -> f n = g n) -> f n0 = None -> forall n t, f n = Some t -> g n = Some t.
Proof. intros E H0 n t H. rewrite <- E; [exact H|]. intro. subst n. congruence. Qed.

Lemma s_sub_set_node n p : forall r j j', get_node r p = Some j -> same_hdr j' j ->
  s_sub j' n = s_sub j n -> s_sub (set_node r p j') n = s_sub r n.
Proof.
  induction p as [|x q IH]; intros r j j' H Hh Hs; cbn [get_node set_node] in *.
  - inversion H; subst j. exact Hs.
  - destruct (find_kid (i_subs r) x) as [k|] eqn:Ek; [|discriminate].
    destruct (set_node_hdr q k j j' H Hh) as [A [B C]].
    apply s_sub_with_subs; [apply find_kid_map_kid_tgt|apply s_loop_map_kid];
      intros k0 Hk0; rewrite Ek in Hk0; inversion Hk0; subst k0.
    + split; [exact C|]. unfold tgt_of. rewrite A, B. reflexivity.
    + split; [unfold inst_ctx; rewrite B; reflexivity|apply (IH k j j' H Hh Hs)].
Qed.

Lemma with_subs_ok_except n0 o o' r kids' : snd n0 <> None ->
  (forall n, n <> n0 -> o n = o' n) -> o n0 = None -> lcnt (fn n0) r = 0%nat -> cache_okd o r ->
  (forall n, n <> n0 -> s_sub (with_subs r kids') n = s_sub r n) ->
  (forall oo oo', (forall n, n <> n0 -> oo n = oo' n) -> oo n0 = None ->
     Forall (cache_okd oo) (i_subs r) -> Forall (cache_okd oo') kids') ->
  cache_okd o' (with_subs r kids').
Proof.
  intros Hsn Eo Ho Hc Hok Hs Hk.
  assert (N0 : s_fullo (o n0) r n0 = None) by (unfold s_fullo; rewrite (s_sub_none_of_cnt r n0 Hsn Hc); exact Ho).
  assert (Ss : forall n, n <> n0 -> s_fullo (o n) r n = s_fullo (o' n) (with_subs r kids') n).
  { intros n Hn. unfold s_fullo. rewrite (Hs n Hn), Eo by exact Hn. reflexivity. }
  apply cache_okd_eq in Hok. destruct Hok as [H1 H2]. apply cache_okd_eq.
  split; [|destruct r; exact (Hk _ _ Ss N0 H2)].
  intros n t Hg. apply (answers_except n0 _ _ Ss N0), H1. destruct r; exact Hg.
Qed.

Lemma set_node_ok_except n0 p : snd n0 <> None -> forall o o' r j j',
  cache_okd o r -> (forall n, n <> n0 -> o n = o' n) -> o n0 = None -> lcnt (fn n0) r = 0%nat ->
  get_node r p = Some j -> same_hdr j' j ->
  (forall n, n <> n0 -> s_sub j' n = s_sub j n) ->
  (forall oo oo', (forall n, n <> n0 -> oo n = oo' n) -> oo n0 = None -> cache_okd oo j -> cache_okd oo' j') ->
  cache_okd o' (set_node r p j').
Proof.
  intro Hsn. induction p as [|x q IH]; intros o o' r j j' Hok Eo Ho Hc H Hh Hs Hj.
  - cbn [get_node set_node] in *. inversion H; subst j. apply (Hj o o'); assumption.
  - cbn [set_node]. apply (with_subs_ok_except n0 o); try assumption.
    + intros n Hn. apply (s_sub_set_node n (x :: q) r j j' H Hh (Hs n Hn)).
    + cbn [get_node] in H. destruct (find_kid (i_subs r) x) as [k|] eqn:Ek; [|discriminate].
      assert (Hck : lcnt (fn n0) k = 0%nat).
      { pose proof (find_kid_cnt_le (fn n0) _ _ _ Ek). rewrite (lcnt_eq _ r) in Hc. lia. }
      intros oo oo' Eoo Hoo H2. apply (map_kid_forall _ _ _ x _ k Ek H2).
      * intro z. apply cache_okd_mono, (answers_except n0 _ _ Eoo Hoo).
      * intro Hz. apply (IH oo oo' k j j' Hz Eoo Hoo Hck H Hh Hs Hj).
Qed.

Section AddKid.
  Context (ni : inst).
  Hypothesis ni_ctx : inst_ctx ni = true.
  Hypothesis ni_erased : erase ni = ni.
  Hypothesis ni_inst : snd (i_name ni) <> None.

  Lemma s_sub_snoc r n : n <> i_name ni -> s_sub (with_subs r (i_subs r ++ [ni])) n = s_sub r n.
  Proof.
    intro Hn. assert (E : name_eqb (i_name ni) n = false) by (apply name_eqb_neq; congruence).
    apply s_sub_with_subs.
    - rewrite find_kid_app. cbn [find_kid]. rewrite E. destruct (find_kid (i_subs r) n); reflexivity.
    - rewrite s_loop_app. cbn [s_loop]. rewrite ni_ctx. destruct (s_loop (i_subs r) n); reflexivity.
  Qed.

  Lemma snoc_kid_ok o o' par :
    (forall n, n <> i_name ni -> o n = o' n) -> o (i_name ni) = None -> lcnt (fn (i_name ni)) par = 0%nat ->
    cache_okd o par -> cache_okd o' (with_subs par (i_subs par ++ [ni])).
  Proof.
    intros Eo Ho Hc Hok. apply (with_subs_ok_except (i_name ni) o); try assumption.
    - intros n Hn. apply s_sub_snoc, Hn.
    - intros oo oo' Eoo Hoo H2. apply Forall_app. split.
      + refine (Forall_impl _ _ H2). intro k. apply cache_okd_mono, (answers_except _ _ _ Eoo Hoo).
      + constructor; [|constructor]. apply erased_cache_ok, ni_erased.
  Qed.

  Lemma add_kid_ok p o o' r par :
    cache_okd o r -> get_node r p = Some par -> (forall n, n <> i_name ni -> o n = o' n) ->
    o (i_name ni) = None -> lcnt (fn (i_name ni)) r = 0%nat ->
    cache_okd o' (set_node r p (with_subs par (i_subs par ++ [ni]))).
  Proof.
    intros Hok H Eo Ho Hc.
    apply (set_node_ok_except (i_name ni) p ni_inst o o' r par); try assumption.
    - apply with_subs_hdr.
    - intros n Hn. apply s_sub_snoc, Hn.
    - intros oo oo' Eoo Hoo. apply snoc_kid_ok; [exact Eoo|exact Hoo|].
      pose proof (get_node_cnt_le (fn (i_name ni)) _ _ _ H). lia.
  Qed.
End AddKid.

Definition alloc (cs : list (N * N)) (a k : N) : Prop :=
  exists c, aget N.eqb cs a = Some c /\ k <= c.

Lemma alloc_aset cs a k : alloc (aset N.eqb cs a k) a k.
Proof. exists k. rewrite (aget_aset N.eqb N.eqb_eq), N.eqb_refl. split; [reflexivity|lia]. Qed.

Lemma alloc_raise cs a v a' k' : (forall c, aget N.eqb cs a = Some c -> c <= v) ->
  alloc cs a' k' -> alloc (aset N.eqb cs a v) a' k'.
Proof.
  intros Hv [c [H1 H2]]. unfold alloc. rewrite (aget_aset N.eqb N.eqb_eq).
  destruct (N.eqb a a') eqn:E; [|exists c; auto].
  apply N.eqb_eq in E. subst a'. exists v. split; [reflexivity|]. specialize (Hv c H1). lia.
Qed.

Lemma alloc_mono cs a a' k' : alloc cs a' k' -> alloc (aset N.eqb cs a (next_count cs a)) a' k'.
Proof. apply alloc_raise. intros c H. unfold next_count. rewrite H. lia. Qed.

Lemma next_count_fresh cs a : ~ alloc cs a (next_count cs a).
Proof. intros [c [H1 H2]]. unfold next_count in H2. rewrite H1 in H2. lia. Qed.

Lemma bump_alloc cs a k : alloc (bump cs a k) a k.
Proof.
  unfold bump. destruct (aget N.eqb cs a) as [v|] eqn:E; [destruct (N.ltb v k) eqn:El|]; try apply alloc_aset.
  exists v. apply N.ltb_ge in El. auto.
Qed.

Lemma bump_mono cs a k a' k' : alloc cs a' k' -> alloc (bump cs a k) a' k'.
Proof.
  unfold bump. destruct (aget N.eqb cs a) as [v|] eqn:E; [destruct (N.ltb v k) eqn:El; [|auto]|];
    apply alloc_raise; intros c Hc; rewrite E in Hc; [|discriminate].
  injection Hc as <-. apply N.ltb_lt in El. lia.
Qed.

Fixpoint l_go (l : list sstate) (i : inst) (u : N) (cs : list (N * N)) : lres :=
  match l with
  | [] => LOk i u cs
  | cs0 :: r =>
    let snm := s_name cs0 in
    match snd snm with
    | None =>
        if name_eqb snm (c_alias (i_cls i), None) then
          match load cs0 i u cs with LOk i' u' cs' => l_go r i' u' cs' | LRaise e => LRaise e end
        else match aget name_eqb (i_cache i) snm with
        | Some _ => LRaise OutsideModel
        | None =>
          match find_kid (i_subs i) snm with
          | Some k =>
              match load cs0 k u cs with
              | LOk k' u' cs' => l_go r (with_subs i (set_kid (i_subs i) k')) u' cs'
              | LRaise e => LRaise e
              end
          | None => LRaise OutsideModel
          end
        end
    | Some num =>
        match find_cls (c_subs (i_cls i)) (fst snm) with
        | None => LRaise KeyError
        | Some c =>
            let '(k, u1) := create c snm u in
            match load cs0 k u1 (bump cs (fst snm) num) with
            | LOk k' u' cs' => l_go r (with_subs i (set_kid (i_subs i) k')) u' cs'
            | LRaise e => LRaise e
            end
        end
    end
  end.

Lemma load_eq s i u cs :
  load s i u cs =
  let 'SS nm st subs := s in
  if negb (name_eqb nm (i_name i)) then LRaise AssertionError
  else l_go subs (with_state i (merge_state (i_state i) st)) u cs.
Proof.
  destruct s as [nm st subs]. cbn [load].
  destruct (negb (name_eqb nm (i_name i))); [reflexivity|].
  generalize (with_state i (merge_state (i_state i) st)) as j. generalize u as v. generalize cs as cz.
  induction subs as [|cs0 r IH]; intros cz v j; [reflexivity|].
  cbn [l_go]. destruct (snd (s_name cs0)).
  - destruct (find_cls (c_subs (i_cls j)) (fst (s_name cs0))); [|reflexivity].
    destruct (create c (s_name cs0) v) as [k u1]. destruct (load cs0 k u1 _); [apply IH|reflexivity].
  - destruct (name_eqb (s_name cs0) (c_alias (i_cls j), None)).
    + destruct (load cs0 j v cz); [apply IH|reflexivity].
    + destruct (aget name_eqb (i_cache j) (s_name cs0)); [reflexivity|].
      destruct (find_kid (i_subs j) (s_name cs0)) as [k0|]; [|reflexivity].
      destruct (load cs0 k0 v cz); [apply IH|reflexivity].
Qed.

Section SCount.
  Local Open Scope nat_scope.
  (** occurrences of a name in a saved state *)
  Fixpoint scnt (n : name) (s : sstate) : nat :=
    let 'SS nm _ subs := s in
    b2n (name_eqb nm n) +
    (fix go (l : list sstate) : nat := match l with [] => 0 | x :: r => scnt n x + go r end) subs.
  Fixpoint scntL (n : name) (l : list sstate) : nat :=
    match l with [] => 0 | x :: r => scnt n x + scntL n r end.
  Lemma scnt_eq n nm st subs : scnt n (SS nm st subs) = b2n (name_eqb nm n) + scntL n subs.
  Proof.
    cbn [scnt]. f_equal. induction subs as [|x r IH]; [reflexivity|]. cbn [scntL]. rewrite IH. reflexivity.
  Qed.
End SCount.

Lemma erased_kid i k : erase i = i -> In k (i_subs i) -> erase k = k.
Proof.
  intros H Hk. rewrite <- H, erase_subs in Hk. apply in_map_iff in Hk. destruct Hk as [k0 [<- _]]. apply erase_erase.
Qed.

Lemma erased_set_kid i k : erase i = i -> erase k = k ->
  erase (with_subs i (set_kid (i_subs i) k)) = with_subs i (set_kid (i_subs i) k).
Proof. intros Hi Hk. rewrite erase_with_subs, set_kid_erase, <- erase_subs, Hi, Hk. reflexivity. Qed.

Lemma set_kid_cnt_le f l k' : (lcntL f (set_kid l k') <= lcntL f l + lcnt f k')%nat.
Proof.
  destruct (find_kid l (i_name k')) as [k|] eqn:E.
  - pose proof (set_kid_replace f l k k' E). lia.
  - rewrite (set_kid_append l k' E), lcntL_app. cbn [lcntL]. lia.
Qed.

(** [load] only adds to the object it is given: object, uid allocator and class counters before and
    after *)
Record grows (B : name -> nat) (i : inst) (u : N) (cs : list (N * N))
  (i' : inst) (u' : N) (cs' : list (N * N)) : Prop := mkGrows {
  g_hdr : same_hdr i' i;
  g_erased : erase i = i -> erase i' = i';
  g_uid_le : u <= u';
  g_names : forall n, snd n <> None -> (lcnt (fn n) i' <= lcnt (fn n) i + B n)%nat;
  g_uids : forall v, (lcnt (fu v) i' <= lcnt (fu v) i + b2n (in_range u v u'))%nat;
  g_alloc : forall a k, alloc cs a k -> alloc cs' a k;
  g_counted : forall a k, (0 < lcnt (fn (a, Some k)) i')%nat -> (0 < lcnt (fn (a, Some k)) i)%nat \/ alloc cs' a k
}.

Lemma grows_with_state B i s u cs : grows B i u cs (with_state i s) u cs.
Proof.
  constructor; unfold lcnt; rewrite ?with_state_live; auto; try (intros; lia).
  - apply with_state_hdr.
  - intro H. rewrite with_state_erase, H. reflexivity.
Qed.

Lemma grows_trans B1 B2 B i u cs j uj cj i' u' cs' : (forall n, (B1 n + B2 n <= B n)%nat) ->
  grows B1 i u cs j uj cj -> grows B2 j uj cj i' u' cs' -> grows B i u cs i' u' cs'.
Proof.
  intros HB [[J1 [J2 J3]] Je Ju Jn Jv Jm Jb] [[K1 [K2 K3]] Ke Ku Kn Kv Km Kb].
  constructor; [repeat split; congruence|auto|lia| | |auto|].
  - intros n Hn. specialize (Jn n Hn). specialize (Kn n Hn). specialize (HB n). lia.
  - intro v. specialize (Jv v). specialize (Kv v). pose proof (in_range_split u uj u' v Ju Ku). lia.
  - intros a k Hp. destruct (Kb a k Hp) as [Hj|Hj]; [|right; exact Hj].
    destruct (Jb a k Hj) as [Hi|Hi]; [left; exact Hi|right; apply Km; exact Hi].
Qed.

Lemma grows_kid B i k k' u cs u' cs' : find_kid (i_subs i) (i_name k) = Some k ->
  grows B k u cs k' u' cs' -> grows B i u cs (with_subs i (set_kid (i_subs i) k')) u' cs'.
Proof.
  intros Ek [[_ [_ L3]] Le Lu Ln Lv Lm Lb].
  assert (Cnt : forall f, (lcnt f (with_subs i (set_kid (i_subs i) k')) + lcnt f k = lcnt f i + lcnt f k')%nat).
  { intro f. rewrite lcnt_with_subs, (lcnt_eq f i). rewrite <- L3 in Ek. pose proof (set_kid_replace f _ _ _ Ek). lia. }
  constructor; [apply with_subs_hdr| |exact Lu| | |exact Lm|].
  - intro He. apply erased_set_kid; [exact He|]. apply Le, (erased_kid i); [exact He|]. apply (find_kid_in _ _ _ Ek).
  - intros n Hn. specialize (Ln n Hn). specialize (Cnt (fn n)). lia.
  - intro v. specialize (Lv v). specialize (Cnt (fu v)). lia.
  - intros a k0 Hp. specialize (Cnt (fn (a, Some k0))).
    destruct (lcnt (fn (a, Some k0)) k') eqn:Ek'; [left; lia|].
    destruct (Lb a k0) as [Hk|Hk]; [lia| |right; exact Hk].
    left. pose proof (find_kid_cnt_le (fn (a, Some k0)) _ _ _ Ek). rewrite (lcnt_eq _ i). lia.
Qed.

Lemma grows_new B i c snm kk k k' u u1 cs u' cs' : snd snm = Some kk -> create c snm u = (k, u1) ->
  grows B k u1 (bump cs (fst snm) kk) k' u' cs' ->
  grows (fun n => (b2n (name_eqb snm n) + B n)%nat) i u cs (with_subs i (set_kid (i_subs i) k')) u' cs'.
Proof.
  intros Esn Ecr [_ Le Lu Ln Lv Lm Lb].
  destruct (create_spec Ecr) as [_ _ C1 C2 C3 C4].
  assert (Cnt : forall f, (lcnt f (with_subs i (set_kid (i_subs i) k')) <= lcnt f i + lcnt f k')%nat).
  { intro f. rewrite lcnt_with_subs, (lcnt_eq f i). pose proof (set_kid_cnt_le f (i_subs i) k'). lia. }
  constructor; [apply with_subs_hdr| |lia| | | |].
  - intro He. apply erased_set_kid; [exact He|]. apply Le, C1.
  - intros n Hn. specialize (Ln n Hn). rewrite (C3 n Hn) in Ln. specialize (Cnt (fn n)). lia.
  - intro v. specialize (Lv v). rewrite C4 in Lv. specialize (Cnt (fu v)).
    pose proof (in_range_split u u1 u' v (N.lt_le_incl _ _ C2) Lu). lia.
  - intros a k0 Ha. apply Lm, bump_mono, Ha.
  - intros a k0 Hp. specialize (Cnt (fn (a, Some k0))).
    destruct (lcnt (fn (a, Some k0)) k') eqn:Ek'; [left; lia|].
    destruct (Lb a k0) as [Hk|Hk]; [lia| |right; exact Hk].
    (* it is the new object's own name: the counter was raised for it *)
    rewrite C3 in Hk by discriminate. destruct (name_eqb snm (a, Some k0)) eqn:En; [|cbn in Hk; lia].
    apply name_eqb_eq in En. subst snm. cbn [snd fst] in *. inversion Esn; subst kk.
    right. apply Lm, bump_alloc.
Qed.

Definition load_stmt (s : sstate) : Prop :=
  forall i u cs i' u' cs', load s i u cs = LOk i' u' cs' ->
    let 'SS _ _ subs := s in grows (fun n => scntL n subs) i u cs i' u' cs'.

Lemma l_go_ok l : Forall load_stmt l -> forall i u cs i' u' cs',
  l_go l i u cs = LOk i' u' cs' -> grows (fun n => scntL n l) i u cs i' u' cs'.
Proof.
  induction 1 as [|cs0 r Hcs _ IH]; intros i u cs i' u' cs' E; cbn [l_go] in E.
  - inversion E; subst. constructor; unfold same_hdr; auto; intros; lia.
  - destruct cs0 as [snm sst ssubs]. cbn [s_name] in E. unfold load_stmt in Hcs.
    (* the entry's budget, then the rest's *)
    assert (HB : forall B1, (forall n, (B1 n <= scnt n (SS snm sst ssubs))%nat) ->
                 forall n, (B1 n + scntL n r <= scntL n (SS snm sst ssubs :: r))%nat).
    { intros B1 H n. specialize (H n). cbn [scntL]. lia. }
    destruct (snd snm) as [kk|] eqn:Esn.
    + destruct (find_cls (c_subs (i_cls i)) (fst snm)) as [c|]; [|discriminate].
      destruct (create c snm u) as [k u1] eqn:Ecr.
      destruct (load (SS snm sst ssubs) k u1 (bump cs (fst snm) kk)) as [k' u2 c2|] eqn:El; [|discriminate].
      eapply grows_trans; [|apply (grows_new _ i c snm kk k k' u u1 cs u2 c2 Esn Ecr (Hcs _ _ _ _ _ _ El))|apply IH, E].
      apply HB. intro n. rewrite scnt_eq. lia.
    + destruct (name_eqb snm (c_alias (i_cls i), None)).
      * destruct (load (SS snm sst ssubs) i u cs) as [j uj cj|] eqn:El; [|discriminate].
        eapply grows_trans; [|apply (Hcs _ _ _ _ _ _ El)|apply IH, E].
        apply HB. intro n. rewrite scnt_eq. lia.
      * destruct (aget name_eqb (i_cache i) snm); [discriminate|].
        destruct (find_kid (i_subs i) snm) as [k|] eqn:Ek; [|discriminate].
        destruct (load (SS snm sst ssubs) k u cs) as [k' u2 c2|] eqn:El; [|discriminate].
        destruct (find_kid_in _ _ _ Ek) as [_ Knm]. rewrite <- Knm in Ek.
        eapply grows_trans; [|apply (grows_kid _ i k k' u cs u2 c2 Ek (Hcs _ _ _ _ _ _ El))|apply IH, E].
        apply HB. intro n. rewrite scnt_eq. lia.
Qed.

Lemma load_ok s : load_stmt s.
Proof.
  induction s as [nm st subs IH] using sstate_ind'. intros i u cs i' u' cs' E.
  rewrite load_eq in E. destruct (negb (name_eqb nm (i_name i))); [discriminate|].
  eapply (grows_trans (fun _ => 0%nat)); [|apply grows_with_state|apply (l_go_ok subs IH _ _ _ _ _ _ E)].
  intro n. apply le_n.
Qed.

(** ** Invariant of the implementation model
    [lcnt (fn n) r], [lcnt (fu v) r]: how many live objects of [r] are named [n], have uid [v];
    [scnt n sv]: how often [n] occurs in the saved state [sv] *)
Record Inv (s : st) : Prop := mkInv {
  inv_cache : cache_ok (root s);
  inv_bound : forall a k, (0 < lcnt (fn (a, Some k)) (root s))%nat -> alloc (counts s) a k;
  inv_uniq : forall a k, (lcnt (fn (a, Some k)) (root s) <= 1)%nat;
  inv_rootname : snd (i_name (root s)) = None;
  inv_suniq : forall sv, saved s = Some sv -> forall a k, (scnt (a, Some k) sv <= 1)%nat;
  inv_uid_lt : forall v, (0 < lcnt (fu v) (root s))%nat -> v < next_uid s;
  inv_uid_uniq : forall v, (lcnt (fu v) (root s) <= 1)%nat
}.

Lemma scnt_save n i : scnt n (save i) = lcnt (fn n) i.
Proof.
  induction i as [u c nm s ca kids IH] using inst_ind'. cbn [save]. rewrite scnt_eq, lcnt_inst.
  unfold fn at 1. cbn [snd]. f_equal.
  induction IH as [|k r Hk _ IHr]; [reflexivity|]. cbn [map scntL lcntL]. rewrite Hk, IHr. reflexivity.
Qed.

Lemma name_cnt_self i : (1 <= lcnt (fn (i_name i)) i)%nat.
Proof. rewrite lcnt_eq. unfold fn at 1. cbn [snd]. rewrite name_eqb_refl. cbn. lia. Qed.

Lemma init_Inv c : Inv (init c).
Proof.
  unfold init. destruct (create c (c_alias c, None) 0) as [r u] eqn:Ec.
  destruct (create_spec Ec) as [_ Hn A _ _ D].
  pose proof (fresh_no_inst _ _ _ _ _ Ec eq_refl) as F0.
  constructor; cbn [root counts saved next_uid].
  - apply erased_cache_ok. exact A.
  - intros a k Hp. rewrite F0 in Hp. lia.
  - intros a k. rewrite F0. lia.
  - rewrite Hn. reflexivity.
  - discriminate.
  - intros v Hp. rewrite D in Hp. pose proof (in_range_spec 0 v u). destruct (in_range 0 v u); [lia|cbn in Hp; lia].
  - intro v. rewrite D. destruct (in_range 0 v u); cbn; lia.
Qed.

(** ** What a step does
    [st_quiet] is a step that addresses nothing, a send (caches may fill) or a state assignment.
    The trace is write-only, so the event is left open. *)
Variant stepped (s : st) : op -> st -> Prop :=
| st_quiet o r' e :
    skel r' = skel (root s) -> cache_ok r' -> stepped s o (emit (with_root s r') e)
| st_save e :
    stepped s OSave (St (root s) (counts s) (next_uid s) (Some (save (root s))) (e :: trace s))
| st_inst p a par c ni u' e :
    get_node (root s) p = Some par -> find_cls (c_subs (i_cls par)) a = Some c -> c_ctx c = true ->
    create c (a, Some (next_count (counts s) a)) (next_uid s) = (ni, u') ->
    stepped s (OInst p a)
      (St (set_node (root s) p (with_subs par (set_kid (i_subs par) ni)))
          (aset N.eqb (counts s) a (next_count (counts s) a)) u' (saved s) (e :: trace s))
| st_destroy p n par kd e :
    get_node (root s) p = Some par -> find_kid (i_subs par) n = Some kd ->
    stepped s (ODestroy p n)
      (emit (with_root s (erase (set_node (root s) p (with_subs par (del_kid (i_subs par) n))))) e)
| st_load sv fresh u1 r' u2 cs' e :
    saved s = Some sv -> create (i_cls (root s)) (i_name (root s)) (next_uid s) = (fresh, u1) ->
    load sv fresh u1 (counts s) = LOk r' u2 cs' ->
    stepped s OLoad (St r' cs' u2 (saved s) (e :: trace s))
| st_restart fresh u1 e :
    create (i_cls (root s)) (i_name (root s)) (next_uid s) = (fresh, u1) ->
    stepped s ORestart (St fresh [] u1 (saved s) (e :: trace s)).

Lemma impl_step_cases s o : cache_ok (root s) -> stepped s o (impl_step s o).
Proof.
  intro Hc.
  assert (skip : forall o e, stepped s o (emit s e)) by (intros; apply (st_quiet s _ (root s)); auto).
  destruct o as [p a|p n|p dst t|p v| | |]; unfold impl_step; cbn [step_gen].
  - destruct (get_node (root s) p) as [par|] eqn:Ep; [|apply skip].
    destruct (find_cls (c_subs (i_cls par)) a) as [c|] eqn:Ec; [|apply skip].
    destruct (c_ctx c) eqn:Ex; cbn [negb]; [|apply skip].
    destruct (create c _ (next_uid s)) as [ni u'] eqn:Ecr. apply (st_inst s p a par c); assumption.
  - destruct (get_node (root s) p) as [par|] eqn:Ep; [|apply skip].
    destruct (find_kid (i_subs par) n) as [kd|] eqn:Ek; [|apply skip].
    apply (st_destroy s p n par kd); assumption.
  - destruct (get_node (root s) p) as [src|]; [|apply skip].
    destruct (full_get (root s) (rev p) dst) as [x r'] eqn:Ef.
    destruct (full_get_ok _ _ _ _ _ Hc Ef) as [_ [He Hc']].
    apply st_quiet; [apply erase_skel_eq; exact He|exact Hc'].
  - destruct (get_node (root s) p) as [i|] eqn:Ep; [|apply skip].
    apply st_quiet; [apply (set_node_skel p _ i); [exact Ep|apply with_state_skel]|].
    apply (set_node_ok _ _ _ i); [exact Hc|exact Ep|apply with_state_skel|].
    apply with_state_ok. apply cache_okd_node; assumption.
  - apply st_save.
  - destruct (saved s) as [sv|] eqn:Es; [|apply skip].
    destruct (create _ _ (next_uid s)) as [fresh u1] eqn:Ecr.
    destruct (load sv fresh u1 (counts s)) as [r' u2 cs'|] eqn:El; [|apply skip].
    rewrite <- Es. apply (st_load s sv fresh u1); assumption.
  - destruct (create _ _ (next_uid s)) as [fresh u1] eqn:Ecr. apply st_restart. exact Ecr.
Qed.

Lemma inst_cnt_le f p r par ni : get_node r p = Some par ->
  (lcnt f (set_node r p (with_subs par (set_kid (i_subs par) ni))) <= lcnt f r + lcnt f ni)%nat.
Proof.
  intro Ep. pose proof (set_node_cnt f p r par (with_subs par (set_kid (i_subs par) ni)) Ep) as H.
  rewrite lcnt_with_subs, (lcnt_eq f par) in H. pose proof (set_kid_cnt_le f (i_subs par) ni). lia.
Qed.

Lemma destroy_cnt f p r par n kd : get_node r p = Some par -> find_kid (i_subs par) n = Some kd ->
  (lcnt f (erase (set_node r p (with_subs par (del_kid (i_subs par) n)))) + lcnt f kd = lcnt f r)%nat.
Proof.
  intros Ep Ek. rewrite lcnt_erase.
  pose proof (set_node_cnt f p r par (with_subs par (del_kid (i_subs par) n)) Ep) as H.
  rewrite lcnt_with_subs, (lcnt_eq f par) in H. pose proof (del_kid_cnt f _ _ _ Ek). lia.
Qed.

Lemma stepped_hdr s o s' : stepped s o s' ->
  i_cls (root s') = i_cls (root s) /\ i_name (root s') = i_name (root s).
Proof.
  destruct 1 as [o r' e Hsk _|e|p a par c ni u' e Ep _ _ _|p n par kd e Ep _
                |sv fresh u1 r' u2 cs' e _ Ecr El|fresh u1 e Ecr]; cbn [emit with_root root].
  - apply skel_eq_hdr in Hsk. apply Hsk.
  - auto.
  - apply (set_node_hdr p _ par); [exact Ep|apply with_subs_hdr].
  - destruct (erase_hdr (set_node (root s) p (with_subs par (del_kid (i_subs par) n)))) as [_ [-> ->]].
    apply (set_node_hdr p _ par); [exact Ep|apply with_subs_hdr].
  - destruct (create_spec Ecr) as [Hc Hn _ _ _ _]. destruct sv.
    destruct (load_ok _ _ _ _ _ _ _ El) as [[_ [Lc Ln]] _ _ _ _ _ _]. split; congruence.
  - split; [apply (cr_cls (create_spec Ecr))|apply (cr_name (create_spec Ecr))].
Qed.

Lemma stepped_uids s o s' : stepped s o s' ->
  next_uid s <= next_uid s' /\
  forall v, (lcnt (fu v) (root s') <= lcnt (fu v) (root s) + b2n (in_range (next_uid s) v (next_uid s')))%nat.
Proof.
  destruct 1 as [o r' e Hsk _|e|p a par c ni u' e Ep _ _ Ecr|p n par kd e Ep Ek
                |sv fresh u1 r' u2 cs' e _ Ecr El|fresh u1 e Ecr]; cbn [emit with_root root next_uid].
  - split; [lia|]. intro v. unfold lcnt. rewrite (live_skel_eq _ _ Hsk). lia.
  - split; [lia|]. intro v. lia.
  - destruct (create_spec Ecr) as [_ _ _ C2 _ C4]. split; [lia|]. intro v.
    rewrite <- C4. apply inst_cnt_le. exact Ep.
  - split; [lia|]. intro v. pose proof (destroy_cnt (fu v) _ _ _ _ _ Ep Ek). lia.
  - destruct (create_spec Ecr) as [_ _ _ C2 _ C4]. destruct sv.
    destruct (load_ok _ _ _ _ _ _ _ El) as [_ _ Lu _ Lv _ _]. split; [lia|]. intro v.
    specialize (Lv v). rewrite C4, (in_range_split _ u1) in Lv by lia. lia.
  - destruct (create_spec Ecr) as [_ _ _ C2 _ C4]. split; [lia|]. intro v.
    rewrite C4. lia.
Qed.

Lemma next_name_fresh s p par a : Inv s -> get_node (root s) p = Some par ->
  let n := (a, Some (next_count (counts s) a)) in
  lcnt (fn n) (root s) = 0%nat /\ find_kid (i_subs par) n = None.
Proof.
  intros HI Ep n.
  assert (Fr : lcnt (fn n) (root s) = 0%nat).
  { destruct (lcnt (fn n) (root s)) eqn:E; [reflexivity|]. exfalso.
    apply (next_count_fresh (counts s) a). apply (inv_bound s HI). fold n. lia. }
  split; [exact Fr|].
  destruct (find_kid (i_subs par) n) as [kd|] eqn:E; [|reflexivity]. exfalso.
  destruct (find_kid_in _ _ _ E) as [_ Hn]. pose proof (name_cnt_self kd) as H1. rewrite Hn in H1.
  pose proof (find_kid_cnt_le (fn n) _ _ _ E) as H2.
  pose proof (get_node_cnt_le (fn n) _ _ _ Ep) as H3. rewrite (lcnt_eq _ par) in H3. lia.
Qed.

Lemma stepped_names s o s' : Inv s -> stepped s o s' ->
  (forall a k, (0 < lcnt (fn (a, Some k)) (root s'))%nat -> alloc (counts s') a k) /\
  (forall a k, (lcnt (fn (a, Some k)) (root s') <= 1)%nat).
Proof.
  intros HI St. pose proof (inv_bound s HI) as Ib. pose proof (inv_uniq s HI) as Iu.
  destruct St as [o r' e Hsk _|e|p a par c ni u' e Ep _ _ Ecr|p n par kd e Ep Ek
                 |sv fresh u1 r' u2 cs' e Es Ecr El|fresh u1 e Ecr]; cbn [emit with_root root counts].
  - unfold lcnt in *. rewrite (live_skel_eq _ _ Hsk). auto.
  - auto.
  - destruct (create_spec Ecr) as [_ _ _ _ C3 _].
    destruct (next_name_fresh s p par a HI Ep) as [Fr _]. set (k := next_count (counts s) a) in *.
    assert (Cnt : forall a' k', (lcnt (fn (a', Some k')) (set_node (root s) p (with_subs par (set_kid (i_subs par) ni)))
                   <= lcnt (fn (a', Some k')) (root s) + b2n (name_eqb (a, Some k) (a', Some k')))%nat).
    { intros a' k'. rewrite <- C3 by discriminate. apply inst_cnt_le. exact Ep. }
    split; intros a' k'; specialize (Cnt a' k'); destruct (name_eqb (a, Some k) (a', Some k')) eqn:E; cbn [b2n] in Cnt.
    + intros _. apply name_eqb_eq in E. inversion E; subst a' k'. apply alloc_aset.
    + intro Hp. apply alloc_mono, Ib. lia.
    + apply name_eqb_eq in E. inversion E; subst a' k'. lia.
    + specialize (Iu a' k'). lia.
  - split; intros a k; pose proof (destroy_cnt (fn (a, Some k)) _ _ _ _ _ Ep Ek); [intro; apply Ib|specialize (Iu a k)]; lia.
  - pose proof (fresh_no_inst _ _ _ _ _ Ecr (inv_rootname s HI)) as F0.
    destruct sv as [nm st subs].
    destruct (load_ok _ _ _ _ _ _ _ El) as [_ _ _ Ln _ _ Lb]. split; intros a k.
    + intro Hp. destruct (Lb a k Hp) as [H|H]; [rewrite F0 in H; lia|exact H].
    + (* the loaded stack holds a name at most as often as the saved state does *)
      specialize (Ln (a, Some k)). rewrite F0 in Ln. pose proof (inv_suniq s HI _ Es a k) as Hs.
      rewrite scnt_eq in Hs. specialize (Ln ltac:(discriminate)). lia.
  - pose proof (fresh_no_inst _ _ _ _ _ Ecr (inv_rootname s HI)) as F0.
    split; intros a k; rewrite F0; lia.
Qed.

Lemma stepped_cache s o s' : Inv s -> stepped s o s' -> cache_ok (root s').
Proof.
  intros HI St.
  destruct St as [o r' e _ Hc|e|p a par c ni u' e Ep _ Ex Ecr|p n par kd e _ _
                 |sv fresh u1 r' u2 cs' e _ Ecr El|fresh u1 e Ecr]; cbn [emit with_root root].
  - exact Hc.
  - apply HI.
  - destruct (create_spec Ecr) as [Hcl Hn C1 _ _ _].
    destruct (next_name_fresh s p par a HI Ep) as [Fr Fk]. rewrite <- Hn in Fr, Fk.
    rewrite (set_kid_append _ _ Fk).
    assert (Hctx : inst_ctx ni = true) by (unfold inst_ctx; rewrite Hcl; exact Ex).
    assert (Hsn : snd (i_name ni) <> None) by (rewrite Hn; discriminate).
    apply (add_kid_ok ni Hctx C1 Hsn p (fun _ => None) (fun _ => None) (root s) par (inv_cache s HI) Ep); auto.
  - apply cache_okd_erase.
  - pose proof (cr_erased (create_spec Ecr)) as C1. destruct sv.
    apply erased_cache_ok, (g_erased _ _ _ _ _ _ _ (load_ok _ _ _ _ _ _ _ El)), C1.
  - apply erased_cache_ok, (cr_erased (create_spec Ecr)).
Qed.

Lemma Inv_step s o : Inv s -> Inv (impl_step s o).
Proof.
  intro HI. pose proof (impl_step_cases s o (inv_cache s HI)) as St.
  destruct (stepped_names s o _ HI St) as [Nb Nu]. destruct (stepped_uids s o _ St) as [Uu Uv].
  constructor.
  - apply (stepped_cache s o _ HI St).
  - exact Nb.
  - exact Nu.
  - destruct (stepped_hdr s o _ St) as [_ ->]. apply HI.
  - destruct St; cbn [emit with_root saved]; try apply HI.
    intros sv Hs a k. inversion Hs; subst sv. rewrite scnt_save. apply HI.
  - (* a uid is below the old allocator, or was handed out during the step *)
    intros v Hp. specialize (Uv v). pose proof (in_range_spec (next_uid s) v (next_uid (impl_step s o))).
    destruct (in_range (next_uid s) v (next_uid (impl_step s o))); [lia|].
    cbn [b2n] in Uv. assert (v < next_uid s) by (apply HI; lia). lia.
  - intro v. specialize (Uv v). pose proof (in_range_spec (next_uid s) v (next_uid (impl_step s o))).
    pose proof (inv_uid_uniq s HI v). destruct (in_range (next_uid s) v (next_uid (impl_step s o))); cbn [b2n] in Uv; [|lia].
    destruct (lcnt (fu v) (root s)) eqn:E; [lia|]. assert (v < next_uid s) by (apply HI; lia). lia.
Qed.

(** ** Refinement: forgetting the caches turns a step of the implementation model into the same
    step of the cache-free dictionary router *)
Definition erase_st (s : st) : st := St (erase (root s)) (counts s) (next_uid s) (saved s) (trace s).

Lemma deliver_table src x t : deliver src x t impl_table = deliver src x t spec_table.
Proof. unfold deliver. destruct x as [[u c]|]; [|reflexivity]. rewrite handler_table_exact. reflexivity. Qed.

Lemma deliver_erase src x t : deliver (erase src) x t spec_table = deliver src x t impl_table.
Proof. rewrite deliver_table. unfold deliver. destruct (erase_hdr src) as [_ [_ ->]]. reflexivity. Qed.

Lemma step_erase s o : cache_ok (root s) -> spec_step (erase_st s) o = erase_st (impl_step s o).
Proof.
  intro Hc. destruct (erase_hdr (root s)) as [_ [Rc Rn]].
  destruct o as [p al|p n|p dst t|p v| | |]; unfold impl_step, spec_step; cbn [step_gen erase_st root counts next_uid saved].
  - rewrite get_node_erase. destruct (get_node (root s) p) as [par|]; [|reflexivity].
    cbn [option_map]. destruct (erase_hdr par) as [_ [-> _]].
    destruct (find_cls (c_subs (i_cls par)) al) as [c|]; [|reflexivity].
    destruct (c_ctx c); cbn [negb]; [|unfold emit, erase_st; cbn; rewrite live_erase; reflexivity].
    destruct (create c _ (next_uid s)) as [ni u'] eqn:Ecr. pose proof (cr_erased (create_spec Ecr)) as C1.
    unfold erase_st. cbn [root counts next_uid saved trace].
    rewrite <- (live_erase (set_node (root s) _ _)), erase_set_node, erase_with_subs, set_kid_erase, <- erase_subs, C1.
    reflexivity.
  - rewrite get_node_erase. destruct (get_node (root s) p) as [par|]; [|reflexivity].
    cbn [option_map]. rewrite erase_subs, find_kid_erase.
    destruct (find_kid (i_subs par) n); [|reflexivity]. cbn [option_map].
    unfold erase_st, emit, with_root. cbn [root counts next_uid saved trace].
    change (clear_caches ?z) with (erase z).
    rewrite erase_erase, live_erase, <- (live_erase (set_node (root s) _ _)), erase_set_node, erase_with_subs, del_kid_erase.
    reflexivity.
  - rewrite get_node_erase. destruct (get_node (root s) p) as [src|]; [|reflexivity].
    cbn [option_map]. destruct (full_get (root s) (rev p) dst) as [x r'] eqn:Ef.
    destruct (full_get_ok _ _ _ _ _ Hc Ef) as [-> [He _]].
    unfold spec_lookup, erase_st, emit, with_root. cbn [root counts next_uid saved trace].
    rewrite He, deliver_erase, (s_full_skel_eq _ (root s) _ _ (skel_erase _)). reflexivity.
  - rewrite get_node_erase. destruct (get_node (root s) p) as [i|]; [|reflexivity].
    cbn [option_map]. unfold erase_st, emit, with_root. cbn [root counts next_uid saved trace].
    rewrite erase_set_node, with_state_erase. reflexivity.
  - unfold erase_st. cbn [root counts next_uid saved trace]. rewrite save_erase. reflexivity.
  - destruct (saved s) as [sv|]; [|reflexivity]. rewrite Rc, Rn.
    destruct (create _ _ (next_uid s)) as [fresh u1] eqn:Ecr. pose proof (cr_erased (create_spec Ecr)) as C1.
    destruct (load sv fresh u1 (counts s)) as [r' u2 cs'|] eqn:El; [|reflexivity].
    (* a stack loaded into a freshly created one has empty caches *)
    destruct sv. pose proof (g_erased _ _ _ _ _ _ _ (load_ok _ _ _ _ _ _ _ El)) as Le.
    unfold erase_st. cbn [root counts next_uid saved trace]. rewrite (Le C1). reflexivity.
  - rewrite Rc, Rn. destruct (create _ _ (next_uid s)) as [fresh u1] eqn:Ecr.
    pose proof (cr_erased (create_spec Ecr)) as C1.
    unfold erase_st. cbn [root counts next_uid saved trace]. rewrite C1. reflexivity.
Qed.

Lemma run_Inv ops : forall s, Inv s -> Inv (fold_left impl_step ops s).
Proof. induction ops as [|o ops IH]; intros s HI; [exact HI|]. apply IH, Inv_step, HI. Qed.

Lemma impl_run_Inv c ops : Inv (impl_run c ops).
Proof. apply run_Inv, init_Inv. Qed.

Lemma run_erase ops : forall s, Inv s -> fold_left spec_step ops (erase_st s) = erase_st (fold_left impl_step ops s).
Proof.
  induction ops as [|o ops IH]; intros s HI; cbn [fold_left]; [reflexivity|].
  rewrite step_erase by apply HI. apply IH, Inv_step, HI.
Qed.

Theorem refinement c ops : trace (impl_run c ops) = trace (spec_run c ops).
Proof.
  assert (E : erase_st (init c) = init c).
  { unfold init. destruct (create c (c_alias c, None) 0) as [r u] eqn:Ec.
    unfold erase_st. cbn. rewrite (cr_erased (create_spec Ec)). reflexivity. }
  unfold spec_run. rewrite <- E, run_erase by apply init_Inv. reflexivity.
Qed.

(** ** Property-level consequences *)

(** what the reference says a send delivers *)
Definition declared_deliveries (rt : inst) (p : path) (dst : name) (t : tag) : list delivery :=
  match get_node rt p with
  | None => []
  | Some src => deliver src (s_full rt (rev p) dst) t spec_table
  end.

Lemma send_event s p dst t : Inv s ->
  trace (impl_step s (OSend p dst t)) =
  match get_node (root s) p with
  | None => ESkip
  | Some _ => ESend (declared_deliveries (root s) p dst t)
  end :: trace s.
Proof.
  intro HI. unfold impl_step, declared_deliveries. cbn [step_gen].
  destruct (get_node (root s) p) as [src|]; [|reflexivity].
  destruct (full_get (root s) (rev p) dst) as [x r'] eqn:Ef.
  destruct (full_get_ok _ _ _ _ _ (inv_cache _ HI) Ef) as [X _]. subst x.
  cbn [emit with_root trace]. f_equal. f_equal. apply deliver_table.
Qed.

Lemma declared_shape rt p dst t u h sa : In (u, h, sa) (declared_deliveries rt p dst t) ->
  exists src cl x, get_node rt p = Some src /\ s_full rt (rev p) dst = Some (u, cl) /\
    spec_table (c_handlers cl) (fst (i_name src)) t = Some (h, x) /\
    sa = (if x then Some (i_name src) else None).
Proof.
  unfold declared_deliveries, deliver. destruct (get_node rt p) as [src|]; [|contradiction].
  destruct (s_full rt (rev p) dst) as [[u0 cl]|]; [|contradiction].
  destruct (spec_table (c_handlers cl) (fst (i_name src)) t) as [[h0 x]|] eqn:Et; [|contradiction].
  intros [H|[]]. inversion H; subst. exists src, cl, x. repeat split; try reflexivity. exact Et.
Qed.

(** deliveries only reach live objects, and an instance name reaches the object carrying it *)
Lemma delivered_is_live rt p dst t u h sa : In (u, h, sa) (declared_deliveries rt p dst t) ->
  exists nm, In (u, nm) (live rt) /\ (nm = dst \/ snd dst = None).
Proof.
  intro H. destruct (declared_shape _ _ _ _ _ _ _ H) as [src [cl [x [_ [Hs _]]]]].
  apply (s_full_live _ _ _ _ Hs).
Qed.

Lemma unique_named s a k u1 u2 : Inv s ->
  In (u1, (a, Some k)) (live (root s)) -> In (u2, (a, Some k)) (live (root s)) -> u1 = u2.
Proof.
  intros HI H1 H2. pose proof (inv_uniq _ HI a k) as Hu. unfold lcnt in Hu.
  assert (E : (u1, (a, Some k)) = (u2, (a, Some k))).
  { apply (len_le1_eq _ _ _ Hu); apply filter_In; (split; [assumption|unfold fn; cbn [snd]; apply name_eqb_refl]). }
  inversion E. reflexivity.
Qed.

Definition is_inst_name (n : name) : bool := match snd n with Some _ => true | None => false end.

Lemma NoDup_of_counts (l : list (N * name)) :
  (forall n, is_inst_name n = true -> (length (filter (fn n) l) <= 1)%nat) ->
  NoDup (filter is_inst_name (map snd l)).
Proof.
  induction l as [|[u n] r IH]; intro H; cbn [map filter snd]; [constructor|].
  assert (Hr : forall m, is_inst_name m = true -> (length (filter (fn m) r) <= 1)%nat).
  { intros m Hm. specialize (H m Hm). cbn [filter] in H. destruct (fn m (u, n)); cbn [length] in H; lia. }
  destruct (is_inst_name n) eqn:E; [|apply IH; exact Hr].
  constructor; [|apply IH; exact Hr].
  intro Hin. apply filter_In in Hin. destruct Hin as [Hin _]. apply in_map_iff in Hin.
  destruct Hin as [[u' n'] [E1 Hin]]. cbn [snd] in E1. subst n'.
  specialize (H n E). cbn [filter] in H. unfold fn at 1 in H. cbn [snd] in H. rewrite name_eqb_refl in H.
  cbn [length] in H.
  assert (In (u', n) (filter (fn n) r)) by (apply filter_In; split; [exact Hin|unfold fn; cbn [snd]; apply name_eqb_refl]).
  destruct (filter (fn n) r); [contradiction|cbn [length] in H; lia].
Qed.

Lemma inst_names_NoDup s : Inv s -> NoDup (filter is_inst_name (map snd (live (root s)))).
Proof.
  intro HI. apply NoDup_of_counts. intros [a [k|]] Hn; [|discriminate]. apply (inv_uniq _ HI).
Qed.

Lemma live_names_unique c ops :
  NoDup (filter is_inst_name (map snd (live (root (impl_run c ops))))).
Proof. apply inst_names_NoDup, impl_run_Inv. Qed.

Lemma addressed_instance s p a k t u h sa : Inv s ->
  In (u, h, sa) (declared_deliveries (root s) p (a, Some k) t) ->
  In (u, (a, Some k)) (live (root s)) /\ forall u', In (u', (a, Some k)) (live (root s)) -> u' = u.
Proof.
  intros HI H. destruct (delivered_is_live _ _ _ _ _ _ _ H) as [nm [A [B|B]]]; [|discriminate B].
  subst nm. split; [exact A|]. intros u' A'. apply (unique_named s a k u' u HI A' A).
Qed.

(** ** destroyed objects never come back *)
Definition dead (v : N) (s : st) : Prop := v < next_uid s /\ lcnt (fu v) (root s) = 0%nat.

Lemma dead_step v s o : Inv s -> dead v s -> dead v (impl_step s o).
Proof.
  intros HI [Hv Hz]. destruct (stepped_uids s o _ (impl_step_cases s o (inv_cache s HI))) as [Uu Uv].
  specialize (Uv v). pose proof (in_range_spec (next_uid s) v (next_uid (impl_step s o))).
  destruct (in_range (next_uid s) v (next_uid (impl_step s o))); [lia|]. cbn [b2n] in Uv. split; lia.
Qed.

Lemma dead_run v ops : forall s, Inv s -> dead v s -> dead v (fold_left impl_step ops s).
Proof.
  induction ops as [|o ops IH]; intros s HI Hd; cbn [fold_left]; [exact Hd|].
  apply IH; [apply Inv_step; exact HI|apply dead_step; assumption].
Qed.

Lemma in_live_cnt v nm i : In (v, nm) (live i) -> (1 <= lcnt (fu v) i)%nat.
Proof.
  intro H. assert (0 < lcnt (fu v) i)%nat; [|lia]. apply lcnt_pos_in.
  exists (v, nm). split; [exact H|]. unfold fu. cbn [fst]. apply N.eqb_refl.
Qed.

Lemma destroy_kills s p n par kd v nm : Inv s ->
  get_node (root s) p = Some par -> find_kid (i_subs par) n = Some kd -> In (v, nm) (live kd) ->
  dead v (impl_step s (ODestroy p n)).
Proof.
  intros HI Ep Ek Hin. unfold impl_step. cbn [step_gen]. rewrite Ep, Ek.
  pose proof (in_live_cnt _ _ _ Hin) as H1. pose proof (inv_uid_uniq _ HI v) as H2.
  pose proof (destroy_cnt (fu v) _ _ _ _ _ Ep Ek) as H3.
  split; cbn [emit with_root root next_uid].
  - apply (inv_uid_lt _ HI). lia.
  - change (clear_caches ?z) with (erase z). lia.
Qed.

Lemma destroyed_stays_dead s p n ops par kd v nm : Inv s ->
  get_node (root s) p = Some par -> find_kid (i_subs par) n = Some kd -> In (v, nm) (live kd) ->
  forall nm', ~ In (v, nm') (live (root (fold_left impl_step (ODestroy p n :: ops) s))).
Proof.
  intros HI Ep Ek Hin nm' Hl. cbn [fold_left] in Hl.
  pose proof (destroy_kills _ _ _ _ _ _ _ HI Ep Ek Hin) as Hd.
  pose proof (dead_run v ops _ (Inv_step _ (ODestroy p n) HI) Hd) as [_ Hz].
  pose proof (in_live_cnt _ _ _ Hl). lia.
Qed.

(** ** save / load identity *)
Definition is_static (c : cls) : bool := negb (c_ctx c).
Definition statics (c : cls) : list cls := filter is_static (c_subs c).

(** LAYERS is a dictionary (sibling aliases distinct) and a non-contextual sub-layer does not
    carry its parent's alias (it could not be addressed from its parent) *)
Inductive wf_cls : cls -> Prop :=
| WF a x hs subs :
    NoDup (map c_alias subs) ->
    (forall sc, In sc subs -> c_ctx sc = false -> c_alias sc <> a) ->
    Forall wf_cls subs -> wf_cls (Cls a x hs subs).

Definition static_kid (P : inst -> Prop) (sc : cls) (k : inst) : Prop :=
  i_cls k = sc /\ i_name k = (c_alias sc, None) /\ P k.
Definition dyn_kid (c : cls) (P : inst -> Prop) (k : inst) : Prop :=
  exists a j sc, i_name k = (a, Some j) /\ find_cls (c_subs c) a = Some sc /\
                 c_ctx sc = true /\ i_cls k = sc /\ P k.

(** shape of a live object: one instance per non-contextual sub-class, in LAYERS order, then
    the contextual instances (distinct names, classes taken from LAYERS) *)
Inductive conf : inst -> Prop :=
| CF u c nm s ca S D :
    Forall2 (fun sc k => i_cls k = sc /\ i_name k = (c_alias sc, None) /\ conf k) (statics c) S ->
    Forall (fun k => exists a j sc, i_name k = (a, Some j) /\ find_cls (c_subs c) a = Some sc /\
                                    c_ctx sc = true /\ i_cls k = sc /\ conf k) D ->
    NoDup (map i_name D) ->
    conf (Inst u c nm s ca (S ++ D)).

Lemma conf_kids u c nm s ca kids u' nm' s' ca' kids' :
  conf (Inst u c nm s ca kids) ->
  Forall2 (fun k k' => i_cls k' = i_cls k /\ i_name k' = i_name k /\ (conf k -> conf k')) kids kids' ->
  conf (Inst u' c nm' s' ca' kids').
Proof.
  intros Hc H. inversion Hc as [? ? ? ? ? S D HS HD HN]; subst.
  apply Forall2_app_inv_l in H. destruct H as [S' [D' [H1 [H2 ->]]]].
  constructor.
  - apply (Forall2_comp _ _ _ _ _ _ HS H1). intros sc k k' [A [B C]] [-> [-> Hk]]. auto.
  - apply (Forall_Forall2 _ _ _ _ _ HD H2). intros k k' [a [j [sc [K1 [K2 [K3 [K4 K5]]]]]]] [-> [-> Hk]].
    exists a, j, sc. auto 6.
  - assert (E : map i_name D = map i_name D'); [|rewrite <- E; exact HN].
    apply Forall2_map_eq, (Forall2_impl_in _ _ _ _ H2). intros a b _ _ [_ [E _]]. symmetry. exact E.
Qed.

Definition fresh_of (k : inst) (c : cls) (nm : name) : Prop := exists u, k = fst (create c nm u).

Lemma c_pop_fresh l : forall u,
  Forall2 (fun sc k => fresh_of k sc (c_alias sc, None)) (filter is_static l) (fst (c_pop l u)).
Proof.
  induction l as [|s r IH]; intro u; cbn [c_pop filter]; [constructor|].
  unfold is_static at 1. destruct (c_ctx s); cbn [negb]; [apply IH|].
  destruct (create s (c_alias s, None) u) as [i u1] eqn:E. specialize (IH u1).
  destruct (c_pop r u1) as [is u2]. cbn [fst] in *. constructor; [|exact IH].
  exists u. rewrite E. reflexivity.
Qed.

Lemma fresh_shape k c nm : fresh_of k c nm ->
  exists u F, k = Inst u c nm None [] F /\
    Forall2 (fun sc k => fresh_of k sc (c_alias sc, None)) (statics c) F.
Proof.
  intros [u ->]. rewrite create_eq. pose proof (c_pop_fresh (c_subs c) (u + 1)) as H.
  destruct (c_pop (c_subs c) (u + 1)) as [F u']. cbn [fst] in *. exists u, F. split; [reflexivity|exact H].
Qed.

Definition loaded_as (s l : inst) : Prop :=
  save l = save s /\ conf l /\ i_name l = i_name s /\ i_cls l = i_cls s.

Definition can_load (i : inst) : Prop :=
  forall f, fresh_of f (i_cls i) (i_name i) ->
  forall u cs, exists r' u' cs', load (save i) f u cs = LOk r' u' cs' /\ loaded_as i r'.

Lemma save_name i : s_name (save i) = i_name i.
Proof. destruct i. reflexivity. Qed.

(** [load] walks the saved entries in order: first the static sub-layers, found under their names in
    the fresh object, then the contextual instances, created one after the other *)
Section Phases.
  Context (c : cls).

  Lemma static_phase : forall scs S F,
    Forall2 (static_kid can_load) scs S ->
    Forall2 (fun sc k => fresh_of k sc (c_alias sc, None)) scs F ->
    NoDup (map c_alias scs) ->
    (forall sc, In sc scs -> c_alias sc <> c_alias c) ->
    forall L u0 nm st rest u cs,
      (forall x sc, In x L -> In sc scs -> i_name x <> (c_alias sc, None)) ->
      exists L' u' cs',
        l_go (map save S ++ rest) (Inst u0 c nm st [] (L ++ F)) u cs
        = l_go rest (Inst u0 c nm st [] (L ++ L')) u' cs' /\
        Forall2 loaded_as S L'.
  Proof.
    intros scs0 S0 F H. revert F. induction H as [|sc s scs S Hs _ IH]; intros F HF Hnd Hself L u0 nm st rest u cs HL.
    - inversion HF; subst. exists [], u, cs. split; [reflexivity|constructor].
    - inversion HF as [|? fk ? F' Hfk HF']; subst. clear HF.
      inversion Hnd as [|? ? Hnin Hnd']; subst.
      destruct Hs as [Hc [Hn Hload]].
      cbn [map app l_go]. rewrite save_name, Hn. cbn [snd i_cls i_cache i_subs aget].
      assert (E1 : name_eqb (c_alias sc, None) (c_alias c, None) = false).
      { apply name_eqb_neq. intro E. inversion E. apply (Hself sc); [left; reflexivity|assumption]. }
      rewrite E1.
      assert (Nfk : i_name fk = (c_alias sc, None)) by (destruct Hfk as [uf ->]; apply create_hdr).
      assert (HLn : forall x, In x L -> i_name x <> (c_alias sc, None)).
      { intros x Hx. apply (HL x sc Hx). left. reflexivity. }
      rewrite (find_kid_skip L fk F' _ HLn Nfk).
      assert (Hfr : fresh_of fk (i_cls s) (i_name s)) by (rewrite Hc, Hn; exact Hfk).
      destruct (Hload fk Hfr u cs) as [k' [u1 [cs1 [El [La [Lb [Lc Ld]]]]]]].
      rewrite El. cbn [with_subs].
      rewrite (set_kid_skip L fk F' k'); [|rewrite Lc, Hn; exact HLn|rewrite Lc, Hn; exact Nfk].
      replace (L ++ k' :: F') with ((L ++ [k']) ++ F') by (rewrite <- app_assoc; reflexivity).
      destruct (IH F' HF' Hnd' (fun sc0 H0 => Hself sc0 (or_intror H0)) (L ++ [k']) u0 nm st rest u1 cs1) as [L' [u' [cs' [E2 HL']]]].
      { intros x sc0 Hx Hsc0. apply in_app_or in Hx. destruct Hx as [Hx|[<-|[]]].
        - apply (HL x sc0 Hx). right. exact Hsc0.
        - rewrite Lc, Hn. intro E. injection E as E. apply Hnin. rewrite E. apply in_map, Hsc0. }
      exists (k' :: L'), u', cs'. split.
      + rewrite E2. rewrite <- app_assoc. reflexivity.
      + constructor; [|exact HL']. unfold loaded_as. auto.
  Qed.

  Lemma dyn_phase : forall D,
    Forall (dyn_kid c can_load) D ->
    NoDup (map i_name D) ->
    forall L u0 nm st rest u cs,
      (forall x k, In x L -> In k D -> i_name x <> i_name k) ->
      exists D' u' cs',
        l_go (map save D ++ rest) (Inst u0 c nm st [] L) u cs
        = l_go rest (Inst u0 c nm st [] (L ++ D')) u' cs' /\
        Forall2 loaded_as D D'.
  Proof.
    induction 1 as [|k D Hk _ IH]; intros Hnd L u0 nm st rest u cs HL.
    - exists [], u, cs. rewrite app_nil_r. split; [reflexivity|constructor].
    - inversion Hnd as [|? ? Hnin Hnd']; subst.
      destruct Hk as [a [j [sc [Hn [Hf [Hctx [Hc Hload]]]]]]].
      cbn [map app l_go]. rewrite save_name, Hn. cbn [snd fst i_cls i_subs]. rewrite Hf.
      destruct (create sc (a, Some j) u) as [kf u1] eqn:Ec.
      assert (Hfr : fresh_of kf (i_cls k) (i_name k)).
      { exists u. rewrite Hc, Hn, Ec. reflexivity. }
      destruct (Hload kf Hfr u1 (bump cs a j)) as [k' [u2 [cs2 [El [La [Lb [Lc Ld]]]]]]].
      rewrite El. cbn [with_subs].
      rewrite set_kid_append.
      2:{ apply find_kid_none. intros x Hx. rewrite Lc. apply HL; [exact Hx|left; reflexivity]. }
      destruct (IH Hnd' (L ++ [k']) u0 nm st rest u2 cs2) as [D' [u' [cs' [E2 HD']]]].
      { intros x y Hx Hy. apply in_app_or in Hx. destruct Hx as [Hx|[Hx|[]]].
        - apply HL; [exact Hx|right; exact Hy].
        - subst x. rewrite Lc. intro E. apply Hnin. rewrite E. apply in_map. exact Hy. }
      exists (k' :: D'), u', cs'. split.
      + rewrite E2. rewrite <- app_assoc. reflexivity.
      + constructor; [|exact HD']. unfold loaded_as. auto.
  Qed.
End Phases.

Lemma wf_cls_inv c : wf_cls c ->
  NoDup (map c_alias (c_subs c)) /\
  (forall sc, In sc (c_subs c) -> c_ctx sc = false -> c_alias sc <> c_alias c) /\
  Forall wf_cls (c_subs c).
Proof. intro H. inversion H; subst. cbn. auto. Qed.

Lemma loaded_as_maps D D' : Forall2 loaded_as D D' -> map i_name D' = map i_name D /\ map save D' = map save D.
Proof.
  induction 1 as [|a b l1 l2 [Hs [_ [Hn _]]] _ [IHn IHs]]; [split; reflexivity|].
  cbn [map]. rewrite Hs, Hn, IHn, IHs. split; reflexivity.
Qed.

Lemma static_kid_in (scs : list cls) S (P : inst -> Prop) :
  Forall2 (static_kid P) scs S -> forall k, In k S -> exists sc, static_kid P sc k.
Proof.
  induction 1 as [|sc s scs0 S0 Hs _ IH]; intros k Hin; [contradiction|].
  destruct Hin as [<-|Hin]; [exists sc; exact Hs|apply IH; exact Hin].
Qed.

Lemma conf_can_load i : conf i -> wf_cls (i_cls i) -> can_load i.
Proof.
  induction i as [ui c nm st ca kids IH] using inst_ind'.
  intros Hconf Hwf f Hfr u cs. cbn [i_cls i_name] in *.
  inversion Hconf as [? ? ? ? ? S D HS HD HN]; subst.
  destruct (wf_cls_inv c Hwf) as [W1 [W2 W3]].
  destruct (fresh_shape _ _ _ Hfr) as [u0 [F [-> HF]]].
  apply Forall_app in IH. destruct IH as [IHS IHD].
  rewrite Forall_forall in IHS, IHD, W3.
  rewrite load_eq. cbn [save i_name i_state]. rewrite name_eqb_refl. cbn [negb with_state].
  rewrite map_app.
  assert (HS' : Forall2 (static_kid can_load) (statics c) S).
  { apply (Forall2_impl_in _ _ _ _ HS). intros sc k Hsc Hk [A [B C]].
    apply filter_In in Hsc. destruct Hsc as [Hsc _].
    split; [exact A|]. split; [exact B|]. apply IHS; [exact Hk|exact C|rewrite A; apply W3, Hsc]. }
  assert (Hself : forall sc, In sc (statics c) -> c_alias sc <> c_alias c).
  { intros sc Hsc. apply filter_In in Hsc. destruct Hsc as [Hsc Hx]. apply W2; [exact Hsc|].
    unfold is_static in Hx. destruct (c_ctx sc); [discriminate|reflexivity]. }
  destruct (static_phase c _ _ _ HS' HF (NoDup_map_filter _ _ _ W1) Hself [] u0 nm (merge_state None st) (map save D) u cs)
    as [L' [u1 [cs1 [E1 HL']]]]; [intros x sc []|].
  cbn [app] in E1. rewrite E1.
  assert (HD' : Forall (dyn_kid c can_load) D).
  { rewrite Forall_forall in *. intros k Hk. destruct (HD k Hk) as [a [j [sc [Hn [Hf [Hx [Hc Hcf]]]]]]].
    exists a, j, sc. repeat split; try assumption.
    apply IHD; [exact Hk|exact Hcf|rewrite Hc; apply W3, (find_cls_in _ _ _ Hf)]. }
  destruct (dyn_phase c D HD' HN L' u0 nm (merge_state None st) [] u1 cs1) as [D' [u2 [cs2 [E2 HDl]]]].
  { (* the names loaded so far are those of static sub-layers *)
    intros x k Hx Hk E. rewrite Forall_forall in HD. destruct (HD k Hk) as [a [j [_ [Hn _]]]].
    assert (Hin : In (i_name x) (map i_name L')) by (apply in_map; exact Hx).
    rewrite (proj1 (loaded_as_maps _ _ HL')) in Hin. apply in_map_iff in Hin. destruct Hin as [s0 [Es0 Hs0]].
    destruct (static_kid_in _ _ _ HS s0 Hs0) as [sc [_ [Hsc _]]]. rewrite Hsc in Es0. rewrite <- Es0, Hn in E. discriminate E. }
  rewrite app_nil_r in E2. rewrite E2. cbn [l_go]. pose proof (Forall2_app HL' HDl) as HK.
  exists (Inst u0 c nm (merge_state None st) [] (L' ++ D')), u2, cs2. split; [reflexivity|].
  unfold loaded_as. cbn [save i_name i_cls]. split; [|split; [|auto]].
  - f_equal; [destruct st; reflexivity|apply (loaded_as_maps _ _ HK)].
  - apply (conf_kids _ _ _ _ _ _ _ _ _ _ _ Hconf), (Forall2_impl_in _ _ _ _ HK).
    intros k k' _ _ [_ [Hc [Hn Hcl]]]. auto.
Qed.

Lemma conf_skel_eq i : forall j, skel i = skel j -> conf i -> conf j.
Proof.
  induction i as [u c nm s ca kids IH] using inst_ind'. intros [u' c' nm' s' ca' kids'] H Hc.
  cbn [skel imap] in H. injection H as _ <- _ Hk. apply (conf_kids _ _ _ _ _ _ _ _ _ _ _ Hc).
  apply Forall2_map_eq in Hk. apply (Forall2_impl_in _ _ _ _ Hk). intros k k' Hin _ Hkk.
  destruct (skel_eq_hdr _ _ Hkk) as [_ [Hcl Hn]]. rewrite Forall_forall in IH.
  split; [symmetry; exact Hcl|]. split; [symmetry; exact Hn|apply (IH k Hin k' Hkk)].
Qed.

Lemma create_conf c : forall nm u, conf (fst (create c nm u)).
Proof.
  induction c as [a x hs subs IH] using cls_ind'. intros nm u.
  destruct (fresh_shape (fst (create (Cls a x hs subs) nm u)) (Cls a x hs subs) nm (ex_intro _ u eq_refl)) as [u0 [F [E HF]]].
  rewrite E. rewrite <- (app_nil_r F). constructor; [|constructor|constructor].
  cbn [c_subs] in *. rewrite Forall_forall in IH.
  apply (Forall2_impl_in _ _ _ _ HF). intros sc k Hsc _ [uk ->].
  apply filter_In in Hsc. destruct Hsc as [Hsc _].
  destruct (create_hdr sc (c_alias sc, None) uk) as [_ [A [B _]]]. split; [exact A|]. split; [exact B|].
  apply IH. exact Hsc.
Qed.

Lemma conf_set_node p : forall r j v, conf r -> get_node r p = Some j -> conf v ->
  same_hdr v j -> conf (set_node r p v).
Proof.
  induction p as [|x q IH]; intros r j v Hc Hg Hv E; cbn [get_node set_node] in *; [exact Hv|].
  destruct (find_kid (i_subs r) x) as [k|] eqn:Ek; [|discriminate].
  destruct r as [u c nm s ca kids]. cbn [i_subs with_subs] in *.
  apply (conf_kids _ _ _ _ _ _ _ _ _ _ _ Hc), map_kid_rel; [auto|].
  intros k0 Hk0. rewrite Ek in Hk0. injection Hk0 as <-.
  destruct (set_node_hdr q k j v Hg E) as [_ [H1 H2]]. split; [exact H1|]. split; [exact H2|].
  intro Ck. apply (IH k j v Ck Hg Hv E).
Qed.

(** shape invariant of a run *)
Definition CInv (c : cls) (s : st) : Prop :=
  conf (root s) /\ i_cls (root s) = c /\ i_name (root s) = (c_alias c, None) /\
  (forall sv, saved s = Some sv ->
     exists r0, sv = save r0 /\ conf r0 /\ i_cls r0 = c /\ i_name r0 = (c_alias c, None)).

Definition static_ok (o : op) : Prop :=
  match o with ODestroy _ n => snd n <> None | _ => True end.

Lemma conf_subs_inv i : conf i -> exists S D, i_subs i = S ++ D /\
  Forall2 (static_kid conf) (statics (i_cls i)) S /\ Forall (dyn_kid (i_cls i) conf) D /\
  NoDup (map i_name D).
Proof. intro H. inversion H; subst. cbn. exists S, D. auto. Qed.

Lemma conf_with_subs i S D :
  Forall2 (static_kid conf) (statics (i_cls i)) S -> Forall (dyn_kid (i_cls i) conf) D ->
  NoDup (map i_name D) -> conf (with_subs i (S ++ D)).
Proof. destruct i as [a1 a2 a3 a4 a5 a6]. cbn. intros. constructor; assumption. Qed.

Lemma static_names_none (scs : list cls) S (P : inst -> Prop) n :
  Forall2 (static_kid P) scs S -> snd n <> None -> forall k, In k S -> i_name k <> n.
Proof.
  intros H Hn k Hk E. destruct (static_kid_in _ _ _ H k Hk) as [sc [_ [Hsc _]]].
  rewrite Hsc in E. subst n. apply Hn. reflexivity.
Qed.

Lemma conf_kid i k : conf i -> In k (i_subs i) -> conf k.
Proof.
  intros H Hk. destruct (conf_subs_inv _ H) as [S [D [E [HS [HD _]]]]]. rewrite E in Hk.
  apply in_app_or in Hk. destruct Hk as [Hk|Hk].
  - destruct (static_kid_in _ _ _ HS k Hk) as [sc [_ [_ C]]]. exact C.
  - rewrite Forall_forall in HD. destruct (HD k Hk) as [a [j [sc [_ [_ [_ [_ C]]]]]]]. exact C.
Qed.

Lemma conf_get_node p : forall r j, conf r -> get_node r p = Some j -> conf j.
Proof.
  induction p as [|x q IH]; intros r j Hc H; cbn [get_node] in H.
  - inversion H; subst. exact Hc.
  - destruct (find_kid (i_subs r) x) as [k|] eqn:Ek; [|discriminate].
    apply (IH k); [|exact H]. apply (conf_kid r), (find_kid_in _ _ _ Ek). exact Hc.
Qed.

Lemma conf_add p r par a j sc ni : conf r -> get_node r p = Some par ->
  find_cls (c_subs (i_cls par)) a = Some sc -> c_ctx sc = true ->
  conf ni -> i_cls ni = sc -> i_name ni = (a, Some j) -> find_kid (i_subs par) (a, Some j) = None ->
  conf (set_node r p (with_subs par (i_subs par ++ [ni]))).
Proof.
  intros Hcf Ep Ec Ex Hni Hcl Hnm Fk.
  destruct (conf_subs_inv _ (conf_get_node p _ _ Hcf Ep)) as [S [D [E [HS [HD HN]]]]].
  apply (conf_set_node p _ par); [exact Hcf|exact Ep| |apply with_subs_hdr].
  rewrite E, <- app_assoc. apply conf_with_subs; [exact HS| |].
  - apply Forall_app. split; [exact HD|]. constructor; [|constructor].
    exists a, j, sc. repeat split; assumption.
  - (* the new instance goes behind the others, under a name none of them has *)
    rewrite map_app. cbn [map]. apply (NoDup_Add (Add_app _ _ [])). rewrite app_nil_r. split; [exact HN|].
    intro Hin. apply in_map_iff in Hin. destruct Hin as [y [Ey Hy]].
    apply (proj1 (find_kid_none _ _) Fk y); [rewrite E; apply in_or_app; right; exact Hy|congruence].
Qed.

Lemma conf_del p r par n : conf r -> get_node r p = Some par -> snd n <> None ->
  conf (set_node r p (with_subs par (del_kid (i_subs par) n))).
Proof.
  intros Hcf Ep Hn.
  destruct (conf_subs_inv _ (conf_get_node p _ _ Hcf Ep)) as [S [D [E [HS [HD HN]]]]].
  apply (conf_set_node p _ par); [exact Hcf|exact Ep| |apply with_subs_hdr].
  (* only a contextual instance can go: the static part is untouched *)
  rewrite E, del_kid_app_skip; [|apply (static_names_none _ _ _ n HS Hn)].
  apply conf_with_subs; [exact HS| |apply del_kid_nodup; exact HN].
  rewrite Forall_forall in *. intros y Hy. apply HD. apply (del_kid_incl D n). exact Hy.
Qed.

Lemma CInv_step c s o : wf_cls c -> Inv s -> CInv c s -> static_ok o -> CInv c (impl_step s o).
Proof.
  intros Hwf HI [Hcf [Hcl [Hnm Hsv]]] Hso. pose proof (impl_step_cases s o (inv_cache s HI)) as St.
  destruct (stepped_hdr s o _ St) as [Rc Rn]. unfold CInv. rewrite Rc, Rn.
  split; [|split; [exact Hcl|split; [exact Hnm|]]].
  - destruct St as [o r' e Hsk _|e|p a par sc ni u' e Ep Ec Ex Ecr|p n par kd e Ep Ek
                   |sv fresh u1 r' u2 cs' e Es Ecr El|fresh u1 e Ecr]; cbn [emit with_root root].
    + apply (conf_skel_eq (root s)); [symmetry; exact Hsk|exact Hcf].
    + exact Hcf.
    + destruct (create_spec Ecr) as [Hh2 Hh3 _ _ _ _].
      destruct (next_name_fresh s p par a HI Ep) as [_ Fk].
      pose proof (create_conf sc (a, Some (next_count (counts s) a)) (next_uid s)) as Hcn. rewrite Ecr in Hcn.
      rewrite set_kid_append by (rewrite Hh3; exact Fk).
      apply (conf_add p _ par a (next_count (counts s) a) sc); assumption.
    + apply (conf_skel_eq (set_node (root s) p (with_subs par (del_kid (i_subs par) n)))); [symmetry; apply skel_erase|].
      apply (conf_del p _ par n); assumption.
    + (* the saved state was taken from a stack of this shape *)
      destruct (Hsv sv Es) as [r0 [-> [C0 [C1 C2]]]].
      assert (Hfr : fresh_of fresh (i_cls r0) (i_name r0)).
      { exists (next_uid s). rewrite C2, <- Hnm, C1, <- Hcl, Ecr. reflexivity. }
      rewrite <- C1 in Hwf.
      destruct (conf_can_load r0 C0 Hwf fresh Hfr u1 (counts s)) as [r'' [u2' [cs'' [El' [_ [La _]]]]]].
      rewrite El in El'. inversion El'; subst. exact La.
    + pose proof (create_conf (i_cls (root s)) (i_name (root s)) (next_uid s)) as Hcn.
      rewrite Ecr in Hcn. exact Hcn.
  - destruct St; cbn [emit with_root saved]; try exact Hsv.
    intros sv H. inversion H; subst sv. exists (root s). auto.
Qed.

Lemma init_CInv c : CInv c (init c).
Proof.
  unfold init. pose proof (create_conf c (c_alias c, None) 0) as Hc.
  pose proof (create_hdr c (c_alias c, None) 0) as Hh.
  destruct (create c (c_alias c, None) 0) as [r u]. cbn [fst] in *. destruct Hh as [_ [A [B _]]].
  unfold CInv. cbn [root saved]. repeat split; auto. discriminate.
Qed.

Lemma run_CInv c ops : wf_cls c -> Forall static_ok ops -> forall s, Inv s -> CInv c s ->
  CInv c (fold_left impl_step ops s).
Proof.
  intros Hwf H. induction H as [|o ops Ho _ IH]; intros s HI HC; cbn [fold_left]; [exact HC|].
  apply IH; [apply Inv_step; exact HI|apply CInv_step; assumption].
Qed.

Lemma save_load_id c s : wf_cls c -> CInv c s ->
  exists r' l,
    trace (impl_step (impl_step s OSave) OLoad)
    = ELoad l (save r') :: ESave (save (root s)) :: trace s /\
    save r' = save (root s).
Proof.
  intros Hwf [Hcf [Hcl _]].
  unfold impl_step at 2. cbn [step_gen]. unfold impl_step. cbn [step_gen saved root next_uid counts trace].
  destruct (create (i_cls (root s)) (i_name (root s)) (next_uid s)) as [fresh u1] eqn:Ec.
  assert (Hfr : fresh_of fresh (i_cls (root s)) (i_name (root s))) by (exists (next_uid s); rewrite Ec; reflexivity).
  rewrite <- Hcl in Hwf.
  destruct (conf_can_load (root s) Hcf Hwf fresh Hfr u1 (counts s)) as [r' [u2 [cs' [El [La _]]]]].
  rewrite El. exists r', (live r'). cbn [trace]. split; [reflexivity|exact La].
Qed.

Theorem load_save_id c ops : wf_cls c -> Forall static_ok ops ->
  let s := impl_run c ops in
  exists r' l,
    trace (impl_step (impl_step s OSave) OLoad)
    = ELoad l (save r') :: ESave (save (root s)) :: trace s /\
    save r' = save (root s).
Proof.
  intros Hwf Hso. apply (save_load_id c); [exact Hwf|].
  apply (run_CInv c ops Hwf Hso); [apply init_Inv|apply init_CInv].
Qed.

Lemma nodupb_sound l : nodupb l = true -> NoDup l.
Proof.
  induction l as [|x r IH]; intro H; [constructor|]. cbn [nodupb] in H.
  apply andb_true_iff in H. destruct H as [H1 H2]. constructor; [|apply IH; exact H2].
  intro Hin. apply negb_true_iff in H1. assert (existsb (N.eqb x) r = true); [|congruence].
  apply existsb_exists. exists x. split; [exact Hin|apply N.eqb_refl].
Qed.

Lemma wf_clsb_sound c : wf_clsb c = true -> wf_cls c.
Proof.
  induction c as [a x hs subs IH] using cls_ind'. intro H. cbn [wf_clsb] in H.
  apply andb_true_iff in H. destruct H as [H H3]. apply andb_true_iff in H. destruct H as [H1 H2].
  constructor.
  - apply nodupb_sound. exact H1.
  - intros sc Hin Hx E. rewrite forallb_forall in H2. specialize (H2 sc Hin). rewrite Hx in H2.
    cbn in H2. apply negb_true_iff in H2. apply N.eqb_neq in H2. contradiction.
  - induction IH as [|k r Hk _ IHr]; [constructor|].
    apply andb_true_iff in H3. destruct H3 as [A B]. constructor; [apply Hk; exact A|].
    apply IHr; [| |exact B].
    + cbn [map nodupb] in H1. apply andb_true_iff in H1. apply H1.
    + cbn [forallb] in H2. apply andb_true_iff in H2. apply H2.
Qed.

Lemma static_okb_sound ops : forallb static_okb ops = true -> Forall static_ok ops.
Proof.
  intro H. rewrite forallb_forall in H. apply Forall_forall. intros o Ho. specialize (H o Ho).
  destruct o; cbn in *; auto. destruct (snd n); [discriminate|discriminate H].
Qed.

(** ** Layer classes deriving from other layer classes *)
Lemma insert_id_in x l y : In y (insert_id x l) <-> y = x \/ In y l.
Proof.
  induction l as [|z r IH]; cbn [insert_id].
  - split; [intros [<-|[]]; auto|intros [->|[]]; left; reflexivity].
  - destruct (N.ltb x z); [cbn [In]; split; [intros [<-|H]; auto|intros [->|H]; auto]|].
    destruct (N.eqb x z) eqn:E.
    + apply N.eqb_eq in E. subst z. cbn [In]. split; [auto|intros [->|H]; auto].
    + cbn [In]. rewrite IH. split; [intros [H|[H|H]]; auto|intros [H|[H|H]]; auto].
Qed.

Lemma sort_ids_in l y : In y (sort_ids l) <-> In y l.
Proof.
  induction l as [|x r IH]; [reflexivity|]. cbn [sort_ids fold_right]. fold (sort_ids r).
  rewrite insert_id_in, IH. cbn [In]. split; intros [H|H]; auto.
Qed.

Lemma find_hd_some l i h : find_hd l i = Some h -> In h l /\ h_id h = i.
Proof.
  induction l as [|x r IH]; [discriminate|]. cbn [find_hd]. destruct (N.eqb (h_id x) i) eqn:E; intro H.
  - inversion H; subst. split; [left; reflexivity|apply N.eqb_eq; exact E].
  - destruct (IH H). split; [right; assumption|assumption].
Qed.

Lemma visible_some chain i h : visible chain i = Some h ->
  h_id h = i /\ exists own, In own chain /\ In h own.
Proof.
  induction chain as [|own r IH]; [discriminate|]. cbn [visible].
  destruct (find_hd own i) as [h0|] eqn:E; intro H.
  - inversion H; subst h0. destruct (find_hd_some _ _ _ E) as [A B]. split; [exact B|].
    exists own. split; [left; reflexivity|exact A].
  - destruct (IH H) as [A [o [B C]]]. split; [exact A|]. exists o. split; [right; exact B|exact C].
Qed.

(** the methods [__init__] registers are exactly the definitions [getattr] resolves to *)
Lemma effective_in chain h : In h (effective chain) <-> visible chain (h_id h) = Some h.
Proof.
  unfold effective. rewrite in_flat_map. split.
  - intros [i [_ Hi]]. destruct (visible chain i) as [h0|] eqn:E; [|contradiction].
    destruct Hi as [<-|[]]. destruct (visible_some _ _ _ E) as [A _]. rewrite A. exact E.
  - intro H. exists (h_id h). rewrite H. split; [|left; reflexivity].
    apply sort_ids_in. destruct (visible_some _ _ _ H) as [_ [own [A B]]].
    apply in_flat_map. exists own. split; [exact A|apply in_map; exact B].
Qed.

Lemma inherited_visible own rest i : find_hd own i = None -> visible (own :: rest) i = visible rest i.
Proof. intro H. cbn [visible]. rewrite H. reflexivity. Qed.

(** ** [add] / [remove] only affect the class they are called on and the classes derived from it *)

Lemma layers_of_aset_other fuel p : forall ls c d c',
  ~ In c (mro_ids fuel p c') -> layers_of fuel p (aset N.eqb ls c d) c' = layers_of fuel p ls c'.
Proof.
  induction fuel as [|f IH]; intros ls c d c' H; [reflexivity|].
  cbn [layers_of mro_ids] in *.
  assert (Hne : c <> c').
  { intro E. apply H. subst c'. destruct (aget N.eqb p c) as [[a x o pre b post]|]; left; reflexivity. }
  rewrite (aget_aset_other ls c d c' Hne).
  destruct (aget N.eqb ls c'); [reflexivity|].
  destruct (aget N.eqb p c') as [[a x o pre [b|] post]|]; try reflexivity.
  apply IH. intro Hin. apply H. right. exact Hin.
Qed.

(** ** the counter owner is shared along a hierarchy *)
Lemma mro_ids_suffix fuel p : forall c1 c2, In c2 (mro_ids fuel p c1) ->
  exists fuel' l1 r, mro_ids fuel p c1 = l1 ++ mro_ids fuel' p c2 /\ mro_ids fuel' p c2 = c2 :: r.
Proof.
  induction fuel as [|f IH]; intros c1 c2 H; [contradiction|].
  cbn [mro_ids] in *. destruct (aget N.eqb p c1) as [[a x o pre b post]|] eqn:E.
  - destruct H as [<-|H].
    + eexists (S f), [], _. cbn [mro_ids app]. rewrite E. split; reflexivity.
    + destruct b as [j|]; [|contradiction]. destruct (IH j c2 H) as [f' [l1 [r [A B]]]].
      exists f', (c1 :: l1), r. rewrite A. split; [reflexivity|exact B].
  - destruct H as [<-|[]]. eexists (S f), [], _. cbn [mro_ids app]. rewrite E. split; reflexivity.
Qed.

