(** C12 — the property theorems, each a short consequence of Proofs.v.
    [impl_run c ops] is the model of the (repaired) framework run on class tree [c] with the
    operation sequence [ops]; [spec_run] is the reference: scoped dictionary router without
    memoisation + declared-handler dictionary + counter name allocator. *)
From Coq Require Import List NArith Bool.
From Whad Require Import C12.Model C12.Proofs.
Import ListNotations.
Open Scope N_scope.

(** The handler table built by [Layer.__init__] from the decorators is exactly the dictionary
    of declared (source, tag) pairs, with the default-tag fallback of that same source:
    for ALL handler declarations (any number of decorators, tags, sources per method). *)
Theorem C12_handler_table_exact :
  forall (hs : list hdecl) (s t : N),
    get_handler (build_handlers hs) s t = spec_table hs s t.
Proof. exact handler_table_exact. Qed.

(** Refinement, for ALL class trees and ALL operation sequences: every observation
    (deliveries of each send, names/objects live after each instantiate/destroy/load,
    save() outputs) of the implementation model equals the reference's. *)
Theorem C12_refinement :
  forall (c : cls) (ops : list op), trace (impl_run c ops) = trace (spec_run c ops).
Proof. exact refinement. Qed.

(** Exact routing: in any reachable state, a send from the layer at [p] to [dst] with tag [t]
    is delivered to the handler the destination declared for (source alias, tag), else to
    its default handler for that source, with the declared calling convention — and to
    nothing else: the event is exactly [declared_deliveries], a list of at most one call. *)
Theorem C12_routes_exactly_declared_handler :
  forall (c : cls) (ops : list op) (p : list (N * option N)) (dst : N * option N) (t : N),
    let s := impl_run c ops in
    trace (impl_step s (OSend p dst t)) =
    match get_node (root s) p with
    | None => ESkip
    | Some _ => ESend (declared_deliveries (root s) p dst t)
    end :: trace s.
Proof. intros. apply send_event, impl_run_Inv. Qed.

Theorem C12_delivered_at_most_once :
  forall rt p dst t, (length (declared_deliveries rt p dst t) <= 1)%nat.
Proof.
  intros. unfold declared_deliveries, deliver. destruct (get_node rt p) as [src|]; [|apply le_0_n].
  destruct (s_full rt (rev p) dst) as [[u c]|]; [|apply le_0_n].
  destruct (spec_table (c_handlers c) (fst (i_name src)) t) as [[h x]|]; [apply le_n|apply le_0_n].
Qed.

Theorem C12_delivery_is_the_declared_one :
  forall rt p dst t u h sa, In (u, h, sa) (declared_deliveries rt p dst t) ->
    exists src cl x, get_node rt p = Some src /\ s_full rt (rev p) dst = Some (u, cl) /\
      spec_table (c_handlers cl) (fst (i_name src)) t = Some (h, x) /\
      sa = (if x then Some (i_name src) else None).
Proof. exact declared_shape. Qed.

(** Unique live instances: the names of all live contextual instances are pairwise
    distinct, in every reachable state. *)
Theorem C12_live_names_unique :
  forall (c : cls) (ops : list op),
    NoDup (filter is_inst_name (map snd (live (root (impl_run c ops))))).
Proof. exact live_names_unique. Qed.

(** ... so a message addressed to an instance name reaches the one live object carrying it. *)
Theorem C12_instance_addressing :
  forall (c : cls) (ops : list op) p a k t u h sa u',
    let s := impl_run c ops in
    In (u, h, sa) (declared_deliveries (root s) p (a, Some k) t) ->
    In (u, (a, Some k)) (live (root s)) /\
    (In (u', (a, Some k)) (live (root s)) -> u' = u).
Proof.
  intros c ops p a k t u h sa u' s H.
  destruct (addressed_instance s p a k t u h sa (impl_run_Inv c ops) H) as [A B]. split; [exact A|apply B].
Qed.

(** Destroyed instances are unreachable: deliveries only reach live objects, and no object
    of a destroyed sub-tree is ever live again, whatever happens afterwards. *)
Theorem C12_deliveries_reach_live_objects_only :
  forall rt p dst t u h sa, In (u, h, sa) (declared_deliveries rt p dst t) ->
    exists nm, In (u, nm) (live rt) /\ (nm = dst \/ snd dst = None).
Proof. exact delivered_is_live. Qed.

Theorem C12_destroyed_unreachable :
  forall (c : cls) (ops1 : list op) p n (ops2 : list op) par kd v nm,
    get_node (root (impl_run c ops1)) p = Some par -> find_kid (i_subs par) n = Some kd ->
    In (v, nm) (live kd) ->
    forall nm', ~ In (v, nm') (live (root (impl_run c (ops1 ++ ODestroy p n :: ops2)))).
Proof.
  intros c ops1 p n ops2 par kd v nm Ep Ek Hin. unfold impl_run. rewrite fold_left_app.
  apply (destroyed_stays_dead _ p n ops2 par kd v nm (impl_run_Inv c ops1) Ep Ek Hin).
Qed.

(** The defect repaired by the first fix, on the model of the old loop: registering only the
    last tag of each source does NOT give the declared dictionary. *)
Theorem C12_handler_table_v0_refuted :
  exists hs s t, get_handler (build_handlers_v0 hs) s t <> spec_table hs s t.
Proof.
  exists [Hd 0 [Dc 1 2 false; Dc 1 1 false]; Hd 1 [Dc 1 0 false]], 1, 2.
  vm_compute. discriminate.
Qed.

(** Layer classes deriving from other layer classes.  [chain] = the method dictionaries along
    the MRO (the class itself first); [effective chain] = what [Layer.__init__] iterates over
    ([dir(self)] sorted, [getattr(self, name)] = nearest definition).  For ALL chains: the
    table of the derived class is the dictionary of the pairs declared by the VISIBLE
    definitions; it is a function of the class alone (not of which classes were instantiated
    before). *)
Theorem C12_handler_table_exact_derived :
  forall (chain : list (list hdecl)) (s t : N),
    get_handler (build_handlers (effective chain)) s t = spec_table (effective chain) s t.
Proof. intros. apply handler_table_exact. Qed.

Theorem C12_registered_methods_are_the_visible_definitions :
  forall (chain : list (list hdecl)) (h : hdecl),
    In h (effective chain) <-> visible chain (h_id h) = Some h.
Proof. exact effective_in. Qed.

Theorem C12_override_hides_base_definition :
  forall own rest ho hb, find_hd own (h_id hb) = Some ho -> In hb (effective (own :: rest)) -> hb = ho.
Proof.
  intros own rest ho hb H Hin. apply effective_in in Hin. cbn [visible] in Hin. rewrite H in Hin.
  inversion Hin. reflexivity.
Qed.

Theorem C12_derived_handler_sound :
  forall chain s t m x,
    get_handler (build_handlers (effective chain)) s t = Some (m, x) ->
    exists h, visible chain m = Some h /\ x = h_contextual h /\
      (declares h s t = true \/
       (declares h s 0 = true /\ forall h', In h' (effective chain) -> declares h' s t = false)).
Proof.
  intros chain s t m x H. destruct (handler_sound _ _ _ _ _ H) as [h [Hin [-> Hh]]].
  exists h. split; [apply effective_in, Hin|exact Hh].
Qed.

Theorem C12_derived_handler_complete :
  forall chain s t h, visible chain (h_id h) = Some h -> declares h s t = true ->
    exists h', visible chain (h_id h') = Some h' /\ declares h' s t = true /\
      get_handler (build_handlers (effective chain)) s t = Some (h_id h', h_contextual h').
Proof.
  intros chain s t h Hv Hd. apply effective_in in Hv.
  destruct (handler_complete _ s t h Hv Hd) as [h' [Hin Hh]].
  exists h'. split; [apply effective_in, Hin|exact Hh].
Qed.

(** ... and the refinement holds for stacks whose class tree results from a class pool with
    inheritance [p] and any [add]/[remove] set-up ([ls] = the LAYERS dictionaries it produced),
    whatever the order in which base and derived classes get instantiated. *)
Theorem C12_refinement_derived :
  forall depth p ls rt (ops : list op),
    trace (impl_run (elabc depth p ls rt) ops) = trace (spec_run (elabc depth p ls rt) ops).
Proof. intros. apply refinement. Qed.

(** [cls.add(sub)] / [cls.remove(sub)] change the sub-layers of [cls] and of the classes derived
    from it only: a class [c'] whose MRO does not contain [cls] (in particular every base class
    of [cls]) keeps its sub-layer dictionary; on [cls] itself [add] is a dictionary assignment
    on (a copy of) the dictionary it inherits. *)
Theorem C12_add_remove_are_local :
  forall p ls st c',
    ~ In (match st with SAdd c _ => c | SRemove c _ => c end) (mro_ids (S (length p)) p c') ->
    layers_of (S (length p)) p (setup_step p ls st) c' = layers_of (S (length p)) p ls c'.
Proof.
  intros p ls st c' H. destruct st as [c sub|c sub]; unfold setup_step.
  - apply layers_of_aset_other, H.
  - destruct (layers_of (S (length p)) p ls c) as [d|]; [|reflexivity].
    destruct (aget N.eqb d (alias_of p sub)); [|reflexivity]. apply layers_of_aset_other, H.
Qed.

Theorem C12_add_extends_the_inherited_dictionary :
  forall p ls c sub,
    layers_of (S (length p)) p (setup_step p ls (SAdd c sub)) c
    = Some (aset N.eqb (match layers_of (S (length p)) p ls c with Some d => d | None => [] end)
                 (alias_of p sub) sub).
Proof.
  intros. unfold setup_step. cbn [layers_of]. rewrite (aget_aset N.eqb N.eqb_eq), N.eqb_refl. reflexivity.
Qed.

(** The instance counter of a class is kept by [instcount_owner] = the last class of its MRO that
    carries the same alias.  A class of the MRO carrying that alias has the same owner: base and
    derived classes with one alias share one counter, whatever plain mixins (before or after the
    layer base) or differently-aliased classes sit between them - which is what makes the
    per-alias numbering of the model (and [C12_live_names_unique]) apply to such hierarchies;
    [counter_ok] is evaluated on every generated case. *)
Theorem C12_counter_owner_shared :
  forall fuel p c1 c2,
    In c2 (mro_ids fuel p c1) -> alias_of p c2 = alias_of p c1 ->
    exists fuel', owner_in p (alias_of p c1) (mro_ids fuel p c1) c1
                = owner_in p (alias_of p c2) (mro_ids fuel' p c2) c2.
Proof.
  intros fuel p c1 c2 H Ha. destruct (mro_ids_suffix fuel p c1 c2 H) as [f' [l1 [r [A B]]]].
  exists f'. unfold owner_in. rewrite A, Ha, filter_app. apply last_app_ne.
  rewrite B. cbn [filter]. rewrite Ha, N.eqb_refl. discriminate.
Qed.

(** Non-vacuity for inheritance: base class (methods 0: default of source 1, 1: tag 1 of source 1),
    derived class adds method 2 (tag 2 of source 1) and method 3 (new source 5) and overrides
    method 1 without decorators: tag 2 -> 2, source 5 -> 3, tag 1 -> falls back to 0. *)
Example C12_nonvacuous_derived :
  let base := [Hd 0 [Dc 1 0 false]; Hd 1 [Dc 1 1 false]] in
  let own := [Hd 1 []; Hd 2 [Dc 1 2 false]; Hd 3 [Dc 5 0 true]] in
  let tb := build_handlers (effective [own; base]) in
  map h_id (effective [own; base]) = [0; 1; 2; 3] /\
  get_handler tb 1 2 = Some (2, false) /\ get_handler tb 5 0 = Some (3, true) /\
  get_handler tb 1 1 = Some (0, false) /\ get_handler (build_handlers (effective [base])) 1 2 = Some (0, false).
Proof. cbv zeta. repeat split; vm_compute; reflexivity. Qed.

(** State save/load: for every class tree whose LAYERS are dictionaries and whose static
    sub-layers do not carry their parent's alias, and every operation sequence that destroys
    only contextual instances, saving the reached stack and loading the result into a fresh
    stack of the same classes succeeds and reproduces the saved state. *)
Theorem C12_load_save_id :
  forall (c : cls) (ops : list op), wf_cls c -> Forall static_ok ops ->
    let s := impl_run c ops in
    exists r' l,
      trace (impl_step (impl_step s OSave) OLoad)
      = ELoad l (save r') :: ESave (save (root s)) :: trace s /\
      save r' = save (root s).
Proof. exact load_save_id. Qed.

(** Non-vacuity: a stack with a contextual class (3) instantiated three times (names
    3#0, 3#1, 3#2), the second destroyed; class 2 has a contextual handler 0 declared for
    tags 2 and 1 of source 3 and a default handler 1 for source 3. Tag 1 reaches handler 0
    with the instance name, tag 3 falls back to handler 1, the destroyed name reaches nothing. *)
Example C12_nonvacuous :
  let c := Cls 1 false [] [Cls 2 false [Hd 0 [Dc 3 2 true; Dc 3 1 true]; Hd 1 [Dc 3 0 false]] [];
                           Cls 3 true [] [Cls 4 false [] []]] in
  let ops := [OInst [] 3; OInst [] 3; OInst [] 3; ODestroy [] (3, Some 1);
              OSend [(3, Some 2)] (2, None) 1; OSend [(3, Some 2)] (2, None) 3;
              OSend [] (3, Some 1) 0; OSave; OLoad] in
  wf_cls c /\ Forall static_ok ops /\
  firstn 3 (skipn 4 (rev (trace (impl_run c ops))))
  = [ESend [(1, 0, Some (3, Some 2))]; ESend [(1, 1, None)]; ESend []] /\
  map fst (live (root (impl_run c ops))) = [8; 9; 10; 11; 12; 13] /\
  map snd (live (root (impl_run c ops))) = [(1, None); (2, None); (3, Some 0); (4, None); (3, Some 2); (4, None)].
Proof.
  cbv zeta. split; [apply wf_clsb_sound; vm_compute; reflexivity|].
  split; [apply static_okb_sound; vm_compute; reflexivity|].
  split; [vm_compute; reflexivity|]. split; vm_compute; reflexivity.
Qed.
