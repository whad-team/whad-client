(** C05 — invariants over every schedule.  Of the interleaving model of C04/Model.v: lock() /
    unlock() ([Inv_U]), enable_synchronous / wait_packet ([Inv_S]) and, at the end of the file,
    the accounting across synchronous-mode transitions ([Inv_A], [Inv_D]).  Of the bridge model of
    C05/Model.v: conservation of every message under any schedule ([Inv_B], [body_sset_*]) and
    the exact relay on a quiet link ([QInv]).  The longer schedules that refute the code as found
    are defined here; all are evaluated in Property.v. *)
From Coq Require Import List NArith Arith Bool Lia ZifyBool ZifyN ZifyNat.
From Whad Require Import C04.Model C04.Proofs C05.Model.
Import ListNotations.
Open Scope N_scope.

(** What [Inv_U], [Inv_A] and [Inv_D] read of the state: only the application thread and the
    connector I/O thread write any of it. *)
Definition same_conn (s s' : state) : Prop :=
  dispatched s' = dispatched s /\ locked_q s' = locked_q s /\ c_pc s' = c_pc s /\ delivered s' = delivered s
  /\ locked s' = locked s /\ lk s' = lk s /\ a_pc s' = a_pc s /\ a_script s' = a_script s
  /\ taken s' = taken s /\ got s' = got s /\ sync_q s' = sync_q s /\ cleared s' = cleared s
  /\ dropped s' = dropped s /\ sync_mode s' = sync_mode s.

Lemma pstep_same : forall cfg p m s, same_conn s (fst (pstep cfg p m s)).
Proof. intros cfg [] m s; cbn; repeat split. Qed.

Lemma others_same : forall cfg a s, a <> Step TA -> a <> Step TC -> same_conn s (act cfg a s).
Proof.
  intros cfg [[]| |] s HA HC; try contradiction; cbn [act step]; unfold step_W, step_R, tick, emit.
  - split_match; repeat split.
  - destruct (r_pc s) as [|p m|]; [split_match; repeat split| |repeat split].
    destruct (snd (pstep cfg p m s)); [apply (pstep_same cfg p m s)..|repeat split].
  - repeat split.
  - split_match; repeat split.
Qed.

Lemma act_invariant : forall cfg (I : state -> Prop),
  (forall s s', same_conn s s' -> I s -> I s') ->
  (forall s, I s -> I (step_A cfg s)) -> (forall s, I s -> I (step_C cfg s)) ->
  forall a s, I s -> I (act cfg a s).
Proof.
  intros cfg I Hsame HA HC a s H. pose proof (others_same cfg a s) as F.
  destruct a as [[]| |]; [apply HA; exact H | | | apply HC; exact H | | ];
    apply (Hsame s); auto; apply F; discriminate.
Qed.

Ltac same_conn_eqs F := unfold same_conn in F; decompose [and] F; clear F.

(** Inside an operation other than lock() / unlock(). *)
Definition other_pc (p : apc) : bool :=
  match p with
  | A_L1 | A_L2 | A_U1 | A_U2 | A_U3 | A_U4 _ | A_U5 | A_U6 | A_Done => false
  | _ => true
  end.

Definition app_moves (cfg : config) (s s' : state) : Prop :=
  (a_script s' = a_script s /\ other_pc (a_pc s') = other_pc (a_pc s) /\ e_pc (a_pc s') = e_pc (a_pc s))
  \/ (a_script s' = tl (a_script s) /\ a_pc s' = a_begin cfg (tl (a_script s))).

Lemma step_A_writes : forall cfg s, let s' := step_A cfg s in
  (c_pc s' = c_pc s /\ delivered s' = delivered s /\ taken s' = taken s /\ dropped s' = dropped s)
  /\ (other_pc (a_pc s) = true ->
      dispatched s' = dispatched s /\ locked_q s' = locked_q s /\ locked s' = locked s /\ lk s' = lk s)
  /\ (sync_mode s' = sync_mode s \/ a_pc s = A_E2 /\ sync_mode s' = cur_mode s)
  /\ ((got s' = got s /\ sync_q s' = sync_q s /\ cleared s' = cleared s)
      \/ (got s' = got s /\ sync_q s' = [] /\ cleared s' = cleared s ++ sync_q s)
      \/ (exists m, sync_q s = m :: sync_q s' /\ got s' = got s ++ [m] /\ cleared s' = cleared s))
  /\ app_moves cfg s s'.
Proof.
  (* [s'] stays a variable while the cases of the step are split: the goal names it many times *)
  intros cfg s s'. assert (E : s' = step_A cfg s) by reflexivity. clearbody s'. revert E.
  unfold step_A, ret, a_finish, note_head, v_next, app_moves.
  destruct (a_pc s) eqn:Ea; try (pose proof (pstep_same cfg p m s) as F; same_conn_eqs F);
    split_match; intros ->; cbn; rewrite ?Ea; repeat apply conj; try reflexivity; try discriminate; eauto 6.
Qed.

Definition pkts (l : list msg) : list msg := filter m_pkt l.

Lemma pkts_app : forall a b, pkts (a ++ b) = pkts a ++ pkts b.
Proof. intros. apply filter_app. Qed.

(** The packet the connector I/O thread holds between process_message and its dispatch /
    its insertion in the holding queue. *)
Definition hand_p (s : state) : list msg :=
  match c_pc s with
  | CC_L1 m | CC_L2 m | CC_A m | CC_T m | CC_Put m | CC_RelD m | CC_D m => [m]
  | _ => []
  end.

(** The held packet unlock() has taken out of the holding queue and not dispatched yet. *)
Definition hand_u (s : state) : list msg :=
  match a_pc s with A_U4 m => [m] | _ => [] end.

Definition a_holds (p : apc) : bool :=
  match p with A_U2 | A_U3 | A_U4 _ | A_U5 | A_U6 => true | _ => false end.
Definition c_holds (p : cpc) : bool :=
  match p with CC_T _ | CC_Put _ | CC_Rel | CC_RelD _ => true | _ => false end.
Definition draining (p : apc) : bool :=
  match p with A_U3 | A_U4 _ => true | _ => false end.

Lemma not_draining_hand : forall p, draining p = false -> match p with A_U4 m => [m] | _ => [] end = [].
Proof. destruct p; cbn; auto; discriminate. Qed.

(** lock() is not called on a connector that is already locked (it would discard what is
    held, by design). *)
Fixpoint lock_wf (b : bool) (script : list op) : Prop :=
  match script with
  | [] => True
  | OLock :: r => b = false /\ lock_wf true r
  | OUnlock :: r => lock_wf false r
  | _ :: r => lock_wf b r
  end.

Definition is_lock_op (o : op) : bool := match o with OLock | OUnlock => true | _ => false end.

(** What the application thread's position says about the lock flag and the script. *)
Definition Ulock (s : state) : Prop :=
  match a_pc s with
  | A_L1 | A_L2 => hd_error (a_script s) = Some OLock /\ locked s = false /\ lock_wf true (tl (a_script s))
  | A_U1 | A_U2 | A_U3 | A_U4 _ => hd_error (a_script s) = Some OUnlock /\ lock_wf false (tl (a_script s))
  | A_U6 => hd_error (a_script s) = Some OUnlock /\ lock_wf false (tl (a_script s)) /\ locked_q s = []
  | A_U5 => hd_error (a_script s) = Some OUnlock /\ lock_wf false (tl (a_script s)) /\ locked_q s = [] /\ locked s = false
  | A_Done => True
  | _ => lock_wf (locked s) (a_script s)
         /\ match a_script s with o :: _ => is_lock_op o = false | [] => True end
  end.

Record Inv_U (s : state) : Prop := mkInvU {
  u_eq : dispatched s ++ hand_u s ++ locked_q s ++ hand_p s = pkts (delivered s);
  u_empty : locked s = false -> locked_q s = [];
  u_put : forall m, c_pc s = CC_Put m -> locked s = true;
  u_reld : forall m, c_pc s = CC_RelD m -> locked_q s = [];
  u_lk : lk s = a_holds (a_pc s) || c_holds (c_pc s);
  u_excl : a_holds (a_pc s) && c_holds (c_pc s) = false;
  u_lock : Ulock s;
  u_d : forall m, c_pc s = CC_D m -> locked_q s = [] /\ draining (a_pc s) = false;
  u_drain : draining (a_pc s) = true -> locked s = true
}.

Lemma Inv_U_ext : forall s s',
  dispatched s' = dispatched s -> locked_q s' = locked_q s -> c_pc s' = c_pc s ->
  delivered s' = delivered s -> locked s' = locked s -> lk s' = lk s -> a_pc s' = a_pc s ->
  a_script s' = a_script s -> Inv_U s -> Inv_U s'.
Proof.
  intros s s' E1 E2 E3 E4 E5 E6 E7 E8 [].
  constructor; unfold hand_p, hand_u, Ulock in *; rewrite ?E1, ?E2, ?E3, ?E4, ?E5, ?E6, ?E7, ?E8; auto.
Qed.

Ltac u_fields :=
  constructor; unfold hand_p, hand_u in *;
  cbn [a_pc c_pc dispatched locked_q delivered locked lk a_script c_holds a_holds draining
       set_c_pc set_events set_taken set_delivered set_dropped set_sync_q set_lk set_locked_q set_dispatched
       set_a_pc set_a_script set_locked];
  try assumption; try (intros; first [discriminate | assumption | congruence]); auto.

Lemma Inv_U_step_C : forall cfg s, legacy_unlock cfg = false -> Inv_U s -> Inv_U (step_C cfg s).
Proof.
  intros cfg s Hl H. unfold step_C. destruct (has_conn cfg); cbn [negb]; auto.
  pose proof H as H0.
  destruct H as [Heq Hem Hput Hreld Hlk Hex Hul Hd Hdr].
  destruct (c_pc s) eqn:Ec; unfold hand_p, hand_u in Heq; rewrite Ec in Heq; cbn [c_holds] in *.
  - (* Get *) destruct (events s); [exact H0|]. u_fields.
  - (* C2 *) destruct (sync_mode s =? 2); u_fields.
  - (* C5 *)
    destruct (sync_mode s =? 1); [u_fields|].
    destruct (m_pkt m) eqn:Ep; u_fields;
      rewrite pkts_app; cbn; rewrite Ep, <- Heq, ?app_nil_r, <- ?app_assoc; reflexivity.
  - (* S1 *) destruct (sync_mode s =? 2); u_fields.
  - (* S2 *) destruct (1 <=? sync_mode s); u_fields.
  - (* SPut *) u_fields.
  - (* L1 *) u_fields.
  - (* L2 *)
    destruct (locked s) eqn:El; u_fields; auto.
    + intros m0 _. split; [auto|]. destruct (draining (a_pc s)); [discriminate Hdr|]; reflexivity.
    + intros X. discriminate (Hdr X).
  - (* A *)
    destruct (lk s) eqn:Elk; [exact H0|]. rewrite Hl. rewrite orb_false_r in Hlk.
    u_fields; rewrite <- Hlk; reflexivity.
  - (* T *)
    destruct (locked s) eqn:El; u_fields; auto.
    intros X. discriminate (Hdr X).
  - (* Put *)
    pose proof (Hput m eq_refl) as El.
    u_fields.
    + rewrite <- Heq, <- !app_assoc. reflexivity.
    + (* [Ulock] speaks of the holding queue where the application holds [__lock], which this thread holds now *)
      unfold Ulock in *. cbn. destruct (a_pc s); cbn in Hex; try discriminate; auto;
        try (destruct Hul as (? & ? & ?); congruence).
  - (* Rel *)
    rewrite andb_true_r in Hex.
    u_fields; rewrite Hex; reflexivity.
  - (* RelD: release, the dispatch follows *)
    rewrite andb_true_r in Hex.
    u_fields; try (rewrite Hex; reflexivity).
    intros m0 _. split; [apply (Hreld m); reflexivity|].
    destruct (a_pc s); cbn in Hex |- *; auto; discriminate.
  - (* D: the packet is dispatched directly *)
    destruct (Hd m eq_refl) as (Eq & Edr).
    u_fields.
    rewrite (not_draining_hand _ Edr), Eq in *. cbn in *. rewrite <- Heq, <- !app_assoc. reflexivity.
Qed.

Definition holds_nothing (p : apc) : Prop := a_holds p = false /\ draining p = false.

Lemma other_holds_nothing : forall p, other_pc p = true -> holds_nothing p.
Proof. destruct p; cbn; repeat split; discriminate. Qed.

Lemma Ulock_other : forall s, other_pc (a_pc s) = true ->
  Ulock s <-> (lock_wf (locked s) (a_script s)
               /\ match a_script s with o :: _ => is_lock_op o = false | [] => True end).
Proof. intros s H. unfold Ulock. destruct (a_pc s); cbn in H; try discriminate; tauto. Qed.

Lemma a_begin_holds_nothing : forall cfg sc, holds_nothing (a_begin cfg sc).
Proof.
  intros cfg [|[] ?]; cbn; split_match; repeat split.
Qed.

Lemma Ulock_begin : forall cfg s,
  a_pc s = a_begin cfg (a_script s) -> lock_wf (locked s) (a_script s) -> Ulock s.
Proof.
  intros cfg s E H. unfold Ulock. rewrite E.
  destruct (a_script s) as [|o r]; cbn; auto.
  destruct o; cbn in *; auto;
    repeat match goal with |- context [if ?b then _ else _] => destruct b end; cbn; auto;
    try (destruct H; auto).
Qed.

Lemma lock_wf_tl : forall b sc,
  lock_wf b sc -> match sc with o :: _ => is_lock_op o = false | [] => True end -> lock_wf b (tl sc).
Proof. intros b [|[] r]; cbn; auto; intros; try discriminate. Qed.

Lemma Inv_U_idle_step : forall cfg s s',
  dispatched s' = dispatched s -> locked_q s' = locked_q s -> c_pc s' = c_pc s ->
  delivered s' = delivered s -> locked s' = locked s -> lk s' = lk s ->
  other_pc (a_pc s) = true -> app_moves cfg s s' -> Inv_U s -> Inv_U s'.
Proof.
  intros cfg s s' E1 E2 E3 E4 E5 E6 O1 Hmv H.
  destruct (other_holds_nothing _ O1) as (A1 & D1).
  assert (holds_nothing (a_pc s') /\ Ulock s') as ((A2 & D2) & L2).
  { pose proof (u_lock _ H) as L. apply Ulock_other in L; [destruct L as (Lw & Lo) | exact O1].
    destruct Hmv as [(Es & O' & _)|(Es & Ea)]; split.
    - apply other_holds_nothing. congruence.
    - apply Ulock_other; [congruence|]. rewrite E5, Es. auto.
    - rewrite Ea. apply a_begin_holds_nothing.
    - apply (Ulock_begin cfg); rewrite Es; [exact Ea|]. rewrite E5. apply lock_wf_tl; auto. }
  destruct H.
  constructor; unfold hand_p, hand_u in *;
    rewrite ?E1, ?E2, ?E3, ?E4, ?E5, ?E6, ?A2, ?D2, ?(not_draining_hand _ D2); auto.
  - rewrite (not_draining_hand _ D1) in u_eq0. exact u_eq0.
  - rewrite A1 in u_lk0. exact u_lk0.
  - intros m E. destruct (u_d0 m E). split; auto.
  - discriminate.
Qed.

Lemma Inv_U_step_A : forall cfg s,
  legacy_unlock cfg = false -> legacy_lock cfg = false -> Inv_U s -> Inv_U (step_A cfg s).
Proof.
  intros cfg s Hlu Hll H.
  destruct (other_pc (a_pc s)) eqn:O.
  { (* outside lock() / unlock() *)
    destruct (step_A_writes cfg s) as ((Ec & Ed & _) & Hl & _ & _ & Hmv). destruct (Hl O) as (E1 & E2 & E5 & E6).
    apply (Inv_U_idle_step cfg s); auto. }
  unfold step_A. destruct (a_pc s) eqn:Epc; try discriminate O; auto.
  all: pose proof H as H0; destruct H as [Heq Hem Hput Hreld Hlk Hex Hul Hd Hdr]; unfold Ulock in Hul; unfold hand_u in Heq;
    rewrite Epc in *; cbn [a_holds draining orb andb] in *; rewrite ?Hll, ?Hlu.
  - (* L1: the holding queue is cleared, then the flag is set *)
    destruct Hul as (Hh & Hf & Hw). rewrite (Hem Hf) in Heq.
    u_fields. unfold Ulock; cbn; auto.
  - (* L2 *)
    destruct Hul as (Hh & Hf & Hw). destruct (a_begin_holds_nothing cfg (tl (a_script s))) as (A2 & D2).
    unfold a_finish. u_fields; rewrite ?(not_draining_hand _ D2), ?A2, ?D2; auto; try discriminate.
    apply (Ulock_begin cfg); [reflexivity | exact Hw].
  - (* U1 *)
    destruct (lk s) eqn:Elk; [exact H0|]. u_fields.
  - (* U2 *)
    destruct Hul as (Hh & Hw). destruct (locked_q s) eqn:Eq; u_fields; rewrite ?Eq; auto;
      try (unfold Ulock; cbn; auto).
    + intros m0 E. destruct (Hd m0 E). discriminate.
    + intros _. destruct (locked s); auto. discriminate (Hem eq_refl).
  - (* U3 *)
    destruct Hul as (Hh & Hw). destruct (locked_q s) as [|m q] eqn:Eq; [exact H0|]. u_fields.
    + intros X. discriminate (Hem X).
    + intros m0 E. discriminate (Hreld m0 E).
    + unfold Ulock; cbn; auto.
    + intros m0 E. destruct (Hd m0 E). discriminate.
  - (* U4: the held packet is dispatched *)
    destruct Hul as (Hh & Hw). u_fields.
    + rewrite <- Heq, <- !app_assoc. reflexivity.
    + unfold Ulock; cbn; auto.
    + intros m0 E. destruct (Hd m0 E). discriminate.
  - (* U5: release *)
    destruct Hul as (Hh & Hw & Eq & Hf). destruct (a_begin_holds_nothing cfg (tl (a_script s))) as (A2 & D2).
    unfold a_finish. u_fields; rewrite ?(not_draining_hand _ D2), ?A2, ?D2; auto; try discriminate.
    apply (Ulock_begin cfg); [reflexivity|]. cbn. rewrite Hf. exact Hw.
  - (* U6: the flag is cleared under the lock *)
    destruct Hul as (Hh & Hw & Eq). u_fields.
    + intros m E. rewrite E in Hex. discriminate.
    + unfold Ulock; cbn; auto.
Qed.

Lemma Inv_U_act : forall cfg, legacy_unlock cfg = false -> legacy_lock cfg = false ->
  forall a s, Inv_U s -> Inv_U (act cfg a s).
Proof.
  intros cfg H1 H2. apply act_invariant.
  - intros s s' F. same_conn_eqs F. apply Inv_U_ext; auto.
  - intros s. apply Inv_U_step_A; auto.
  - intros s. apply Inv_U_step_C; auto.
Qed.

Lemma Inv_U_init : forall cfg script sp l0, lock_wf l0 script -> Inv_U (init cfg script sp l0).
Proof.
  intros cfg script sp l0 Hw.
  assert (Hu : Ulock (init cfg script sp l0)) by (apply (Ulock_begin cfg); [reflexivity | exact Hw]).
  destruct (a_begin_holds_nothing cfg script) as (A2 & D2).
  constructor; try exact Hu; unfold hand_p, hand_u, init in *; cbn;
    rewrite ?(not_draining_hand _ D2), ?A2, ?D2; auto; intros; discriminate.
Qed.

Lemma Inv_U_reachable : forall cfg script sp l0 sched,
  legacy_unlock cfg = false -> legacy_lock cfg = false -> lock_wf l0 script ->
  Inv_U (run cfg sched (init cfg script sp l0)).
Proof. intros. apply run_invariant; [apply Inv_U_act; auto | apply Inv_U_init; auto]. Qed.

(** unlock_exactly_once_in_order (repaired lock()/unlock()/add_locked_pdu()): at every
    reachable state, under every schedule, the packets dispatched so far (by the I/O thread
    directly or by unlock()), followed by the held packet unlock() is about to dispatch, the
    packets held, and the packet in the I/O thread's hands, are exactly the packets that
    reached process_message, in arrival order; and the holding queue of an unlocked
    connector is empty (nothing stranded). *)
Lemma unlock_exactly_once_in_order :
  forall cfg script sp l0 sched,
    legacy_unlock cfg = false -> legacy_lock cfg = false -> lock_wf l0 script ->
    let s := run cfg sched (init cfg script sp l0) in
    dispatched s ++ hand_u s ++ locked_q s ++ hand_p s = pkts (delivered s)
    /\ (locked s = false -> locked_q s = []).
Proof. intros cfg script sp l0 sched H1 H2 Hw s. destruct (Inv_U_reachable cfg script sp l0 sched H1 H2 Hw); auto. Qed.

Definition one_packet : list chunk := [[Some (mkMsg 0 1 true)]].

(** The code as found: process_message tests is_locked() and then enqueues, unlock()
    drains under the lock and clears the flag after releasing it.  Appendix A schedule
    C7(true) . U1 . U2 . U5 . U6 . C8 . C9 . C10: the packet sits in the holding queue of an
    unlocked connector; every thread is idle; nothing will ever drain it. *)
Definition lu_cfg : config := mkConfig true false 3 false true false false.
Definition lu_script : list op := [OUnlock].
Definition lu_sched : list action :=
  [Emit; Step TR; Step TR; Step TR; Step TR; Step TR; Step TR;        (* the packet reaches the events queue *)
   Step TC; Step TC; Step TC; Step TC; Step TC;                       (* ... process_message, is_locked() -> True *)
   Step TA; Step TA; Step TA; Step TA;                                (* unlock() runs to completion *)
   Step TC; Step TC; Step TC].                                        (* add_locked_pdu *)

(** lock() as found (flag set, then the holding queue cleared): a packet saved in between is
    discarded. *)
Definition ll_cfg : config := mkConfig true false 3 false false true false.
Definition ll_sched : list action :=
  [Emit; Step TR; Step TR; Step TR; Step TR; Step TR; Step TR;
   Step TC; Step TC; Step TC;                                         (* get, sync tests, process_message *)
   Step TA;                                                           (* lock(): flag := True *)
   Step TC; Step TC; Step TC; Step TC; Step TC; Step TC;              (* is_locked() -> True; held *)
   Step TA;                                                           (* lock(): queue cleared *)
   Step TA; Step TA; Step TA; Step TA; Step TA].                      (* unlock() *)

Definition gotten (l : list (option msg)) : list msg :=
  flat_map (fun o => match o with Some m => [m] | None => [] end) l.

Lemma gotten_app : forall a b, gotten (a ++ b) = gotten a ++ gotten b.
Proof. intros. unfold gotten. apply flat_map_app. Qed.

(** Everything the device emitted, oldest first: processed normally, retrieved with
    wait_packet, waiting in the synchronous queue, in the I/O thread's hands, in the events
    queue, in the reader's hands / buffer, on the wire. *)
Definition pipeS (s : state) : list msg :=
  delivered s ++ gotten (retrieved s) ++ sync_q s ++ hand_c s ++ events s
  ++ hand_r s ++ msgs_of (r_buf s) ++ msgs_of (concat (wire s)).

Definition is_wait (o : op) : Prop := match o with OWait _ => True | _ => False end.
Definition pkt_chunk (c : chunk) : Prop := Forall (fun m => m_pkt m && m_conv m = true) (msgs_of c).

Definition sp_ok (p : ppc) : bool :=
  match p with P1 | P5 | P8l | P8a | P8b => true | _ => false end.

Definition k_pc (p : apc) : bool :=
  match p with A_K1 | A_K2 _ | A_Done => true | _ => false end.

(** Where the reader thread may be: synchronous mode is only modelled with a connector and
    without message filter, so put_message goes straight to the events queue. *)
Definition sync_r_ok (p : rpc) (buf : list frame) : Prop :=
  match p with
  | RD_Read => buf = []
  | RD_P q _ => sp_ok q = true
  | RD_Dead => True
  end.

Lemma sync_r_ok_next : forall buf, sync_r_ok (fst (r_next buf)) (snd (r_next buf)).
Proof. induction buf as [|[m|] b IH]; cbn; auto. Qed.

Lemma r_next_msgs_app : forall buf t,
  match fst (r_next buf) with RD_P _ m => [m] | _ => [] end ++ msgs_of (snd (r_next buf)) ++ t
  = msgs_of buf ++ t.
Proof. intros. rewrite (r_next_msgs buf), <- app_assoc. reflexivity. Qed.

(** Before the mode store of enable_synchronous(PKT); after it, when the application only waits. *)
Definition phaseS (s : state) : Prop :=
  (sync_mode s = 0 /\ sync_q s = [] /\ retrieved s = [] /\ c_nosync (c_pc s) = true
   /\ (a_pc s = A_E3 \/ a_pc s = A_E2) /\ exists ws, a_script s = OSync 1 :: ws /\ Forall is_wait ws)
  \/ (sync_mode s = 1 /\ k_pc (a_pc s) = true /\ Forall is_wait (a_script s)).

Record Inv_S (s : state) : Prop := mkInvS {
  s_eq : pipeS s = emitted s;
  s_pk : Forall (fun m => m_pkt m && m_conv m = true) (emitted s);
  s_sp : Forall pkt_chunk (spont s);
  s_filt : filt s = None;
  s_inq : in_q s = [] /\ exists dl, w_pc s = WR_Get dl;
  s_phase : phaseS s;
  s_r : sync_r_ok (r_pc s) (r_buf s)
}.

Lemma Inv_S_step_W : forall cfg s, Inv_S s -> Inv_S (step_W cfg s).
Proof.
  intros cfg s H. unfold step_W. destruct (virt cfg); auto.
  destruct H as [Heq Hpk Hsp Hf (Hi & dl & Hw) Hph Hr]. rewrite Hw, Hi.
  destruct dl as [d|]; [destruct (d <=? clock s)|];
    (constructor; cbn; auto; split; auto; eexists; try reflexivity; eauto).
Qed.

Lemma Inv_S_tick : forall s, Inv_S s -> Inv_S (tick s).
Proof. intros s []. constructor; cbn; auto. Qed.

Lemma Inv_S_emit : forall s, Inv_S s -> Inv_S (emit s).
Proof.
  intros s H. unfold emit. destruct (spont s) as [|c r] eqn:Es; auto.
  destruct H as [Heq Hpk Hsp Hf Hi Hph Hr]. rewrite Es in Hsp.
  inversion Hsp as [|? ? Hc Hsp']; subst.
  constructor; cbn; auto.
  - unfold pipeS, hand_c, hand_r in *. cbn. rewrite concat_app, msgs_of_app. cbn. rewrite app_nil_r.
    rewrite <- Heq. rewrite <- !app_assoc. reflexivity.
  - apply Forall_app; split; auto.
Qed.

Lemma Inv_S_step_R : forall cfg s, has_conn cfg = true -> Inv_S s -> Inv_S (step_R cfg s).
Proof.
  intros cfg s Hc H. unfold step_R. destruct (r_pc s) as [|p m|] eqn:Er; auto.
  - (* a chunk is read *)
    destruct (wire s) as [|c w] eqn:Ew; auto.
    destruct H as [Heq Hpk Hsp Hf Hi Hph Hr]. rewrite Er in Hr.
    constructor; cbn; auto using sync_r_ok_next.
    unfold pipeS, hand_c, hand_r in *. cbn. rewrite r_next_msgs_app.
    rewrite Er, Hr, Ew in Heq. cbn in Heq. rewrite msgs_of_app in Heq. exact Heq.
  - (* put_message: P1, P5, P8l, P8a only move on; P8b puts the message in the events queue *)
    destruct H as [Heq Hpk Hsp Hf Hi Hph Hr]. rewrite Er in Hr.
    destruct p; cbn in Hr; try discriminate; cbn [pstep fst snd]; rewrite ?Hc, ?Hf;
      (constructor; cbn; auto using sync_r_ok_next);
      unfold pipeS, hand_c, hand_r in *; cbn; rewrite Er in Heq; try exact Heq.
    rewrite r_next_msgs_app, <- Heq, <- !app_assoc. reflexivity.
Qed.

Lemma Inv_S_step_C : forall cfg s, Inv_S s -> Inv_S (step_C cfg s).
Proof.
  intros cfg s H. unfold step_C. destruct (has_conn cfg); cbn [negb]; auto.
  pose proof H as HH. destruct H as [Heq Hpk Hsp Hf Hi Hph Hr]. unfold pipeS, hand_c in Heq.
  destruct Hph as [(E & Eq & Er & Hn & Ha & Hs)|(E & Hk & Hws)]; rewrite E;
    destruct (c_pc s) eqn:Ec; try discriminate Hn; cbn [N.eqb Pos.eqb N.leb N.compare Pos.compare Pos.compare_cont];
    split_match; try exact HH;
    (constructor; cbn; auto).
  (* the position only matters to the first phase, where it stays outside add_sync_event *)
  all: try solve [left; cbn; repeat split; auto | right; cbn; repeat split; auto].
  (* left: the message is handled (CC_C5, mode still OFF) or saved (CC_SPut) *)
  all: rewrite ?Eq, ?Er in *; cbn in *; rewrite <- Heq, <- ?app_assoc; reflexivity.
Qed.

Lemma a_begin_waits : forall cfg ws, Forall is_wait ws -> k_pc (a_begin cfg ws) = true.
Proof. intros cfg [|[] r] H; cbn; auto; inversion H; subst; contradiction. Qed.

Lemma Inv_S_app_step : forall s s', Inv_S s ->
  emitted s' = emitted s -> delivered s' = delivered s -> c_pc s' = c_pc s -> events s' = events s ->
  r_pc s' = r_pc s -> r_buf s' = r_buf s -> wire s' = wire s -> spont s' = spont s -> filt s' = filt s ->
  in_q s' = in_q s -> w_pc s' = w_pc s ->
  gotten (retrieved s') ++ sync_q s' = gotten (retrieved s) ++ sync_q s ->
  phaseS s' -> Inv_S s'.
Proof.
  intros s s' [Heq Hpk Hsp Hf Hi _ Hr] E0 E1 E2 E3 E4 E5 E6 E7 E8 E9 E10 E Hph.
  constructor; rewrite ?E0, ?E4, ?E5, ?E7, ?E8, ?E9, ?E10; auto.
  rewrite <- Heq. unfold pipeS, hand_c, hand_r.
  rewrite E1, E2, E3, E4, E5, E6, !(app_assoc (gotten _)), E. reflexivity.
Qed.

Lemma Inv_S_step_A : forall cfg s, legacy_sync cfg = false -> Inv_S s -> Inv_S (step_A cfg s).
Proof.
  intros cfg s Hls H. unfold step_A.
  destruct (s_phase _ H) as [(E & Eq & Er & Hn & [Ha|Ha] & ws & Esc & Hws)|(E & Hk & Hws)].
  - (* A_E3 *)
    rewrite Ha. unfold cur_mode. rewrite Esc, Hls. cbn [N.eqb orb].
    apply (Inv_S_app_step s _ H); try reflexivity; cbn; [rewrite Eq; reflexivity|].
    left. repeat split; eauto.
  - (* A_E2 *)
    rewrite Ha. unfold cur_mode. rewrite Esc, Hls. cbn [N.eqb orb].
    apply (Inv_S_app_step s _ H); try reflexivity.
    right. unfold a_finish. cbn. rewrite Esc. cbn. auto using a_begin_waits.
  - (* wait_packet *)
    assert (Htl : Forall is_wait (tl (a_script s))) by (destruct (a_script s); cbn; auto; inversion Hws; auto).
    assert (Hfin : forall s1, sync_mode s1 = 1 -> a_script s1 = a_script s -> phaseS (a_finish cfg s1)).
    { intros s1 E1 E2. right. unfold a_finish. cbn. rewrite E2. auto using a_begin_waits. }
    destruct (a_pc s) eqn:Epc; try discriminate Hk; auto.
    + (* K1 *) rewrite E. cbn [N.leb N.compare Pos.compare Pos.compare_cont].
      apply (Inv_S_app_step s _ H); try reflexivity. right; cbn; auto.
    + (* K2 *)
      destruct (sync_q s) as [|m q] eqn:Eq.
      * destruct (cur_wait s) as [t|]; auto.
        destruct dl as [d|]; [destruct (d <=? clock s); auto|].
        -- (* the wait times out *)
           apply (Inv_S_app_step s _ H); try reflexivity; [|apply Hfin; [exact E|reflexivity]].
           cbn. rewrite gotten_app, Eq, !app_nil_r. reflexivity.
        -- apply (Inv_S_app_step s _ H); try reflexivity. right; cbn; auto.
      * (* a packet is retrieved: everything in the pipe is a packet wait_packet can convert *)
        assert (Hp : m_pkt m && m_conv m = true).
        { pose proof (s_pk _ H) as Hpk. rewrite Forall_forall in Hpk. apply Hpk.
          rewrite <- (s_eq _ H). unfold pipeS. rewrite Eq, !in_app_iff. cbn; auto. }
        rewrite Hp.
        apply (Inv_S_app_step s _ H); try reflexivity; [|apply Hfin; [exact E|reflexivity]].
        cbn. rewrite gotten_app, Eq, <- app_assoc. reflexivity.
Qed.

Lemma Inv_S_act : forall cfg, has_conn cfg = true -> legacy_sync cfg = false ->
  forall a s, Inv_S s -> Inv_S (act cfg a s).
Proof.
  intros cfg H1 H2 [[]| |] s H; cbn [act step].
  - apply Inv_S_step_A; auto.
  - apply Inv_S_step_W; auto.
  - apply Inv_S_step_R; auto.
  - apply Inv_S_step_C; auto.
  - apply Inv_S_tick; auto.
  - apply Inv_S_emit; auto.
Qed.

Lemma Inv_S_init : forall cfg ws sp l0,
  Forall is_wait ws -> Forall pkt_chunk sp -> Inv_S (init cfg (OSync 1 :: ws) sp l0).
Proof.
  intros cfg ws sp l0 Hws Hsp. unfold init. cbn [a_begin N.eqb].
  constructor; cbn; eauto. left. cbn. destruct (legacy_sync cfg); repeat split; eauto.
Qed.

Lemma Inv_S_reachable : forall cfg ws sp l0 sched,
  has_conn cfg = true -> legacy_sync cfg = false -> Forall is_wait ws -> Forall pkt_chunk sp ->
  Inv_S (run cfg sched (init cfg (OSync 1 :: ws) sp l0)).
Proof. intros. apply run_invariant; [apply Inv_S_act; auto | apply Inv_S_init; auto]. Qed.

(** sync_exactly_once (repaired enable_synchronous): once synchronous mode is requested, under
    every schedule and for every stream of packets: what was processed normally before the
    mode took effect, followed by what wait_packet returned, followed by what waits in the
    synchronous queue, followed by what is still on its way, is exactly what the device
    emitted, in order.  Every packet is in exactly one of these places: retrievable once, in
    arrival order, and (unlock_exactly_once_in_order: [dispatched] only holds packets of
    [delivered]) not also dispatched. *)
Lemma sync_exactly_once :
  forall cfg ws sp l0 sched,
    has_conn cfg = true -> legacy_sync cfg = false -> Forall is_wait ws -> Forall pkt_chunk sp ->
    let s := run cfg sched (init cfg (OSync 1 :: ws) sp l0) in
    pipeS s = emitted s.
Proof. intros cfg ws sp l0 sched Hc Hls Hws Hsp s. exact (s_eq _ (Inv_S_reachable cfg ws sp l0 sched Hc Hls Hws Hsp)). Qed.

(** enable_synchronous as found (mode stored, then the queue cleared): a packet saved in
    between is neither retrievable nor dispatched. *)
Definition ls_cfg : config := mkConfig true false 3 false false false true.
Definition ls_sched : list action :=
  [Emit; Step TR; Step TR; Step TR; Step TR; Step TR; Step TR;   (* the packet reaches the events queue *)
   Step TA;                                                     (* mode := PKT *)
   Step TC; Step TC; Step TC; Step TC; Step TC; Step TC;        (* saved in the synchronous queue *)
   Step TA;                                                     (* queue cleared *)
   Step TA; Step TA; Tick; Tick; Step TA].                      (* wait_packet(1) -> None *)

Definition cnt (x : msg) (l : list msg) : nat := length (filter (msg_eqb x) l).

Lemma cnt_app : forall x a b, cnt x (a ++ b) = (cnt x a + cnt x b)%nat.
Proof. intros. unfold cnt. rewrite filter_app, app_length. reflexivity. Qed.

Lemma cnt_nil : forall x, cnt x [] = 0%nat.
Proof. reflexivity. Qed.

Lemma cnt_cons : forall x m l, cnt x (m :: l) = (cnt x [m] + cnt x l)%nat.
Proof. intros. change (m :: l) with ([m] ++ l). apply cnt_app. Qed.

Global Opaque cnt.

Definition shand_c (s : side) : list msg :=
  match d_cpc s with
  | CC_C2 m | CC_C5 m | CC_L1 m | CC_L2 m | CC_A m | CC_T m | CC_Put m | CC_RelD m | CC_D m => [m]
  | _ => []
  end.
Definition shand_x (s : side) : list msg :=
  match d_xpc s with X_C2 m | X_C5 m | X_R1 m | X_R2 m => [m] | _ => [] end.
Definition shand_r (s : side) : list msg :=
  match d_rpc s with BR_P _ m => [m] | _ => [] end.
Definition dir_eqb (a b : dir) : bool :=
  match a, b with DIn, DIn | DOut, DOut => true | _, _ => false end.
Definition ahand (d : dir) (p : bapc) : list msg :=
  match p with BU_R1 d' m | BU_R2 d' m => if dir_eqb d d' then [m] else [] | _ => [] end.

(** Every message of one side of the scenario, wherever it currently is. *)
Definition sbody (s : side) : list msg :=
  d_peer s ++ d_lost s ++ filter (fun m => negb (m_pkt m)) (d_deliv_o s) ++ d_lq s
  ++ shand_c s ++ shand_x s ++ d_ev_o s ++ d_ev_w s ++ d_outq s
  ++ shand_r s ++ msgs_of (d_rbuf s) ++ msgs_of (concat (d_wire s)) ++ msgs_of (concat (d_spont s)).

Definition ball (d : dir) (s : bstate) : list msg := sbody (bside d s) ++ ahand d (b_apc s).

(** [shand_r], [shand_c], [shand_x] as functions of the position, to speak of the position a step writes. *)
Definition rhand (p : brpc) : list msg := match p with BR_P _ m => [m] | _ => [] end.
Definition chand (p : cpc) : list msg :=
  match p with
  | CC_C2 m | CC_C5 m | CC_L1 m | CC_L2 m | CC_A m | CC_T m | CC_Put m | CC_RelD m | CC_D m => [m]
  | _ => []
  end.
Definition xhand (p : xpc) : list msg :=
  match p with X_C2 m | X_C5 m | X_R1 m | X_R2 m => [m] | _ => [] end.

(** The reader thread of a side survives as long as: a wrapper the device has been given has its
    event queue; the thread is not inside the second filter load of the code as found; it only
    aims at a wrapper that has its queue. *)
Definition rpc_ok (rdy : bool) (p : brpc) (buf : list frame) : Prop :=
  match p with
  | BR_Read => buf = []
  | BR_P q _ => q <> Q6 /\ (q = Q8b true -> rdy = true)
  | BR_Dead => False
  end.

Definition SInv (s : side) : Prop :=
  (d_conn s = true -> d_wready s = true) /\ rpc_ok (d_wready s) (d_rpc s) (d_rbuf s).

Lemma br_next_spec : forall buf,
  match fst (br_next buf) with
  | BR_Read => msgs_of buf = [] /\ snd (br_next buf) = []
  | BR_P p m => p = Q1 /\ msgs_of buf = m :: msgs_of (snd (br_next buf))
  | BR_Dead => False
  end.
Proof. induction buf as [|[m|] b IH]; cbn; auto. Qed.

Lemma br_next_msgs : forall buf t,
  rhand (fst (br_next buf)) ++ msgs_of (snd (br_next buf)) ++ t = msgs_of buf ++ t.
Proof. induction buf as [|[m|] b IH]; cbn; auto. Qed.

Lemma br_next_pc : forall buf,
  fst (br_next buf) <> BR_Dead
  /\ (forall p m, fst (br_next buf) = BR_P p m -> p = Q1)
  /\ (fst (br_next buf) = BR_Read -> snd (br_next buf) = []).
Proof.
  intros buf. pose proof (br_next_spec buf) as H.
  destruct (fst (br_next buf)); repeat split; try discriminate; try tauto.
  intros p0 m0 E. injection E as <- _. tauto.
Qed.

Lemma rpc_ok_next : forall rdy buf, rpc_ok rdy (fst (br_next buf)) (snd (br_next buf)).
Proof. induction buf as [|[m|] b IH]; cbn; auto. split; discriminate. Qed.

Ltac side_fields :=
  cbn [sset_r sset_wire sset_dev sset_o sset_w d_wire d_spont d_rpc d_rbuf d_conn d_wready d_filt d_outq
       d_ev_o d_cpc d_locked d_lk d_lq d_ev_w d_xpc d_peer d_deliv_o d_lost d_deliv_w].

Ltac cnt_sum :=
  rewrite ?cnt_app, ?cnt_nil;
  repeat match goal with
         | |- context [cnt ?x (?m :: ?l)] =>
             lazymatch l with [] => fail | _ => rewrite (cnt_cons x m l) end
         end;
  rewrite ?cnt_app, ?cnt_nil; try lia.

Ltac body_law := intros; unfold sbody, shand_c, shand_x, shand_r, rhand, chand, xhand; side_fields; cnt_sum.

Lemma body_sset_r : forall x s p b,
  (cnt x (sbody (sset_r p b s)) + cnt x (rhand (d_rpc s) ++ msgs_of (d_rbuf s))
  = cnt x (sbody s) + cnt x (rhand p ++ msgs_of b))%nat.
Proof. body_law. Qed.

Lemma body_sset_wire : forall x s w sp,
  (cnt x (sbody (sset_wire w sp s)) + cnt x (msgs_of (concat (d_wire s)) ++ msgs_of (concat (d_spont s)))
  = cnt x (sbody s) + cnt x (msgs_of (concat w) ++ msgs_of (concat sp)))%nat.
Proof. body_law. Qed.

Lemma body_sset_dev : forall x s c r f q,
  (cnt x (sbody (sset_dev c r f q s)) + cnt x (d_outq s) = cnt x (sbody s) + cnt x q)%nat.
Proof. body_law. Qed.

Lemma body_sset_o : forall x s ev pc l k q dl lost,
  (cnt x (sbody (sset_o ev pc l k q dl lost s))
  + cnt x (d_lost s ++ filter (fun m => negb (m_pkt m)) (d_deliv_o s) ++ d_lq s ++ chand (d_cpc s) ++ d_ev_o s)
  = cnt x (sbody s) + cnt x (lost ++ filter (fun m => negb (m_pkt m)) dl ++ q ++ chand pc ++ ev))%nat.
Proof. body_law. Qed.

Lemma body_sset_w : forall x s ev pc peer dw,
  (cnt x (sbody (sset_w ev pc peer dw s)) + cnt x (d_peer s ++ xhand (d_xpc s) ++ d_ev_w s)
  = cnt x (sbody s) + cnt x (peer ++ xhand pc ++ ev))%nat.
Proof. body_law. Qed.

(** [d_wready] and [d_conn] are the application thread's to write *)
Definition conserved (x : msg) (s s' : side) : Prop :=
  SInv s' /\ cnt x (sbody s') = cnt x (sbody s) /\ d_wready s' = d_wready s /\ d_conn s' = d_conn s.

Definition conserving (x : msg) (f : side -> side) : Prop := forall s, SInv s -> conserved x s (f s).

Lemma conserving_id : forall x, conserving x (fun s => s).
Proof. intros x s H. unfold conserved. auto. Qed.

(** [s1]: the side after the reader has put its message somewhere, or read a chunk. *)
Lemma reader_next_conserves : forall x s s1 buf,
  SInv s -> d_wready s1 = d_wready s -> d_conn s1 = d_conn s ->
  (cnt x (sbody s1) + cnt x (msgs_of buf) = cnt x (sbody s) + cnt x (rhand (d_rpc s1) ++ msgs_of (d_rbuf s1)))%nat ->
  conserved x s (sset_r (fst (br_next buf)) (snd (br_next buf)) s1).
Proof.
  intros x s s1 buf [Hr Hq] Ew Ec E.
  repeat split; side_fields; rewrite ?Ew, ?Ec; auto using rpc_ok_next.
  pose proof (body_sset_r x s1 (fst (br_next buf)) (snd (br_next buf))) as L.
  pose proof (f_equal (cnt x) (br_next_msgs buf [])) as Hn. rewrite !app_nil_r in Hn. lia.
Qed.

Lemma reader_moves_on : forall x s p p' m,
  SInv s -> d_rpc s = BR_P p m -> p' <> Q6 -> (p' = Q8b true -> d_wready s = true) ->
  conserved x s (sset_r (BR_P p' m) (d_rbuf s) s).
Proof.
  intros x s p p' m [Hr Hq] Er H6 H8. repeat split; auto.
  pose proof (body_sset_r x s (BR_P p' m) (d_rbuf s)) as L. rewrite Er in L. cbn [rhand] in L. lia.
Qed.

Lemma sstep_R_to_wrapper : forall lf s m,
  d_rpc s = BR_P (Q8b true) m -> d_wready s = true ->
  sstep_R lf s = sset_r (fst (br_next (d_rbuf s))) (snd (br_next (d_rbuf s)))
                   (sset_w (d_ev_w s ++ [m]) (d_xpc s) (d_peer s) (d_deliv_w s) s).
Proof. intros lf s m E W. unfold sstep_R. rewrite E, W. reflexivity. Qed.

Lemma sstep_R_conserves : forall x, conserving x (sstep_R false).
Proof.
  intros x s HI. pose proof HI as [Hr Hq].
  destruct (d_rpc s) as [|p m|] eqn:Er; cbn [rpc_ok] in Hq; [| |contradiction].
  - (* a chunk is read *)
    unfold sstep_R. rewrite Er.
    destruct (d_wire s) as [|c w] eqn:Ew; [exact (conserving_id x s HI)|].
    apply reader_next_conserves; auto. side_fields.
    pose proof (body_sset_wire x s w (d_spont s)) as L. rewrite Ew in L. cbn [concat] in L.
    rewrite msgs_of_app in L. rewrite Er, Hq. revert L. cnt_sum.
  - destruct Hq as (H6 & H8).
    destruct p as [| | | | | |[]]; try contradiction;
      [unfold sstep_R; rewrite Er; split_match .. | rewrite (sstep_R_to_wrapper _ s m Er (H8 eq_refl)) | unfold sstep_R; rewrite Er].
    all: try (apply (reader_moves_on x s _ _ m HI Er); [discriminate | first [discriminate | intros E; injection E as E; auto]]).
    all: apply reader_next_conserves; auto; side_fields; rewrite Er; cbn [rhand].
    + pose proof (body_sset_dev x s (d_conn s) (d_wready s) (d_filt s) (d_outq s ++ [m])) as L. revert L. cnt_sum.
    + pose proof (body_sset_w x s (d_ev_w s ++ [m]) (d_xpc s) (d_peer s) (d_deliv_w s)) as L. revert L. cnt_sum.
    + pose proof (body_sset_o x s (d_ev_o s ++ [m]) (d_cpc s) (d_locked s) (d_lk s) (d_lq s) (d_deliv_o s) (d_lost s)) as L.
      revert L. cnt_sum.
Qed.

Lemma sset_o_conserves : forall x s ev pc l k q dl lost, SInv s ->
  cnt x (lost ++ filter (fun m => negb (m_pkt m)) dl ++ q ++ chand pc ++ ev)
  = cnt x (d_lost s ++ filter (fun m => negb (m_pkt m)) (d_deliv_o s) ++ d_lq s ++ chand (d_cpc s) ++ d_ev_o s) ->
  conserved x s (sset_o ev pc l k q dl lost s).
Proof.
  intros x s ev pc l k q dl lost HI E. repeat split; try apply HI.
  pose proof (body_sset_o x s ev pc l k q dl lost). lia.
Qed.

Lemma sstep_C_conserves : forall x, conserving x sstep_C.
Proof.
  intros x s HI. unfold sstep_C.
  destruct (d_cpc s) eqn:Ec; split_match; try exact (conserving_id x s HI);
    (apply (sset_o_conserves x s); [exact HI|]; rewrite Ec, ?Heql, ?filter_app; cbn [chand filter app];
     rewrite ?Heqb; cbn [negb app]; try reflexivity);
    (* left: CC_C5 (the message is handled), CC_Put (held), CC_D (dispatched) *)
    cnt_sum.
Qed.

Lemma sset_w_conserves : forall x s ev pc peer dw, SInv s ->
  cnt x (peer ++ xhand pc ++ ev) = cnt x (d_peer s ++ xhand (d_xpc s) ++ d_ev_w s) ->
  conserved x s (sset_w ev pc peer dw s).
Proof.
  intros x s ev pc peer dw HI E. repeat split; try apply HI.
  pose proof (body_sset_w x s ev pc peer dw). lia.
Qed.

Lemma sstep_X_conserves : forall x, conserving x sstep_X.
Proof.
  intros x s HI. unfold sstep_X.
  destruct (d_xpc s) eqn:Ex; split_match; try exact (conserving_id x s HI);
    (apply (sset_w_conserves x s); [exact HI|]; rewrite Ex, ?Heql; cbn [xhand app]; try reflexivity);
    (* left: X_R2, the message is put in the peer's queue *)
    cnt_sum.
Qed.

Lemma semit_conserves : forall x, conserving x semit.
Proof.
  intros x s HI. unfold semit.
  destruct (d_spont s) as [|c r] eqn:Es; [exact (conserving_id x s HI)|].
  repeat split; try apply HI.
  pose proof (body_sset_wire x s (d_wire s ++ [c]) r) as L. rewrite Es in L.
  rewrite concat_app, msgs_of_app in L. cbn [concat] in L. rewrite app_nil_r, msgs_of_app in L.
  revert L. cnt_sum.
Qed.

(** Which wrappers have their event queue once the application thread is at [p]. *)
Definition ready_by (d : dir) (p : bapc) : bool :=
  match p with
  | BA_F1 | BA_F2 | BA_W1b | BA_W1c => false
  | BA_W1 | BA_W2b | BA_W2c => match d with DIn => true | DOut => false end
  | _ => true
  end.

Record Inv_B (s : bstate) : Prop := mkInvB {
  gb_side : forall d, SInv (bside d s);
  gb_ready : forall d, ready_by d (b_apc s) = true -> d_wready (bside d s) = true
}.

Lemma bside_bupd_same : forall d f s, bside d (bupd d f s) = f (bside d s).
Proof. intros [] f s; reflexivity. Qed.
Lemma bside_bupd_other : forall d d' f s, d <> d' -> bside d' (bupd d f s) = bside d' s.
Proof. intros [] [] f s H; try reflexivity; congruence. Qed.
Lemma bapc_bupd : forall d f s, b_apc (bupd d f s) = b_apc s.
Proof. intros [] f s; reflexivity. Qed.

Lemma side_step_conserves : forall (f : side -> side) d s x,
  conserving x f -> Inv_B s ->
  Inv_B (bupd d f s) /\ forall d', cnt x (ball d' (bupd d f s)) = cnt x (ball d' s).
Proof.
  intros f d s x Hf [Hs Hr].
  destruct (Hf _ (Hs d)) as (H1 & H2 & H3 & H4).
  split; [constructor|]; intros d'; unfold ball; rewrite ?bapc_bupd.
  - destruct d, d'; [exact H1 | exact (Hs DOut) | exact (Hs DIn) | exact H1].
  - intros Hrd. specialize (Hr d' Hrd). destruct d, d'; cbn [bside bupd b_in b_out] in *; congruence.
  - rewrite !cnt_app. destruct d, d'; cbn [bside bupd b_in b_out] in *; congruence.
Qed.

Lemma sbody_hold : forall x s l k m q, d_lq s = m :: q ->
  cnt x (sbody (sset_o (d_ev_o s) (d_cpc s) l k q (d_deliv_o s) (d_lost s) s) ++ [m]) = cnt x (sbody s).
Proof.
  intros x s l k m q E.
  pose proof (body_sset_o x s (d_ev_o s) (d_cpc s) l k q (d_deliv_o s) (d_lost s)) as L.
  rewrite E in L. revert L. cnt_sum.
Qed.

Lemma sbody_relay : forall x s m,
  cnt x (sbody (sset_w (d_ev_w s) (d_xpc s) (d_peer s ++ [m]) (d_deliv_w s) s)) = cnt x (sbody s ++ [m]).
Proof.
  intros x s m. pose proof (body_sset_w x s (d_ev_w s) (d_xpc s) (d_peer s ++ [m]) (d_deliv_w s)) as L.
  revert L. cnt_sum.
Qed.

(** The application thread moves a message only when unlock() takes a held message in hand
    (BU_3) and when it puts it in the peer's queue (BU_R2). *)
Lemma bstep_A_ball : forall cfg s x d, cnt x (ball d (bstep_A cfg s)) = cnt x (ball d s).
Proof.
  intros cfg s x d. unfold bstep_A, ball.
  destruct (b_apc s) as [| | | | | | | |e|e|e|e|e|e m|e m|e|e|] eqn:Ea;
    try (destruct (legacy_ctor cfg), d; rewrite ?Ea; reflexivity);
    destruct d, e; split_match; try (rewrite ?Ea; reflexivity);
    cbn [ahand dir_eqb bset_a b_apc]; rewrite app_nil_r.
  1,2: apply sbody_hold; assumption.
  all: apply sbody_relay.
Qed.

Lemma SInv_ready : forall s f q, SInv s -> SInv (sset_dev (d_conn s) true f q s).
Proof.
  intros s f q [Hr Hq]. split; [reflexivity|]. side_fields.
  destruct (d_rpc s); cbn [rpc_ok] in *; tauto.
Qed.

Lemma SInv_conn : forall s f q, SInv s -> d_wready s = true -> SInv (sset_dev true (d_wready s) f q s).
Proof. intros s f q [Hr Hq] Hw. split; [intros _; exact Hw | exact Hq]. Qed.

(** Of what [Inv_B] reads the application thread only writes, for each wrapper, the flag that
    says its event queue exists (BA_W1c, BA_W2c) and afterwards the device's connector
    (BA_W1, BA_W2). *)
Lemma Inv_B_step_A : forall cfg s, legacy_ctor cfg = false -> Inv_B s -> Inv_B (bstep_A cfg s).
Proof.
  intros cfg s Hl HI. pose proof HI as [Hs Hr]. unfold bstep_A. rewrite Hl.
  destruct (b_apc s) as [| | | | | | | |e|e|e|e|e|e m|e m|e|e|] eqn:Ea;
    try destruct e; split_match; try exact HI;
    (constructor; intros []; cbn [bset_a b_apc]; try intros Hd';
       first [exact (Hs DIn) | exact (Hs DOut) | exact (Hr DIn Hd') | exact (Hr DOut Hd') | discriminate | reflexivity | idtac]).
  - apply SInv_ready, (Hs DIn).
  - apply SInv_conn; [apply (Hs DIn) | apply (Hr DIn); reflexivity].
  - apply SInv_ready, (Hs DOut).
  - apply SInv_conn; [apply (Hs DOut) | apply (Hr DOut); reflexivity].
Qed.

Lemma bact_conserves : forall cfg a s x, legacy_ctor cfg = false -> legacy_filter cfg = false -> Inv_B s ->
  Inv_B (bact cfg a s) /\ forall d, cnt x (ball d (bact cfg a s)) = cnt x (ball d s).
Proof.
  intros cfg a s x Hl Hlf HI. destruct a; cbn [bact].
  - split; [apply Inv_B_step_A; assumption | apply bstep_A_ball].
  - rewrite Hlf. apply side_step_conserves, HI. apply sstep_R_conserves.
  - apply side_step_conserves, HI. apply sstep_C_conserves.
  - apply side_step_conserves, HI. apply sstep_X_conserves.
  - destruct (quiet cfg && negb (bdone s)); [split; auto|].
    apply side_step_conserves, HI. apply semit_conserves.
  - split; auto.
Qed.

Lemma SInv_sinit : forall l f0 held ev0 sp, SInv (sinit l f0 held ev0 sp).
Proof. intros. split; [discriminate | reflexivity]. Qed.

Lemma brun_conserves : forall cfg l s x, legacy_ctor cfg = false -> legacy_filter cfg = false -> Inv_B s ->
  Inv_B (brun cfg l s) /\ forall d, cnt x (ball d (brun cfg l s)) = cnt x (ball d s).
Proof.
  intros cfg l. unfold brun. induction l as [|a l IH]; intros s x Hl Hlf HI; cbn; auto.
  destruct (bact_conserves cfg a s x Hl Hlf HI) as (H1 & E1).
  destruct (IH _ x Hl Hlf H1) as (H2 & E2). split; auto. intro d. rewrite E2. apply E1.
Qed.

(** What holds of the creation of a bridge under EVERY schedule, whatever the two sides are at the
    start (as long as their readers are safe) and whether the link is quiet or not: the reader
    threads survive and every message of either side is, with its multiplicity, in exactly one
    place: relayed to the peer, handled by the old connector instead, held, or still on its way.
    Nothing is relayed twice, nothing vanishes. *)
Lemma bridge_conserves : forall cfg sched si so x d,
  legacy_ctor cfg = false -> legacy_filter cfg = false -> SInv si -> SInv so ->
  let s := brun cfg sched (binit2 si so) in
  d_rpc (bside d s) <> BR_Dead /\ cnt x (ball d s) = cnt x (sbody (bside d (binit2 si so))).
Proof.
  intros cfg sched si so x d Hl Hlf Hi Ho s.
  assert (H0 : Inv_B (binit2 si so)) by (constructor; intros []; auto; discriminate).
  destruct (brun_conserves cfg sched _ x Hl Hlf H0) as ([Hs _] & E). fold s in Hs, E.
  split.
  - destruct (Hs d) as [_ Hq]. intros Ed. rewrite Ed in Hq. exact Hq.
  - rewrite E. unfold ball. cbn [binit2 b_apc ahand]. rewrite app_nil_r. reflexivity.
Qed.

Definition p1 := mkMsg 0 1 true.
Definition p2 := mkMsg 0 2 true.

(** Bridge.__init__ attaches the wrapper, then flushes what was held: a packet arriving in
    between overtakes the held one. *)
Definition br_sched_order : list baction :=
  repeat BA 8 ++ [BEmit DIn] ++ repeat (BR DIn) 7 ++ repeat (BX DIn) 7 ++ repeat BA 20.

(** An event still in the old connector's queue is processed by the old connector's I/O
    thread after the unlock: it is handed to the old connector's packet handler, never
    relayed. *)
Definition br_sched_loss : list baction := repeat BA 24 ++ repeat (BC DIn) 10.

(** The device of side [d] has been given its wrapper as connector (BA_W1 / BA_W2 have run) once the
    application thread is at [p]. *)
Definition stage_conn (d : dir) (p : bapc) : bool :=
  match p with
  | BA_F1 | BA_F2 | BA_W1b | BA_W1c | BA_W1 => false
  | BA_W2b | BA_W2c | BA_W2 => match d with DIn => true | DOut => false end
  | _ => true
  end.

(** Once the application thread is past the unlock of side [d]. *)
Definition past_unlock (d : dir) (p : bapc) : bool :=
  match d, p with
  | DIn, (BA_L1 DOut | BA_L2 DOut | BU_1 DOut | BU_2 DOut | BU_3 DOut | BU_R1 DOut _ | BU_R2 DOut _
         | BU_6 DOut | BU_5 DOut) => true
  | _, _ => false
  end.

(** unlock() of side [d] has cleared the flag and is about to release [__lock]. *)
Definition b5_pc (d : dir) (p : bapc) : bool :=
  match p with BU_5 d' => dir_eqb d d' | _ => false end.

(** The filter of side [d]'s device has been reset (B1 / B2 of DESIGN Appendix A). *)
Definition past_F (d : dir) (p : bapc) : bool :=
  match p with
  | BA_F1 => false
  | BA_F2 => match d with DIn => true | DOut => false end
  | _ => true
  end.

(** unlock() of side [d] has found the holding queue empty. *)
Definition drained_pc (d : dir) (p : bapc) : bool :=
  match p with BU_6 d' | BU_5 d' => dir_eqb d d' | _ => false end.

(** While Bridge.__init__ runs on a quiet link, nothing but the application thread moves. *)
Record QA (held : list msg) (sp : list chunk) (d : dir) (s : bstate) : Prop := mkQA {
  qa_idle : d_wire (bside d s) = [] /\ d_spont (bside d s) = sp /\ d_rpc (bside d s) = BR_Read
            /\ d_rbuf (bside d s) = [] /\ d_ev_o (bside d s) = [] /\ d_cpc (bside d s) = CC_Get
            /\ d_ev_w (bside d s) = [] /\ d_xpc (bside d s) = X_Get
            /\ (past_F d (b_apc s) = true -> d_filt (bside d s) = None);
  qa_conn : stage_conn d (b_apc s) = true -> d_conn (bside d s) = true;
  qa_ready : ready_by d (b_apc s) = true -> d_wready (bside d s) = true;
  qa_eq : d_peer (bside d s) ++ ahand d (b_apc s) ++ d_lq (bside d s) = held;
  qa_unl : d_locked (bside d s) = false -> d_lq (bside d s) = [];
  qa_dr : drained_pc d (b_apc s) = true -> d_lq (bside d s) = [];
  qa_b5 : b5_pc d (b_apc s) = true -> d_locked (bside d s) = false;
  qa_past : past_unlock d (b_apc s) = true -> d_locked (bside d s) = false
}.

(** Afterwards everything goes through the wrapper, which is FIFO. *)
Record QB (held : list msg) (sp : list chunk) (x : side) : Prop := mkQB {
  qb_st : d_conn x = true /\ d_wready x = true /\ d_filt x = None /\ d_ev_o x = [] /\ d_cpc x = CC_Get;
  qb_rp : forall p m, d_rpc x = BR_P p m -> p <> Q6 /\ p <> Q7 /\ p <> Q8b false;
  qb_rb : d_rpc x = BR_Read -> d_rbuf x = [];
  qb_al : d_rpc x <> BR_Dead;
  qb_eq : d_peer x ++ shand_x x ++ d_ev_w x ++ shand_r x ++ msgs_of (d_rbuf x)
          ++ msgs_of (concat (d_wire x)) ++ msgs_of (concat (d_spont x)) = held ++ msgs_of (concat sp)
}.

Definition QInv (hi ho : list msg) (spi spo : list chunk) (s : bstate) : Prop :=
  if bdone s then QB hi spi (b_in s) /\ QB ho spo (b_out s)
  else QA hi spi DIn s /\ QA ho spo DOut s.

Lemma QB_next : forall held sp s1 buf,
  d_conn s1 = true /\ d_wready s1 = true /\ d_filt s1 = None /\ d_ev_o s1 = [] /\ d_cpc s1 = CC_Get ->
  d_peer s1 ++ shand_x s1 ++ d_ev_w s1 ++ msgs_of buf
    ++ msgs_of (concat (d_wire s1)) ++ msgs_of (concat (d_spont s1)) = held ++ msgs_of (concat sp) ->
  QB held sp (sset_r (fst (br_next buf)) (snd (br_next buf)) s1).
Proof.
  intros held sp s1 buf Hst Heq. destruct (br_next_pc buf) as (Ha & Hq & Hr).
  constructor; auto.
  - intros p m E. rewrite (Hq _ _ E). repeat split; discriminate.
  - unfold shand_x, shand_r in *. side_fields. fold (rhand (fst (br_next buf))).
    rewrite (br_next_msgs buf). exact Heq.
Qed.

Lemma QB_R : forall lf held sp x, QB held sp x -> QB held sp (sstep_R lf x).
Proof.
  intros lf held sp x HQ. pose proof HQ as [Hst Hrp Hrb Hal Heq]. pose proof Hst as (Hc & Hw & Hf & He & Hp).
  unfold shand_r in Heq.
  destruct (d_rpc x) as [|p m|] eqn:Er; [| |contradiction].
  - (* a chunk is read *)
    unfold sstep_R. rewrite Er. destruct (d_wire x) as [|c w] eqn:Ew; [exact HQ|].
    apply QB_next; auto. side_fields. rewrite <- Heq, (Hrb eq_refl). cbn. rewrite msgs_of_app, <- app_assoc. reflexivity.
  - (* put_message: no filter, the wrapper is the connector *)
    destruct (Hrp _ _ eq_refl) as (H6 & H7 & H8).
    destruct p as [| | | | | |[]]; try contradiction;
      [unfold sstep_R; rewrite Er, ?Hf, ?Hc .. | rewrite (sstep_R_to_wrapper _ x m Er Hw)];
      [constructor; side_fields; auto; try discriminate;
       intros p0 m0 E; injection E as <- _; repeat split; discriminate .. |].
    apply QB_next; auto. unfold shand_x in *. side_fields. rewrite <- Heq, <- !app_assoc. reflexivity.
Qed.

Lemma QB_C : forall held sp x, QB held sp x -> QB held sp (sstep_C x).
Proof.
  intros held sp x H. pose proof H as [(_ & _ & _ & He & Hp) _ _ _ _].
  unfold sstep_C. rewrite Hp, He. exact H.
Qed.

Lemma QB_X : forall held sp x, QB held sp x -> QB held sp (sstep_X x).
Proof.
  intros held sp x HQ. pose proof HQ as [Hst Hrp Hrb Hal Heq]. unfold sstep_X.
  destruct (d_xpc x) eqn:Ex; split_match; try exact HQ; constructor; cbn; auto;
    unfold shand_x, shand_r in *; cbn; rewrite ?Ex, ?Heql in Heq; cbn in Heq;
    first [exact Heq | rewrite <- Heq; rewrite <- ?app_assoc; reflexivity].
Qed.

Lemma QB_emit : forall held sp x, QB held sp x -> QB held sp (semit x).
Proof.
  intros held sp x HQ. pose proof HQ as [Hst Hrp Hrb Hal Heq]. unfold semit.
  destruct (d_spont x) as [|c r] eqn:Es; [exact HQ|].
  constructor; cbn; auto. unfold shand_x, shand_r in *. cbn.
  rewrite ?Es in Heq. rewrite <- Heq. cbn [concat]. rewrite concat_app, !msgs_of_app. cbn. rewrite ?app_nil_r, <- ?app_assoc. reflexivity.
Qed.

Lemma bupd_id : forall d f s, f (bside d s) = bside d s -> bupd d f s = s.
Proof. intros [] f [si so p] E; cbn in *; rewrite E; reflexivity. Qed.

Lemma QA_idle : forall h sp d s lf, QA h sp d s ->
  sstep_R lf (bside d s) = bside d s /\ sstep_C (bside d s) = bside d s /\ sstep_X (bside d s) = bside d s.
Proof.
  intros h sp d s lf [(E1 & _ & E3 & _ & E5 & E6 & E7 & E8 & _) _ _ _ _ _ _ _].
  unfold sstep_R, sstep_C, sstep_X. rewrite E1, E3, E5, E6, E7, E8. auto.
Qed.

Lemma QA_frame : forall h sp d s s',
  bside d s' = bside d s -> b_apc s' = b_apc s -> QA h sp d s -> QA h sp d s'.
Proof. intros h sp d s s' E1 E2 []. constructor; rewrite ?E1, ?E2; auto. Qed.

Lemma bdone_bupd : forall d f s, bdone (bupd d f s) = bdone s.
Proof. intros [] f s; reflexivity. Qed.

Lemma QInv_side_step : forall hi ho spi spo (f : side -> side) d s,
  (forall h sp x, QB h sp x -> QB h sp (f x)) ->
  (forall h sp d' s', QA h sp d' s' -> f (bside d' s') = bside d' s') ->
  QInv hi ho spi spo s -> QInv hi ho spi spo (bupd d f s).
Proof.
  intros hi ho spi spo f d s HB HA H. unfold QInv in *. rewrite bdone_bupd.
  destruct (bdone s).
  - destruct H as (H1 & H2). destruct d; cbn; split; auto.
  - destruct H as (H1 & H2).
    assert (E : bupd d f s = s).
    { apply bupd_id. destruct d; [apply (HA _ _ _ _ H1)|apply (HA _ _ _ _ H2)]. }
    rewrite E. split; auto.
Qed.

Lemma QA_emit_never : forall h sp d s, QA h sp d s -> semit (bside d s) = bside d s -> True.
Proof. auto. Qed.

Lemma QB_of_QA : forall h sp d s,
  QA h sp d s -> d_conn (bside d s) = true -> d_wready (bside d s) = true ->
  d_lq (bside d s) = [] -> ahand d (b_apc s) = [] -> past_F d (b_apc s) = true ->
  QB h sp (bside d s).
Proof.
  intros h sp d s [(E1 & E2 & E3 & E4 & E5 & E6 & E7 & E8 & E9) _ _ Heq _ _ _ _] Hc Hw Hq Ha Hf.
  specialize (E9 Hf).
  constructor; auto.
  - intros p m E. rewrite E3 in E. discriminate.
  - rewrite E3. discriminate.
  - unfold shand_x, shand_r. rewrite E8, E7, E3, E4, E1, E2. cbn.
    rewrite Hq, Ha in Heq. rewrite !app_nil_r in Heq. rewrite Heq. reflexivity.
Qed.

Lemma QB_lk : forall h sp x k,
  QB h sp x -> QB h sp (sset_o (d_ev_o x) (d_cpc x) (d_locked x) k (d_lq x) (d_deliv_o x) (d_lost x) x).
Proof. intros h sp x k []. constructor; auto. Qed.

Ltac bfields :=
  cbn [bside bupd bset_a b_in b_out b_apc after_side bdone
       stage_conn ready_by past_F past_unlock drained_pc b5_pc ahand dir_eqb app] in *.

Lemma QA_step_A : forall cfg h sp d s, legacy_ctor cfg = false ->
  QA h sp d s -> bdone (bstep_A cfg s) = false -> QA h sp d (bstep_A cfg s).
Proof.
  intros cfg h sp d s Hl HQ. pose proof HQ as [(I1 & I2 & I3 & I4 & I5 & I6 & I7 & I8 & I9) Ic Ir Ie Iu Idr Ib5 Ip].
  unfold bstep_A. rewrite Hl.
  destruct (b_apc s) as [| | | | | | | |e|e|e|e|e|e m|e m|e|e|] eqn:Ea; destruct d; try destruct e;
    bfields; split_match; bfields; intros Hnd; try discriminate Hnd; try exact HQ.
  all: constructor; bfields; side_fields.
  all: try (repeat split; intros; auto; discriminate).
  (* left: [qa_eq] at BU_R2; the holding queue where the flag or the queue is read (BA_L2, BU_2, BU_3) *)
  all: rewrite ?Heqb, ?Heql, <- ?app_assoc; auto; intros X; first [discriminate X | specialize (Iu X); discriminate Iu].
Qed.

Lemma QInv_step_A : forall cfg hi ho spi spo s, legacy_ctor cfg = false ->
  QInv hi ho spi spo s -> QInv hi ho spi spo (bstep_A cfg s).
Proof.
  intros cfg hi ho spi spo s Hl H. unfold QInv in *.
  destruct (bdone s) eqn:Ed.
  - assert (E : bstep_A cfg s = s)
      by (unfold bstep_A; unfold bdone in Ed; destruct (b_apc s); try discriminate; reflexivity).
    rewrite E, Ed. exact H.
  - destruct H as (HI & HO).
    destruct (bdone (bstep_A cfg s)) eqn:Ed'; [|split; apply QA_step_A; assumption].
    (* __init__ returns: the output connector is not locked (BA_L2), or has been unlocked (BU_5) *)
    pose proof HI as [_ Ic Ir Ie Iu _ _ Ip]. pose proof HO as [_ Oc Or Oe Ou Odr _ _].
    revert Ed'. unfold bstep_A. rewrite Hl.
    destruct (b_apc s) as [| | | | | | | |e|e|e|e|e|e m|e m|e|e|] eqn:Ea; try destruct e; bfields;
      split_match; bfields; try discriminate; intros Ed'; try congruence;
      (split; [apply (QB_of_QA hi spi DIn s HI) | try apply QB_lk; apply (QB_of_QA ho spo DOut s HO)]);
      rewrite ?Ea; auto.
Qed.

Lemma QInv_act : forall cfg hi ho spi spo a s, legacy_ctor cfg = false -> quiet cfg = true ->
  QInv hi ho spi spo s -> QInv hi ho spi spo (bact cfg a s).
Proof.
  intros cfg hi ho spi spo a s Hl Hq H. destruct a; cbn [bact].
  - apply QInv_step_A; auto.
  - apply QInv_side_step; auto using QB_R. intros; eapply QA_idle; eauto.
  - apply QInv_side_step; auto using QB_C. intros; eapply (QA_idle _ _ _ _ false); eauto.
  - apply QInv_side_step; auto using QB_X. intros; eapply (QA_idle _ _ _ _ false); eauto.
  - rewrite Hq. destruct (bdone s) eqn:Ed; cbn [andb negb]; auto.
    unfold QInv in *. rewrite bdone_bupd, Ed in *. destruct H as (H1 & H2).
    destruct d; cbn; split; auto using QB_emit.
  - auto.
Qed.

Lemma QInv_init : forall li fi hi spi lo fo ho spo,
  (li = false -> hi = []) -> (lo = false -> ho = []) ->
  QInv hi ho spi spo (binit2 (sinit li fi hi [] spi) (sinit lo fo ho [] spo)).
Proof.
  intros li fi hi spi lo fo ho spo Hi Ho. unfold QInv. cbn.
  split; constructor; cbn; auto; try (intros; discriminate); repeat split; auto; try (intros; discriminate).
Qed.

Lemma QInv_run : forall cfg hi ho spi spo l s0, legacy_ctor cfg = false -> quiet cfg = true ->
  QInv hi ho spi spo s0 -> QInv hi ho spi spo (brun cfg l s0).
Proof.
  intros cfg hi ho spi spo l s0 Hl Hq. unfold brun. revert s0. induction l as [|a l IH]; intros s0 H0; cbn; auto.
  apply IH. apply QInv_act; auto.
Qed.

Lemma QB_quiet : forall h sp x, QB h sp x -> squiet x = true -> d_peer x = h ++ msgs_of (concat sp).
Proof.
  intros h sp x [_ _ Hrb _ Heq] Q. unfold squiet in Q. unfold shand_x, shand_r in Heq.
  destruct (d_rpc x) eqn:Er; try discriminate. destruct (d_cpc x); try discriminate.
  destruct (d_xpc x); try discriminate. destruct (d_wire x); try discriminate.
  destruct (d_spont x); try discriminate. destruct (d_ev_o x); try discriminate.
  destruct (d_ev_w x); try discriminate. rewrite (Hrb eq_refl) in Heq. cbn in Heq.
  rewrite app_nil_r in Heq. exact Heq.
Qed.

(** A first packet reaches add_locked_pdu of the locked
    connector, unlock() starts, the device emits a second packet; then the application, the reader
    and the I/O thread take turns. *)
Definition nv5_sched : list action :=
  [Emit; Step TR; Step TR; Step TR; Step TR; Step TR; Step TR; Step TC; Step TC; Step TC; Step TC; Step TC;
   Step TA; Step TA; Emit] ++ concat (repeat [Step TA; Step TR; Step TC] 24).

(** Non-vacuity of the quiet-link theorem: both connectors locked, holding an ordinary PDU, a
    packet-type message without scapy counterpart (class 13) and another PDU; each device then
    emits one more message (a non-packet one on the input side). *)
Definition nvq_hi := [mkMsg 0 1 true; mkMsg 13 2 true; mkMsg 0 3 true].
Definition nvq_ho := [mkMsg 0 11 true; mkMsg 13 12 true].
Definition nvq_sched : list baction :=
  repeat BA 60 ++ [BEmit DIn; BEmit DOut]
  ++ concat (repeat [BR DIn; BX DIn; BR DOut; BX DOut] 30).

(** Accounting of everything the connector I/O thread has taken from the events queue, for ANY
    script (any sequence of enable_synchronous(...) / wait_packet / lock / unlock / commands),
    any schedule: processed normally, retrieved by wait_packet, waiting in the synchronous queue,
    discarded by the queue clear of an enable_synchronous call (by design), dropped by
    add_sync_event because the mode was switched OFF between its tests, or in the thread's
    hands. *)
Definition sync_account (s : state) : list msg :=
  delivered s ++ got s ++ sync_q s ++ cleared s ++ dropped s ++ hand_c s.

Definition Inv_A (s : state) : Prop := forall x, cnt x (taken s) = cnt x (sync_account s).

Lemma Inv_A_ext : forall s s',
  taken s' = taken s -> delivered s' = delivered s -> got s' = got s -> sync_q s' = sync_q s ->
  cleared s' = cleared s -> dropped s' = dropped s -> c_pc s' = c_pc s -> Inv_A s -> Inv_A s'.
Proof.
  intros s s' E1 E2 E3 E4 E5 E6 E7 H x. unfold sync_account, hand_c. rewrite E1, E2, E3, E4, E5, E6, E7. apply H.
Qed.

Lemma Inv_A_act : forall cfg a s, Inv_A s -> Inv_A (act cfg a s).
Proof.
  intros cfg. apply act_invariant.
  - intros s s' F. same_conn_eqs F. apply Inv_A_ext; auto.
  - (* application thread *)
    intros s H x. specialize (H x). unfold sync_account, hand_c in *.
    destruct (step_A_writes cfg s) as ((-> & -> & -> & ->) & _ & _ & Hq & _).
    destruct Hq as [(-> & -> & ->)|[(-> & -> & ->)|(m & Eq & -> & ->)]]; [exact H | | rewrite Eq in H];
      revert H; cnt_sum.
  - (* connector I/O thread *)
    intros s H. unfold step_C. destruct (has_conn cfg); cbn [negb]; try exact H.
    destruct (c_pc s) eqn:Ec; split_match; try exact H.
    all: intro x; specialize (H x); unfold sync_account, hand_c in *; cbn; rewrite ?Ec, ?Heql in *;
      first [exact H | revert H; cnt_sum].
Qed.

Lemma Inv_A_reachable : forall cfg script sp l0 sched, Inv_A (run cfg sched (init cfg script sp l0)).
Proof.
  intros. apply run_invariant; [intros; apply Inv_A_act; auto|]. intro y. reflexivity.
Qed.

(** No packet is silently dropped by add_sync_event as long as the application only ENABLES
    synchronous mode (OFF -> PKT, OFF -> ALL, PKT -> ALL, ALL -> PKT, in any order, any number of
    times): whatever the interleaving of the two mode tests of on_device_event and the two mode
    tests of add_sync_event with the application's stores. *)
Definition enable_only (o : op) : Prop := match o with OSync m => m <> 0 | _ => True end.

Definition c_syncpc (p : cpc) : bool :=
  match p with CC_S1 _ | CC_S2 _ | CC_SPut _ => true | _ => false end.

Record Inv_D (s : state) : Prop := mkInvD {
  dd_none : dropped s = [];
  dd_mode : c_syncpc (c_pc s) = true -> 1 <= sync_mode s;
  dd_script : Forall enable_only (a_script s);
  dd_e : e_pc (a_pc s) = true -> exists m t, a_script s = OSync m :: t
}.

Lemma a_begin_e : forall cfg sc, e_pc (a_begin cfg sc) = true -> exists m t, sc = OSync m :: t.
Proof.
  intros cfg [|[] ?]; cbn; split_match; intros; try discriminate; eauto.
Qed.

Lemma Inv_D_moves : forall cfg s s',
  dropped s' = dropped s -> (1 <= sync_mode s -> 1 <= sync_mode s') -> c_pc s' = c_pc s ->
  app_moves cfg s s' -> Inv_D s -> Inv_D s'.
Proof.
  intros cfg s s' E1 E2 E3 Hmv []. constructor; rewrite ?E1, ?E3; auto;
    destruct Hmv as [(Es & _ & Ee)|(Es & Ea)]; rewrite Es, ?Ee, ?Ea; auto.
  - destruct (a_script s); cbn; auto. inversion dd_script0; auto.
  - apply a_begin_e.
Qed.

(** The application thread writes the mode at A_E2 only, and an enable-only script stores no OFF there. *)
Lemma Inv_D_step_A : forall cfg s, Inv_D s -> Inv_D (step_A cfg s).
Proof.
  intros cfg s H.
  destruct (step_A_writes cfg s) as ((Ec & _ & _ & Edr) & _ & Hm & _ & Hmv).
  apply (Inv_D_moves cfg s); auto.
  destruct Hm as [->|(Ea & ->)]; [auto|]. intros _.
  destruct (dd_e _ H) as (m & t & Esc); [rewrite Ea; reflexivity|]. pose proof (dd_script _ H) as Hs.
  unfold cur_mode. rewrite Esc in *. inversion Hs as [|? ? Hh _]. cbn in Hh. lia.
Qed.

(** add_sync_event is entered from the tests of on_device_event (mode ALL at CC_C2, PKT at CC_C5)
    and the mode is not OFF as long as the thread is inside, so its own second test (CC_S2) never
    drops the message. *)
Lemma Inv_D_step_C : forall cfg s, Inv_D s -> Inv_D (step_C cfg s).
Proof.
  intros cfg s H. unfold step_C. destruct (has_conn cfg); cbn [negb]; [|exact H].
  destruct H as [D1 D2 D3 D4].
  destruct (c_pc s) eqn:Ec; cbn [c_syncpc] in D2; split_match;
    constructor; cbn; rewrite ?Ec; auto; try lia; discriminate.
Qed.

Lemma Inv_D_act : forall cfg a s, Inv_D s -> Inv_D (act cfg a s).
Proof.
  intros cfg. apply act_invariant; [|apply Inv_D_step_A | apply Inv_D_step_C].
  intros s s' F. same_conn_eqs F. apply (Inv_D_moves cfg s); auto; [|left; repeat split]; congruence.
Qed.

Lemma Inv_D_reachable : forall cfg script sp l0 sched,
  Forall enable_only script -> Inv_D (run cfg sched (init cfg script sp l0)).
Proof.
  intros cfg script sp l0 sched Hs. apply run_invariant; [intros; apply Inv_D_act; auto|].
  constructor; unfold init; cbn; auto; [intros; discriminate | apply a_begin_e].
Qed.
