(** C05 — the property's theorems, each a few lines from the invariants of Proofs.v; the
    witnesses are evaluated here.

    Lock mode and synchronous mode are part of the interleaving model of C04/Model.v
    ([run]: arbitrary lists of atomic steps of the application thread, the device's reader /
    writer threads and the connector I/O thread); Bridge.__init__ has its own model in
    C05/Model.v ([brun]).  Every theorem quantifies over ALL schedules (no bound) and all
    packet streams.  The models are the models of the REPAIRED code ([legacy_*] false). *)
From Coq Require Import List NArith Arith Bool.
From Whad Require Import C04.Model C04.Proofs C05.Model C05.Proofs.
Import ListNotations.
Open Scope N_scope.

(** 1. Lock / unlock.  For every sequence of lock()/unlock() calls (lock() never called on an
    already locked connector: it discards what is held, by design), interleaved in any way
    with the arrival of packets: at every reachable state the packets dispatched so far (by
    the I/O thread or by unlock), then the held packet unlock() is about to dispatch, the
    packets held, the packet in the I/O thread's hands, are exactly the packets that reached
    process_message, in arrival order -- whether they arrived before, during or after an
    unlock -- and the holding queue of an unlocked connector is empty: nothing is ever stranded. *)
Theorem C05_unlock_exactly_once_in_order :
  forall (cfg : config) (script : list op) (sp : list chunk) (l0 : bool) (sched : list action),
    legacy_unlock cfg = false -> legacy_lock cfg = false -> lock_wf l0 script ->
    let s := run cfg sched (init cfg script sp l0) in
    dispatched s ++ hand_u s ++ locked_q s ++ hand_p s = pkts (delivered s)
    /\ (locked s = false -> locked_q s = []).
Proof. exact unlock_exactly_once_in_order. Qed.

Theorem C05_unlock_at_quiescence :
  forall cfg script sp l0 sched,
    legacy_unlock cfg = false -> legacy_lock cfg = false -> lock_wf l0 script ->
    let s := run cfg sched (init cfg script sp l0) in
    locked s = false -> hand_p s = [] -> hand_u s = [] -> dispatched s = pkts (delivered s).
Proof.
  intros cfg script sp l0 sched H1 H2 Hw s Hl Hh Hu.
  destruct (unlock_exactly_once_in_order cfg script sp l0 sched H1 H2 Hw) as (E & Q).
  fold s in E, Q. rewrite (Q Hl), Hh, Hu in E. rewrite !app_nil_r in E. exact E.
Qed.

(** The code as found refutes it: the check-then-enqueue race of process_message against
    unlock() strands a packet (DESIGN Appendix A schedule); lock() discards a packet saved
    between its two statements. *)
Theorem C05_unlock_legacy_refuted :
  exists (cfg : config) (script : list op) (sp : list chunk) (sched : list action),
    legacy_unlock cfg = true /\ lock_wf true script /\
    let s := run cfg sched (init cfg script sp true) in
    locked s = false /\ locked_q s = [mkMsg 0 1 true] /\ dispatched s = []
    /\ a_pc s = A_Done /\ c_pc s = CC_Get /\ events s = [] /\ r_pc s = RD_Read /\ wire s = [].
Proof.
  exists lu_cfg, lu_script, one_packet, lu_sched. split; [reflexivity|]. split; [exact I|].
  vm_compute. repeat split; reflexivity.
Qed.

Theorem C05_lock_legacy_refuted :
  exists (cfg : config) (script : list op) (sp : list chunk) (sched : list action),
    legacy_lock cfg = true /\ legacy_unlock cfg = false /\ lock_wf false script /\
    let s := run cfg sched (init cfg script sp false) in
    delivered s = [mkMsg 0 1 true] /\ dispatched s = [] /\ locked_q s = [] /\ hand_p s = []
    /\ a_pc s = A_Done.
Proof.
  exists ll_cfg, [OLock; OUnlock], one_packet, ll_sched. split; [reflexivity|]. split; [reflexivity|].
  split; [cbn; auto|]. vm_compute. repeat split; reflexivity.
Qed.

(** 2. Synchronous mode.  The application enables packet mode, then only calls wait_packet:
    at every reachable state, what was processed normally (before the mode took effect),
    then what wait_packet returned, then what waits in the synchronous queue, then what is
    still on its way, is exactly what the device emitted, in order.  Each packet is thus in
    exactly one place: retrievable exactly once, in arrival order, and -- [dispatched] only
    ever holds packets of [delivered] (theorem 1) -- not also dispatched. *)
Theorem C05_sync_exactly_once :
  forall (cfg : config) (ws : list op) (sp : list chunk) (l0 : bool) (sched : list action),
    has_conn cfg = true -> legacy_sync cfg = false -> Forall is_wait ws -> Forall pkt_chunk sp ->
    let s := run cfg sched (init cfg (OSync 1 :: ws) sp l0) in
    delivered s ++ gotten (retrieved s) ++ sync_q s ++ hand_c s ++ events s
    ++ hand_r s ++ msgs_of (r_buf s) ++ msgs_of (concat (wire s)) = emitted s.
Proof. exact sync_exactly_once. Qed.

Theorem C05_sync_legacy_refuted :
  exists (cfg : config) (ws : list op) (sp : list chunk) (sched : list action),
    legacy_sync cfg = true /\
    let s := run cfg sched (init cfg (OSync 1 :: ws) sp false) in
    emitted s = [mkMsg 0 1 true] /\ pipeS s = [] /\ retrieved s = [None] /\ dispatched s = []
    /\ a_pc s = A_Done.
Proof.
  exists ls_cfg, [OWait (Some 1)], one_packet, ls_sched. split; [reflexivity|].
  vm_compute. repeat split; reflexivity.
Qed.

(** Across mode transitions (OFF -> PKT, OFF -> ALL, PKT -> ALL, ALL -> PKT, PKT -> OFF, ALL -> OFF,
    any sequence, any interleaving of the I/O thread's four mode loads with the application's
    stores and clears).  For EVERY script and schedule, everything the I/O thread took from the
    events queue is, with its multiplicity, in exactly one place: processed normally, retrieved
    by wait_packet, waiting in the synchronous queue, discarded by the queue clear of an
    enable_synchronous call (by design), dropped by add_sync_event, or in the thread's hands. *)
Theorem C05_sync_transitions_account :
  forall (cfg : config) (script : list op) (sp : list chunk) (l0 : bool) (sched : list action) (x : msg),
    let s := run cfg sched (init cfg script sp l0) in
    cnt x (taken s) = cnt x (delivered s ++ got s ++ sync_q s ++ cleared s ++ dropped s ++ hand_c s).
Proof. intros cfg script sp l0 sched x. apply Inv_A_reachable. Qed.

(** ... and as long as the application never switches synchronous mode OFF, add_sync_event drops
    nothing: every packet is processed normally (hence dispatched, theorem 1), retrievable, or
    explicitly discarded by a clear; none is silently lost. *)
Theorem C05_sync_enable_never_drops :
  forall cfg script sp l0 sched,
    Forall enable_only script ->
    dropped (run cfg sched (init cfg script sp l0)) = [].
Proof. intros cfg script sp l0 sched Hs. exact (dd_none _ (Inv_D_reachable cfg script sp l0 sched Hs)). Qed.

(** Switching the mode OFF discards what is queued, including the packet being saved. *)
Theorem C05_sync_disable_may_drop :
  let cfg := mkConfig true false 3 false false false false in
  let s := run cfg ([Emit] ++ repeat (Step TR) 6 ++ [Step TA; Step TA] ++ repeat (Step TC) 4
                    ++ [Step TA; Step TA] ++ [Step TC])
               (init cfg [OSync 1; OSync 0] [[Some (mkMsg 0 1 true)]] false) in
  dropped s = [mkMsg 0 1 true] /\ sync_mode s = 0.
Proof. vm_compute. split; reflexivity. Qed.

(** 3. Bridge (both directions, messages of every kind: ordinary packets, packet-type messages
    without scapy counterpart, non-packet messages).  FULL STATEMENT (refuted by the faithful
    model of the code that exists, KNOWN-FINDING bridge-created-under-traffic): once
    everything is idle, each peer send queue holds what was held, then what was pending, then
    what the device emitted, exactly once and in that order. *)
Definition C05_bridge_relays_exactly_once_per_direction_statement : Prop :=
  forall li hi ei spi lo ho eo spo (sched : list baction),
    let s := brun (mkBC false false false) sched (binit2 (sinit li None hi ei spi) (sinit lo None ho eo spo)) in
    bquiet s = true ->
    d_peer (b_in s) = hi ++ ei ++ msgs_of (concat spi)
    /\ d_peer (b_out s) = ho ++ eo ++ msgs_of (concat spo).

Theorem C05_bridge_relays_exactly_once_per_direction_refuted :
  ~ C05_bridge_relays_exactly_once_per_direction_statement.
Proof.
  intro H. specialize (H true [p1] [] [[Some p2]] false [] [] [] br_sched_order). cbv zeta in H.
  destruct H as (H1 & _); [vm_compute; reflexivity|]. vm_compute in H1. discriminate H1.
Qed.

(** The two ways it fails: traffic reaching the new wrapper overtakes what was held; an event
    still in the old connector's queue is handled by the old connector, never relayed. *)
Theorem C05_bridge_witnesses :
  (let s := brun (mkBC false false false) br_sched_order (binit [p1] [] [[Some p2]]) in
   bquiet s = true /\ d_peer (b_in s) = [p2; p1])
  /\
  (let s := brun (mkBC false false false) br_sched_loss (binit [] [p1] []) in
   bquiet s = true /\ d_peer (b_in s) = [] /\ d_lost (b_in s) = [p1]).
Proof. split; vm_compute; repeat split; reflexivity. Qed.

(** What holds under EVERY schedule, quiet link or not: the reader threads survive the
    creation of the bridge (repaired Connector.__init__; repaired Device.put_message: whatever
    stale filters [fi], [fo] the devices carry) and every message of either side is,
    with its multiplicity, in exactly one place -- relayed, handled by the old connector
    instead, held, or still on its way: nothing is relayed twice, nothing vanishes. *)
Theorem C05_bridge_relays_partial :
  forall q li fi hi ei spi lo fo ho eo spo (sched : list baction) (x : msg) (d : dir),
    let s := brun (mkBC false q false) sched (binit2 (sinit li fi hi ei spi) (sinit lo fo ho eo spo)) in
    d_rpc (bside d s) <> BR_Dead
    /\ cnt x (ball d s) = cnt x (match d with DIn => hi ++ ei ++ msgs_of (concat spi)
                                          | DOut => ho ++ eo ++ msgs_of (concat spo) end).
Proof.
  intros q li fi hi ei spi lo fo ho eo spo sched x d.
  destruct d; apply (bridge_conserves (mkBC false q false)); auto using SInv_sinit.
Qed.

(** The complement of the finding's class: a bridge created on a quiet link (no event pending
    in the old connectors; the devices only emit once Bridge.__init__ has returned) relays
    EVERYTHING exactly once and in per-direction order, under every schedule, whatever the
    kind of the messages held. *)
Theorem C05_bridge_quiet_link :
  forall li fi hi spi lo fo ho spo (sched : list baction),
    (li = false -> hi = []) -> (lo = false -> ho = []) ->
    let s := brun (mkBC false true false) sched (binit2 (sinit li fi hi [] spi) (sinit lo fo ho [] spo)) in
    bdone s = true ->
    QB hi spi (b_in s) /\ QB ho spo (b_out s).
Proof.
  intros li fi hi spi lo fo ho spo sched Hi Ho s Hd.
  pose proof (QInv_run (mkBC false true false) hi ho spi spo sched _ eq_refl eq_refl (QInv_init li fi hi spi lo fo ho spo Hi Ho)) as H.
  fold s in H. unfold QInv in H. rewrite Hd in H. exact H.
Qed.

Theorem C05_bridge_quiet_link_quiescent :
  forall li fi hi spi lo fo ho spo (sched : list baction),
    (li = false -> hi = []) -> (lo = false -> ho = []) ->
    let s := brun (mkBC false true false) sched (binit2 (sinit li fi hi [] spi) (sinit lo fo ho [] spo)) in
    bquiet s = true ->
    d_peer (b_in s) = hi ++ msgs_of (concat spi) /\ d_peer (b_out s) = ho ++ msgs_of (concat spo).
Proof.
  intros li fi hi spi lo fo ho spo sched Hi Ho s Hq.
  unfold bquiet in Hq. apply andb_true_iff in Hq as [Hq Hq2]. apply andb_true_iff in Hq as [Hd Hq1].
  destruct (C05_bridge_quiet_link li fi hi spi lo fo ho spo sched Hi Ho Hd) as (H1 & H2).
  split; eapply QB_quiet; eassumption.
Qed.

(** [fi], [fo]: message filters left on the devices by earlier send_command / send_message calls
    are reset by Bridge.__init__ (B1 / B2), so on a quiet link EVERY kind of message emitted
    after the creation is relayed, including those a stale filter would have kept; and under
    traffic no schedule of filter resets and put_message kills a reader thread
    ([C05_bridge_relays_partial], stated for arbitrary stale filters; C04_reader_never_dies).
    Device.put_message as found (two loads of the filter) refutes that: *)
Theorem C05_bridge_legacy_filter_refuted :
  exists sched,
    d_rpc (b_in (brun (mkBC false false true) sched
                   (binit2 (sinit true (Some 3) [] [] [[Some p1]]) (sinit false None [] [] [])))) = BR_Dead.
Proof. exists ([BEmit DIn] ++ repeat (BR DIn) 3 ++ [BA] ++ [BR DIn]). vm_compute. reflexivity. Qed.

(** Connector.__init__ as found: the device was given the half-built connector; the reader
    thread dies on it. *)
Theorem C05_bridge_legacy_ctor_refuted :
  exists sp sched, d_rpc (b_in (brun (mkBC true false false) sched (binit [] [] sp))) = BR_Dead.
Proof.
  exists [[Some p1]], (repeat BA 3 ++ [BEmit DIn] ++ repeat (BR DIn) 7). vm_compute. reflexivity.
Qed.

Example C05_nonvacuous_quiet :
  let s := brun (mkBC false true false) nvq_sched
             (binit2 (sinit true None nvq_hi [] [[Some (mkMsg 7 4 false)]]) (sinit true (Some 3) nvq_ho [] [[Some (mkMsg 0 13 true); Some (mkMsg 3 14 false)]])) in
  bquiet s = true
  /\ d_peer (b_in s) = nvq_hi ++ [mkMsg 7 4 false] /\ d_peer (b_out s) = nvq_ho ++ [mkMsg 0 13 true; mkMsg 3 14 false].
Proof. vm_compute. repeat split; reflexivity. Qed.

(** Non-vacuity: a locked connector holding nothing receives two packets while unlock() runs;
    under a concrete schedule both are dispatched in order and nothing is left behind. *)
Example C05_nonvacuous :
  let cfg := mkConfig true false 3 false false false false in
  lock_wf true [OUnlock] /\
  let s := run cfg nv5_sched (init cfg [OUnlock] [[Some (mkMsg 0 1 true)]; [Some (mkMsg 0 2 true)]] true) in
  dispatched s = [mkMsg 0 1 true; mkMsg 0 2 true] /\ locked_q s = [] /\ locked s = false.
Proof. cbv zeta. split; [exact I|]. vm_compute. repeat split; reflexivity. Qed.
