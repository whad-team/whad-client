(** C10 — the theorems of the property; the lemmas are in Proofs.v.
    [serve P] = the attribute database Profile builds for the profile [P] from handle 1;
    [shape P] = its services, characteristics and descriptors with their handles, value
    handles, UUIDs, properties and handle ranges; [discover] = GattClient.discover() against the
    modelled GattServer; [wf_profile P] = every UUID is 16- or 128-bit, fewer than 65535
    attributes.  No restriction on how 16- and 128-bit UUIDs are mixed. *)
From Coq Require Import List NArith Arith Lia.
From Whad Require Import Lib.Bytes C09.Model C09.Proofs C10.Model C10.Proofs.
Import ListNotations.

(** layout: the served attributes have the handles 1 .. size, strictly increasing *)
Theorem C10_serve_handles :
  forall P : profile,
    from 1%N (serve P) /\ below (1 + profile_size P)%N (serve P) /\ incr (serve P)
    /\ N.of_nat (length (serve P)) = profile_size P.
Proof.
  intros P. destruct (laid_bounds _ _ _ (serve_svcs_laid P 1)) as (F & B & I & L).
  repeat split; try assumption. unfold serve. lia.
Qed.

(** Full discovery of ANY well-formed served profile, at ANY MTU >= 23, from any state between
    two procedures, with ANY fuel above the number of attributes (no loop of the client needs
    more rounds than there are attributes): terminates and rebuilds exactly the served
    structure; client and server are left as they were. *)
Theorem C10_discover_fuel_enough :
  forall (P : profile) (c : client) (s : server) (mtu fuel : nat),
    wf_profile P -> clean c s mtu -> sdb s = serve P ->
    (N.to_nat (profile_size P) < fuel)%nat ->
    discover fuel c s = (Ok (shape P), c, s).
Proof.
  intros P c s mtu fuel [Hwf Hsz] Hcl Hdb Hfuel.
  destruct (clean_client c s mtu Hcl) as [cm ->]. now apply discover_spec.
Qed.

(** in particular within the fuel [disc_fuel s] every loop is given (one round per attribute,
    plus two) *)
Theorem C10_discover_reconstructs :
  forall (P : profile) (c : client) (s : server) (mtu : nat),
    wf_profile P -> clean c s mtu -> sdb s = serve P ->
    discover (disc_fuel s) c s = (Ok (shape P), c, s).
Proof.
  intros P c s mtu Hwf Hcl Hdb. apply C10_discover_fuel_enough with mtu; try assumption.
  unfold disc_fuel. rewrite Hdb. pose proof (C10_serve_handles P). lia.
Qed.

(** the same from a fresh connection, after the MTU exchange performed by the client *)
Theorem C10_discover_after_connect :
  forall (P : profile) (mtu : nat),
    wf_profile P -> (23 <= mtu)%nat -> (N.of_nat mtu < 65536)%N ->
    let '(c, s) := connect (serve P) mtu in
    discover (disc_fuel s) c s = (Ok (shape P), c, s).
Proof.
  intros P mtu Hwf Hm H16. unfold connect. destruct (Nat.eqb_spec mtu 23) as [->|_].
  - apply C10_discover_reconstructs with (mtu := 23%nat); [assumption | apply clean_init | reflexivity].
  - destruct (set_mtu_spec client_init (server_init (serve P)) 23 mtu (clean_init _) Hm H16)
      as (c' & s' & -> & Hcl & Hdb).
    now apply C10_discover_reconstructs with (mtu := mtu).
Qed.

(** an invalid start handle is answered INVALID_HANDLE, which the enumeration raises at once
    (before the repair it built the exception without raising it and looped forever) *)
Theorem C10_invalid_start_raises :
  forall (s : server) (mtu cm f : nat) (acc : list dsvc),
    crashed s = false ->
    disc_primary (S f) 0%N acc (mkc mtu cm [] false) s
    = (Raise (EAtt E_INVALID_HANDLE), mkc mtu cm [] false, s).
Proof. intros. now apply disc_primary_error with (rq := OP_READ_BY_GROUP) (h := 0%N). Qed.

(** Non-vacuity: a 14-attribute profile mixing 16- and 128-bit UUIDs among services,
    characteristics (16/128/16) and descriptors (16/128/CCCD) is well-formed and is rebuilt at
    MTU 23 and 64. *)
Example C10_nonvacuous :
  wf_profile p_mixed /\ clean client_init (server_init (serve p_mixed)) 23%nat
  /\ profile_size p_mixed = 14%N
  /\ discover_ok p_mixed 23%nat = true /\ discover_ok p_mixed 64%nat = true.
Proof.
  split; [|split; [apply clean_init|repeat split; vm_compute; reflexivity]].
  split; [|reflexivity].
  repeat (constructor; unfold wf_svc, wf_chr, wf_desc, uuid_ok; cbn; auto).
Qed.
