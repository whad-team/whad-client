(** C10 — lemmas: layout of a served profile, what the server list builders answer on it,
    the three client enumeration loops, and their assembly into [discover]. *)
From Coq Require Import List NArith ZArith Arith Bool Lia ZifyBool ZifyN ZifyNat.
From Whad Require Import Lib.Bytes C09.Model C09.Proofs C10.Model.
Import ListNotations.
Open Scope N_scope.

(** * Lists *)

Lemma filter_andb {A} (p q : A -> bool) l :
  filter (fun x => p x && q x) l = filter q (filter p l).
Proof.
  induction l as [|x l IH]; cbn [filter]; [reflexivity|].
  destruct (p x); cbn [andb filter]; [destruct (q x)|]; now rewrite IH.
Qed.

Lemma filter_false {A} (p : A -> bool) l : Forall (fun x => p x = false) l -> filter p l = [].
Proof. induction 1 as [|x l Hx _ IH]; cbn [filter]; [reflexivity|]. now rewrite Hx. Qed.

Lemma filter_true {A} (p : A -> bool) l : Forall (fun x => p x = true) l -> filter p l = l.
Proof. induction 1 as [|x l Hx _ IH]; cbn [filter]; [reflexivity|]. now rewrite Hx, IH. Qed.

Lemma Forall_filter {A} (P : A -> Prop) f l : Forall P l -> Forall P (filter f l).
Proof.
  induction 1 as [|x l Hx _ IH]; cbn [filter]; [constructor|]. destruct (f x); auto.
Qed.

Lemma Forall_skipn {A} (P : A -> Prop) k l : Forall P l -> Forall P (skipn k l).
Proof. intros H. rewrite <- (firstn_skipn k l) in H. now apply Forall_app in H. Qed.

(** [chrs_size] and [profile_size] of the model are [total_size chr_size] and
    [total_size svc_size], by conversion *)
Definition total_size {T} (size : T -> N) (l : list T) : N := fold_right (fun x n => size x + n) 0 l.

Fixpoint walk {T B} (size : T -> N) (f : N -> T -> B) (h : N) (l : list T) : list B :=
  match l with
  | [] => []
  | x :: r => f h x :: walk size f (h + size x) r
  end.

Lemma total_size_app {T} (size : T -> N) l1 l2 :
  total_size size (l1 ++ l2) = total_size size l1 + total_size size l2.
Proof. unfold total_size. induction l1 as [|x r IH]; cbn [app fold_right]; lia. Qed.

Lemma total_size_length {T} (size : T -> N) l :
  (forall x, 1 <= size x) -> N.of_nat (length l) <= total_size size l.
Proof.
  intros H. unfold total_size. induction l as [|x r IH]; cbn [length fold_right]; [lia|]. specialize (H x). lia.
Qed.

Lemma total_size_firstn_le {T} (size : T -> N) k l : total_size size (firstn k l) <= total_size size l.
Proof. rewrite <- (firstn_skipn k l) at 2. rewrite total_size_app. lia. Qed.

Lemma walk_app {T B} size (f : N -> T -> B) l1 l2 : forall h,
  walk size f h (l1 ++ l2) = walk size f h l1 ++ walk size f (h + total_size size l1) l2.
Proof.
  unfold total_size. induction l1 as [|x r IH]; intros h; cbn [app walk fold_right].
  - now rewrite N.add_0_r.
  - now rewrite IH, N.add_assoc.
Qed.

Lemma walk_firstn {T B} size (f : N -> T -> B) k : forall h l,
  firstn k (walk size f h l) = walk size f h (firstn k l).
Proof. induction k as [|k IH]; intros h [|x r]; cbn [firstn walk]; now rewrite ?IH. Qed.

Lemma walk_length {T B} size (f : N -> T -> B) l : forall h, length (walk size f h l) = length l.
Proof. induction l as [|x r IH]; intros h; cbn [walk length]; now rewrite ?IH. Qed.

Lemma map_walk {T B C} size (f : N -> T -> B) (g : B -> C) l : forall h,
  map g (walk size f h l) = walk size (fun h x => g (f h x)) h l.
Proof. induction l as [|x r IH]; intros h; cbn [walk map]; now rewrite ?IH. Qed.

(** * Handles of a piece of database *)

Definition below (b : N) (l : db) : Prop := Forall (fun x => fst x < b) l.
Definition from (a : N) (l : db) : Prop := Forall (fun x => a <= fst x) l.

Lemma below_app b l1 l2 : below b (l1 ++ l2) <-> below b l1 /\ below b l2.
Proof. apply Forall_app. Qed.
Lemma from_app a l1 l2 : from a (l1 ++ l2) <-> from a l1 /\ from a l2.
Proof. apply Forall_app. Qed.
Lemma below_mono b b' l : below b l -> b <= b' -> below b' l.
Proof. intros H Hb. eapply Forall_impl; [|exact H]. cbn. intros; lia. Qed.
Lemma from_mono a a' l : from a l -> a' <= a -> from a' l.
Proof. intros H Hb. eapply Forall_impl; [|exact H]. cbn. intros; lia. Qed.

(** strictly increasing handles *)
Inductive incr : db -> Prop :=
| incr_nil : incr []
| incr_cons x l : from (fst x + 1) l -> incr l -> incr (x :: l).

Lemma incr_filter p l : incr l -> incr (filter p l).
Proof.
  induction 1 as [|x l Hf Hi IH]; cbn [filter]; [constructor|].
  destruct (p x); [|assumption]. constructor; [|assumption]. now apply Forall_filter.
Qed.

Lemma insert_h_from x l : from (fst x) l -> insert_h x l = x :: l.
Proof.
  destruct l as [|y r]; cbn [insert_h]; [reflexivity|]. intros H. inversion H; subst.
  replace (fst x <=? fst y) with true by lia. reflexivity.
Qed.

Lemma sort_h_incr l : incr l -> sort_h l = l.
Proof.
  unfold sort_h. induction 1 as [|x l Hf Hi IH]; cbn [fold_right]; [reflexivity|].
  rewrite IH. apply insert_h_from. eapply from_mono; [exact Hf|lia].
Qed.

Inductive laid : N -> db -> N -> Prop :=
| laid_nil h : laid h [] h
| laid_cons h a l h' : laid (h + 1) l h' -> laid h ((h, a) :: l) h'.

Lemma laid_app h l1 m l2 h' : laid h l1 m -> laid m l2 h' -> laid h (l1 ++ l2) h'.
Proof. induction 1; intros H2; cbn [app]; [assumption|]. constructor. auto. Qed.

Lemma laid_bounds h l h' : laid h l h' ->
  from h l /\ below h' l /\ incr l /\ h + N.of_nat (length l) = h'.
Proof.
  induction 1 as [h|h a l h' _ (F & B & I & L)]; cbn [length].
  - repeat split; try constructor. lia.
  - split; [|split; [|split]].
    + constructor; [cbn [fst]; lia | eapply from_mono; [exact F|lia]].
    + constructor; [cbn [fst]; lia | exact B].
    + constructor; [exact F | exact I].
    + lia.
Qed.

Lemma lookup_app l1 l2 h :
  lookup (l1 ++ l2) h = match lookup l1 h with Some a => Some a | None => lookup l2 h end.
Proof.
  induction l1 as [|[k a] l1 IH]; cbn [app lookup]; [reflexivity|].
  destruct (N.eqb k h); [reflexivity|exact IH].
Qed.

Lemma lookup_none l h : Forall (fun x => fst x <> h) l -> lookup l h = None.
Proof.
  induction 1 as [|[k a] l Hx _ IH]; cbn [lookup]; [reflexivity|].
  cbn [fst] in Hx. now apply N.eqb_neq in Hx as ->.
Qed.

(** * A block of a database: all the entries with a handle in [lo, hi] *)

Definition block (D B : db) (lo hi : N) : Prop :=
  exists X Y, D = X ++ B ++ Y /\ below lo X /\ from (hi + 1) Y.

Lemma block_refl D lo hi : block D D lo hi.
Proof. exists [], []. rewrite app_nil_r. repeat split; constructor. Qed.

Lemma block_trans D B B' lo hi lo' hi' :
  block D B lo hi -> block B B' lo' hi' -> lo <= lo' -> hi' <= hi -> block D B' lo' hi'.
Proof.
  intros (X & Y & -> & HX & HY) (X' & Y' & -> & HX' & HY') Hlo Hhi.
  exists (X ++ X'), (Y' ++ Y). split; [now rewrite <- !app_assoc|]. split.
  - apply below_app. split; [eapply below_mono; eauto | assumption].
  - apply from_app. split; [assumption | eapply from_mono; eauto; lia].
Qed.

Lemma filter_block D B lo hi st e (f : N * attr -> bool) :
  block D B lo hi -> lo <= st -> e <= hi ->
  filter (fun x => f x && in_range st e x) D = filter (fun x => f x && in_range st e x) B.
Proof.
  intros (X & Y & -> & HX & HY) Hlo Hhi. rewrite !filter_app.
  rewrite (filter_false _ X), (filter_false _ Y).
  - now rewrite app_nil_r.
  - eapply Forall_impl; [|exact HY]. cbn. intros x Hx. unfold in_range. lia.
  - eapply Forall_impl; [|exact HX]. cbn. intros x Hx. unfold in_range. lia.
Qed.

Lemma lookup_block D B lo hi h :
  block D B lo hi -> lo <= h -> h <= hi -> lookup D h = lookup B h.
Proof.
  intros (X & Y & -> & HX & HY) Hlo Hhi. rewrite !lookup_app, (lookup_none X), (lookup_none Y).
  - now destruct (lookup B h).
  - eapply Forall_impl; [|exact HY]. cbn. intros; lia.
  - eapply Forall_impl; [|exact HX]. cbn. intros; lia.
Qed.

(** what the three list builders select for the range [st, hi] *)
Lemma range_selects f D B1 B2 lo m h' hi st :
  block D (B1 ++ B2) lo hi -> laid lo B1 m -> laid m B2 h' -> h' <= hi + 1 ->
  lo <= st <= m -> below st (filter f B1) ->
  sort_h (filter (fun x => f x && in_range st hi x) D) = filter f B2.
Proof.
  intros Hb L1 L2 Hh Hst HX. destruct (laid_bounds _ _ _ L2) as (F2 & Bl2 & I2 & _).
  rewrite (filter_block D _ lo hi st hi f Hb) by lia. rewrite filter_andb, !filter_app.
  rewrite (filter_false _ (filter f B1)), (filter_true _ (filter f B2)).
  - now apply sort_h_incr, incr_filter.
  - apply Forall_filter. unfold from, below in *. rewrite Forall_forall in *. intros x Hx. unfold in_range.
    specialize (F2 _ Hx). specialize (Bl2 _ Hx). lia.
  - eapply Forall_impl; [|exact HX]. cbn beta. intros x Hx. unfold in_range. lia.
Qed.

Lemma range_valid st e : 1 <= st -> st <= e -> range_invalid st e = false.
Proof.
  intros. unfold range_invalid. lia.
Qed.

(** * The size rule of the list builders *)

Definition uuid_ok (u : bytes) : Prop := length u = 2%nat \/ length u = 16%nat.

Lemma take_while_length {A} (p : A -> bool) l : (length (take_while p l) <= length l)%nat.
Proof. induction l as [|x l IH]; cbn [take_while]; [|destruct (p x)]; cbn [length]; lia. Qed.

Lemma take_while_firstn {A} (p : A -> bool) l : take_while p l = firstn (length (take_while p l)) l.
Proof.
  induction l as [|x l IH]; cbn [take_while]; [reflexivity|].
  destruct (p x); cbn [length firstn]; [now rewrite <- IH | reflexivity].
Qed.

(** Non-empty because the first item has its own size.  One item always fits a response of
    MTU >= 23 bytes, the largest being a 128-bit UUID with 5 bytes of header. *)
Lemma builder_prefix {A} (sz : A -> nat) mtu c l x :
  hd_error l = Some x -> (0 < sz x + c <= mtu - 2)%nat ->
  exists k, (1 <= k <= length l)%nat /\ same_size_prefix sz ((mtu - 2) / (sz x + c)) l = firstn k l.
Proof.
  destruct l as [|x' r]; intros [= ->] Hfit.
  assert (Hn : (1 <= (mtu - 2) / (sz x + c))%nat) by (apply Nat.div_le_lower_bound; lia).
  (* the quotient is generalised: left in sight, [lia] reasons about the division, which is slow
     to check *)
  revert Hn. generalize ((mtu - 2) / (sz x + c))%nat. intros n Hn. clear Hfit.
  unfold same_size_prefix. rewrite take_while_firstn, firstn_firstn.
  eexists. split; [|reflexivity].
  pose proof (take_while_length (fun y => (sz y =? sz x)%nat) r).
  cbn [take_while length] in *. rewrite Nat.eqb_refl. cbn [length]. lia.
Qed.

(** * Layout *)

Lemma chr_size_ge c : 2 <= chr_size c.
Proof. unfold chr_size. lia. Qed.

Lemma svc_size_ge s : 1 <= svc_size s.
Proof. unfold svc_size. lia. Qed.

Lemma profile_size_app p1 p2 : profile_size (p1 ++ p2) = profile_size p1 + profile_size p2.
Proof. exact (total_size_app svc_size p1 p2). Qed.

Lemma chrs_size_app c1 c2 : chrs_size (c1 ++ c2) = chrs_size c1 + chrs_size c2.
Proof. exact (total_size_app chr_size c1 c2). Qed.

Lemma chrs_size_firstn_le k cs : chrs_size (firstn k cs) <= chrs_size cs.
Proof. exact (total_size_firstn_le chr_size k cs). Qed.

Lemma serve_descs_laid ds : forall h, laid h (serve_descs h ds) (h + N.of_nat (length ds)).
Proof.
  induction ds as [|d r IH]; intros h; cbn [serve_descs length].
  - rewrite N.add_0_r. constructor.
  - constructor. replace (h + N.of_nat (S (length r))) with (h + 1 + N.of_nat (length r)) by lia. apply IH.
Qed.

Lemma serve_chrs_laid cs : forall h, laid h (serve_chrs h cs) (h + chrs_size cs).
Proof.
  induction cs as [|c r IH]; intros h; cbn [serve_chrs chrs_size fold_right].
  - rewrite N.add_0_r. constructor.
  - fold (chrs_size r). do 2 constructor. apply laid_app with (h + chr_size c).
    + replace (h + 1 + 1) with (h + 2) by lia.
      replace (h + chr_size c) with (h + 2 + N.of_nat (length (c_descs c))) by (unfold chr_size; lia).
      apply serve_descs_laid.
    + rewrite N.add_assoc. apply IH.
Qed.

(** the entries of one service *)
Definition svc_db (a : N) (sv : svc) : db :=
  (a, APrimary (s_uuid sv) (a + svc_size sv - 1)) :: serve_chrs (a + 1) (s_chrs sv).

Lemma svc_db_laid a sv : laid a (svc_db a sv) (a + svc_size sv).
Proof.
  constructor. unfold svc_size. rewrite N.add_assoc. apply serve_chrs_laid.
Qed.

Lemma serve_svcs_laid ss : forall h, laid h (serve_svcs h ss) (h + profile_size ss).
Proof.
  induction ss as [|s r IH]; intros h; cbn [serve_svcs profile_size fold_right].
  - rewrite N.add_0_r. constructor.
  - fold (profile_size r). apply (laid_app _ (svc_db h s) (h + svc_size s)); [apply svc_db_laid|].
    rewrite N.add_assoc. apply IH.
Qed.

Lemma serve_svcs_app h p1 p2 :
  serve_svcs h (p1 ++ p2) = serve_svcs h p1 ++ serve_svcs (h + profile_size p1) p2.
Proof.
  revert h. induction p1 as [|s r IH]; intros h; cbn [app serve_svcs profile_size fold_right].
  - now rewrite N.add_0_r.
  - fold (profile_size r). now rewrite IH, <- app_assoc, N.add_assoc.
Qed.

Lemma serve_chrs_app h c1 c2 :
  serve_chrs h (c1 ++ c2) = serve_chrs h c1 ++ serve_chrs (h + chrs_size c1) c2.
Proof.
  revert h. induction c1 as [|c r IH]; intros h; cbn [app serve_chrs chrs_size fold_right].
  - now rewrite N.add_0_r.
  - fold (chrs_size r). now rewrite IH, <- !app_assoc, N.add_assoc.
Qed.

Lemma serve_descs_app h d1 d2 :
  serve_descs h (d1 ++ d2) = serve_descs h d1 ++ serve_descs (h + N.of_nat (length d1)) d2.
Proof.
  revert h. induction d1 as [|d r IH]; intros h; cbn [app serve_descs length].
  - now rewrite N.add_0_r.
  - rewrite IH. cbn [app].
    replace (h + N.of_nat (S (length r))) with (h + 1 + N.of_nat (length r)) by lia. reflexivity.
Qed.

Lemma svc_block Pd sv Pr :
  let a := 1 + profile_size Pd in
  block (serve (Pd ++ sv :: Pr)) (svc_db a sv) a (a + svc_size sv - 1).
Proof.
  intros a. unfold serve. rewrite serve_svcs_app. fold a.
  exists (serve_svcs 1 Pd), (serve_svcs (a + svc_size sv) Pr). split; [reflexivity|].
  pose proof (svc_size_ge sv). replace (a + svc_size sv - 1 + 1) with (a + svc_size sv) by lia.
  split; [apply (laid_bounds _ _ _ (serve_svcs_laid Pd 1)) | apply (laid_bounds _ _ _ (serve_svcs_laid Pr _))].
Qed.

(** * A fuelled enumeration loop

    The three client loops have one shape: ask for what lies in [st, end], append the client's
    view of the items received, resume after the last one. *)
Section Enumerate.
  Context {T A R : Type}.
  Variables (size : list T -> N) (view : N -> list T -> list A).
  Variables (loop : nat -> N -> list A -> R) (ret : list A -> R).
  Variables (all : list T) (h0 : N) (inv : N -> list T -> Prop).

  Definition advances : Prop := forall f st acc done rest,
    all = done ++ rest -> inv st done ->
    match rest with
    | [] => loop (S f) st acc = ret acc
    | _ => exists k st', (1 <= k)%nat /\ inv st' (done ++ firstn k rest) /\
           loop (S f) st acc = loop f st' (acc ++ view (h0 + size done) (firstn k rest))
    end.

  Hypothesis size_app : forall l1 l2, size (l1 ++ l2) = size l1 + size l2.
  Hypothesis view_nil : forall h, view h [] = [].
  Hypothesis view_app : forall l1 l2 h, view h (l1 ++ l2) = view h l1 ++ view (h + size l1) l2.

  Lemma enumerate : advances -> forall fuel rest done acc st,
    all = done ++ rest -> inv st done -> (length rest < fuel)%nat ->
    loop fuel st acc = ret (acc ++ view (h0 + size done) rest).
  Proof.
    intros Hr. induction fuel as [|f IH]; intros rest done acc st Hall Hinv Hlen; [lia|].
    specialize (Hr f st acc done rest Hall Hinv). destruct rest as [|x r].
    - now rewrite Hr, view_nil, app_nil_r.
    - destruct Hr as (k & st' & Hk & Hinv' & ->).
      rewrite <- (firstn_skipn k (x :: r)), app_assoc in Hall.
      rewrite (IH _ _ _ _ Hall Hinv'), <- app_assoc, size_app, N.add_assoc, <- view_app, firstn_skipn.
      + reflexivity.
      + rewrite skipn_length. cbn [length] in *. lia.
  Qed.

  Corollary enumerate_all : advances -> size [] = 0 -> forall fuel st,
    inv st [] -> (length all < fuel)%nat -> loop fuel st [] = ret (view h0 all).
  Proof.
    intros Hr H0 fuel st Hinv Hlen.
    now rewrite (enumerate Hr fuel all [] [] st eq_refl Hinv Hlen), H0, N.add_0_r.
  Qed.
End Enumerate.

(** the lemmas on the client loops are stated for this form *)
Lemma clean_client c s mtu : clean c s mtu -> exists cm, c = mkc mtu cm [] false.
Proof. destruct c as [m cm q l]. intros [Hl Hq _ _ Hm _ _]. cbn in *. subst. now exists cm. Qed.

Lemma xfer_answer c s q s' r :
  encodable q = true -> server_step s q = (s', r) -> xfer c s q = Some (deliver c r, s').
Proof. intros He Hs. unfold xfer. now rewrite He, Hs. Qed.

Lemma encodable_range st e : st <= e -> e <= 65535 ->
  encodable (QGroup st e) = true /\ encodable (QType st e) = true /\ encodable (QInfo st e) = true.
Proof. intros. cbn [encodable]. rewrite !fits16_N by lia. auto. Qed.

Lemma wait_answer accept mtu cm m :
  is_cmd_err m = false -> accept m = true ->
  wait accept (deliver (mkc mtu cm [] false) (Some m)) = (Some m, mkc mtu cm [] false).
Proof. intros H1 H2. unfold wait, deliver, set_q, mkc. cbn [c_q app wait_in]. now rewrite H1, H2. Qed.

Definition wf_desc (d : desc) : Prop := uuid_ok (desc_type d).
Definition wf_chr (c : chr) : Prop := uuid_ok (c_uuid c) /\ Forall wf_desc (c_descs c).
Definition wf_svc (s : svc) : Prop := uuid_ok (s_uuid s) /\ Forall wf_chr (s_chrs s).
Definition wf_profile (p : profile) : Prop := Forall wf_svc p /\ profile_size p < 65535.

Lemma wf_svc_skipn k ss : Forall wf_svc ss -> Forall wf_svc (skipn k ss).
Proof. apply Forall_skipn. Qed.

Lemma wf_chr_skipn k cs : Forall wf_chr cs -> Forall wf_chr (skipn k cs).
Proof. apply Forall_skipn. Qed.

(** * Phase 1: primary services *)

(** [shape0_svcs]: the client's view of the services before their characteristics are known *)
Definition svc_decls := walk svc_size (fun h s => (h, APrimary (s_uuid s) (h + svc_size s - 1))).
Definition group_rsp_items := walk svc_size (fun h s => (h, h + svc_size s - 1, s_uuid s)).
Definition shape0_svcs :=
  walk svc_size (fun h s => {| ds_uuid := s_uuid s; ds_start := h; ds_end := h + svc_size s - 1; ds_chrs := [] |}).

Lemma desc_attr_kind d : is_primary (0, desc_attr d) = false /\ is_decl (0, desc_attr d) = false.
Proof. unfold desc_attr. destruct (d_cccd d); split; reflexivity. Qed.

Lemma filter_serve_descs f h ds :
  (forall k d, f (k, desc_attr d) = false) -> filter f (serve_descs h ds) = [].
Proof.
  intros Hf. revert h. induction ds as [|d r IH]; intros h; cbn [serve_descs filter]; [reflexivity|].
  now rewrite Hf.
Qed.

Lemma serve_chrs_no_primary h cs : filter is_primary (serve_chrs h cs) = [].
Proof.
  revert h. induction cs as [|c r IH]; intros h; cbn [serve_chrs filter]; [reflexivity|].
  unfold is_primary at 1 2. cbn [snd]. rewrite filter_app, IH, app_nil_r.
  apply filter_serve_descs. intros k d. apply (desc_attr_kind d).
Qed.

Lemma filter_primary_svcs h ss : filter is_primary (serve_svcs h ss) = svc_decls h ss.
Proof.
  revert h. induction ss as [|s r IH]; intros h; cbn [serve_svcs filter svc_decls walk]; [reflexivity|].
  unfold is_primary at 1. cbn [snd]. now rewrite filter_app, serve_chrs_no_primary, IH.
Qed.

Lemma group_items_spec ss : forall h h0 acc,
  h + profile_size ss <= 65535 ->
  group_items (group_rsp_items h ss) h0 acc
  = (acc ++ shape0_svcs h ss, match ss with [] => h0 | _ => h + profile_size ss - 1 end, false).
Proof.
  induction ss as [|s r IH]; intros h h0 acc Hb; cbn [group_rsp_items shape0_svcs walk group_items].
  - now rewrite app_nil_r.
  - cbn [profile_size fold_right] in *. fold (profile_size r) in *.
    pose proof (svc_size_ge s).
    replace (h + svc_size s - 1 =? 65535) with false by lia.
    fold (group_rsp_items (h + svc_size s) r). rewrite IH by lia.
    rewrite <- app_assoc. cbn [app]. do 2 f_equal.
    destruct r; cbn [profile_size fold_right]; lia.
Qed.

Section Primary.
  Variables (s : server) (mtu cm : nat) (P : profile).
  Hypotheses (Hm : (23 <= s_cmtu s)%nat) (Hdb : sdb s = serve P)
             (Hwf : Forall wf_svc P) (Hsz : profile_size P < 65535).

  Lemma srv_group_spec done rest :
    P = done ++ rest ->
    let st := 1 + profile_size done in
    match rest with
    | [] => server_step s (QGroup st 65535) = (s, Some (RErr OP_READ_BY_GROUP st E_ATTR_NOT_FOUND))
    | _ => exists k, (1 <= k <= length rest)%nat /\
           server_step s (QGroup st 65535) = (s, Some (RGroup (group_rsp_items st (firstn k rest))))
    end.
  Proof.
    intros HP st.
    assert (Hst : 1 <= st /\ st + profile_size rest <= 65535)
      by (pose proof Hsz as H; rewrite HP, profile_size_app in H; unfold st; lia).
    assert (Hsel : sort_h (filter (fun x => is_primary x && in_range st 65535 x) (sdb s)) = svc_decls st rest).
    { rewrite Hdb, HP, <- filter_primary_svcs. unfold serve. rewrite serve_svcs_app.
      eapply range_selects with (lo := 1) (m := st) (h' := st + profile_size rest);
        [apply block_refl | apply serve_svcs_laid | apply serve_svcs_laid | lia | lia |].
      apply Forall_filter, (laid_bounds _ _ _ (serve_svcs_laid done 1)). }
    unfold server_step. unfold srv_group.
    rewrite range_valid, Hsel by lia.
    destruct rest as [|x r]; [reflexivity|].
    destruct (Forall_elt (P := wf_svc) x done r) as [Hu _]; [now rewrite <- HP|].
    destruct (builder_prefix (fun y : N * attr => length (own_uuid (snd y))) (s_cmtu s) 4
                (svc_decls st (x :: r)) _ eq_refl) as (k & Hk & Hs); [cbn [snd own_uuid]; unfold uuid_ok in Hu; lia|].
    unfold svc_decls in *. rewrite walk_firstn in Hs. rewrite walk_length in Hk.
    cbn [walk] in Hs |- *. cbn [snd own_uuid] in Hs |- *. rewrite Hs, map_walk. eauto.
  Qed.

  Lemma primary_advances :
    advances profile_size shape0_svcs (fun fuel st acc => disc_primary fuel st acc (mkc mtu cm [] false) s)
          (fun acc => (Ok acc, mkc mtu cm [] false, s)) P 1 (fun st done => st = 1 + profile_size done).
  Proof.
    intros f st acc done rest HP ->.
    pose proof (srv_group_spec done rest HP) as Hsrv. cbv zeta in Hsrv.
    pose proof Hsz as Hsz'. rewrite HP, profile_size_app in Hsz'.
    destruct (encodable_range (1 + profile_size done) 65535) as (He & _); [lia..|].
    cbn [disc_primary]. destruct rest as [|x r].
    - now rewrite (xfer_answer _ _ _ _ _ He Hsrv), wait_answer.
    - destruct Hsrv as (k & Hk & Hsrv). rewrite (xfer_answer _ _ _ _ _ He Hsrv), wait_answer by reflexivity.
      assert (1 <= profile_size (firstn k (x :: r)) <= profile_size (x :: r)).
      { split; [|exact (total_size_firstn_le svc_size k (x :: r))]. destruct k; [lia|].
        cbn [firstn profile_size fold_right]. pose proof (svc_size_ge x). lia. }
      rewrite group_items_spec by lia.
      exists k, (1 + profile_size done + profile_size (firstn k (x :: r)) - 1 + 1).
      split; [lia|]. split; [rewrite profile_size_app; lia|].
      destruct (firstn k (x :: r)); [cbn [profile_size fold_right] in *; lia|reflexivity].
  Qed.

  Lemma disc_primary_spec fuel :
    (length P < fuel)%nat ->
    disc_primary fuel 1 [] (mkc mtu cm [] false) s = (Ok (shape0_svcs 1 P), mkc mtu cm [] false, s).
  Proof.
    exact (enumerate_all _ _ _ _ P 1 _ profile_size_app (fun _ => eq_refl) (walk_app _ _)
             primary_advances eq_refl fuel 1 eq_refl).
  Qed.
End Primary.

(** * Phase 2: characteristics of a service *)

Definition chr_decls := walk chr_size (fun h c => (h, ADecl (c_props c) (h + 1) (c_uuid c))).
Definition type_rsp_items := walk chr_size (fun h c => (h, c_props c, h + 1, c_uuid c)).
Definition shape0_chrs :=
  walk chr_size (fun h c => {| dc_handle := h; dc_props := c_props c; dc_vh := h + 1; dc_uuid := c_uuid c;
                                dc_descs := [] |}).

(** the handle the client resumes from after the characteristics [cs] laid out from [h]:
    two above the last declaration, which may be short of the next one *)
Fixpoint next_start (h0 h : N) (cs : list chr) : N :=
  match cs with
  | [] => h0
  | c :: r => next_start (h + 2) (h + chr_size c) r
  end.

Lemma filter_decl_chrs h cs : filter is_decl (serve_chrs h cs) = chr_decls h cs.
Proof.
  revert h. induction cs as [|c r IH]; intros h; cbn [serve_chrs filter chr_decls walk]; [reflexivity|].
  unfold is_decl at 1 2. cbn [snd]. rewrite filter_app, IH, filter_serve_descs; [reflexivity|].
  intros k d. apply (desc_attr_kind d).
Qed.

Lemma type_items_spec cs : forall h h0 acc,
  type_items (type_rsp_items h cs) h0 acc = (acc ++ shape0_chrs h cs, next_start h0 h cs).
Proof.
  induction cs as [|c r IH]; intros h h0 acc; cbn [type_rsp_items shape0_chrs walk type_items next_start].
  - now rewrite app_nil_r.
  - fold (type_rsp_items (h + chr_size c) r). now rewrite IH, <- app_assoc.
Qed.

Lemma next_start_bounds cs : forall h h0, h0 <= h ->
  h0 <= next_start h0 h cs /\ next_start h0 h cs <= h + chrs_size cs
  /\ below (next_start h0 h cs) (chr_decls h cs).
Proof.
  induction cs as [|c r IH]; intros h h0 Hh; cbn [next_start chr_decls walk chrs_size fold_right].
  - repeat split; try lia. constructor.
  - fold (chrs_size r). pose proof (chr_size_ge c) as Hc.
    destruct (IH (h + chr_size c) (h + 2) ltac:(lia)) as (H1 & H2 & H3).
    repeat split; try lia. constructor; [cbn [fst]; lia | exact H3].
Qed.

Section Chars.
  Variables (s : server) (mtu cm : nat) (a : N) (sv : svc).
  Hypotheses (Hm : (23 <= s_cmtu s)%nat)
             (Hb : block (sdb s) (svc_db a sv) a (a + svc_size sv - 1))
             (Hwf : Forall wf_chr (s_chrs sv)) (Ha : 1 <= a) (Hmax : a + svc_size sv <= 65535).

  Lemma srv_type_spec done rest st :
    s_chrs sv = done ++ rest ->
    a <= st -> st <= a + svc_size sv - 1 ->
    st <= a + 1 + chrs_size done -> below st (chr_decls (a + 1) done) ->
    let e := a + svc_size sv - 1 in
    match rest with
    | [] => server_step s (QType st e) = (s, Some (RErr OP_READ_BY_TYPE st E_ATTR_NOT_FOUND))
    | _ => exists k, (1 <= k <= length rest)%nat /\
           server_step s (QType st e) = (s, Some (RType (type_rsp_items (a + 1 + chrs_size done) (firstn k rest))))
    end.
  Proof.
    intros Hcs Hst Hste Hsth Hbel e.
    set (h := a + 1 + chrs_size done).
    assert (Hsel : sort_h (filter (fun x => is_decl x && in_range st e x) (sdb s)) = chr_decls h rest).
    { pose proof Hb as Hb'. unfold svc_db in Hb'. rewrite Hcs, serve_chrs_app, app_comm_cons in Hb'.
      rewrite <- filter_decl_chrs.
      eapply range_selects with (lo := a) (m := h) (h' := h + chrs_size rest);
        [exact Hb' | constructor; apply serve_chrs_laid | apply serve_chrs_laid | | lia |].
      - unfold e, h, svc_size. rewrite Hcs, chrs_size_app. lia.
      - cbn [filter]. unfold is_decl at 1. cbn [snd]. now rewrite filter_decl_chrs. }
    unfold server_step. unfold srv_type.
    rewrite range_valid, Hsel by lia.
    destruct rest as [|x r]; [reflexivity|].
    destruct (Forall_elt (P := wf_chr) x done r) as [Hu _]; [now rewrite <- Hcs|].
    destruct (builder_prefix (fun y : N * attr => length (own_uuid (snd y))) (s_cmtu s) 5
                (chr_decls h (x :: r)) _ eq_refl) as (k & Hk & Hs); [cbn [snd own_uuid]; unfold uuid_ok in Hu; lia|].
    unfold chr_decls in *. rewrite walk_firstn in Hs. rewrite walk_length in Hk.
    cbn [walk] in Hs |- *. cbn [snd own_uuid] in Hs |- *. rewrite Hs, map_walk.
    exists k. split; [exact Hk|]. destruct k; [lia|reflexivity].
  Qed.

  Lemma chars_advances :
    advances chrs_size shape0_chrs
          (fun fuel st acc => disc_chars fuel st (a + svc_size sv - 1) acc (mkc mtu cm [] false) s)
          (fun acc => (Ok acc, mkc mtu cm [] false, s)) (s_chrs sv) (a + 1)
          (fun st done => a <= st <= a + 1 + chrs_size done /\ below st (chr_decls (a + 1) done)).
  Proof.
    intros f st acc done rest Hcs ((Hst & Hsth) & Hbel).
    set (e := a + svc_size sv - 1).
    assert (He : e + 1 = a + 1 + chrs_size done + chrs_size rest).
    { unfold e, svc_size. rewrite Hcs, chrs_size_app. lia. }
    cbn [disc_chars]. destruct (N.ltb e st) eqn:E.
    - (* the loop condition fails: nothing can remain *)
      apply N.ltb_lt in E. destruct rest as [|x r]; [reflexivity|].
      cbn [chrs_size fold_right] in He. pose proof (chr_size_ge x). lia.
    - apply N.ltb_ge in E.
      pose proof (srv_type_spec done rest st Hcs Hst E Hsth Hbel) as Hsrv.
      cbv zeta in Hsrv. fold e in Hsrv.
      destruct (encodable_range st e) as (_ & He' & _); [unfold e in *; lia..|].
      destruct rest as [|x r].
      + now rewrite (xfer_answer _ _ _ _ _ He' Hsrv), wait_answer.
      + destruct Hsrv as (k & Hk & Hsrv).
        rewrite (xfer_answer _ _ _ _ _ He' Hsrv), wait_answer, type_items_spec by reflexivity.
        destruct (next_start_bounds (firstn k (x :: r)) _ st Hsth) as (N1 & N2 & N3).
        exists k, (next_start st (a + 1 + chrs_size done) (firstn k (x :: r))).
        split; [lia|]. split; [|reflexivity]. split; [rewrite chrs_size_app; lia|].
        unfold chr_decls. rewrite walk_app. apply below_app. split; [|exact N3].
        eapply below_mono; [exact Hbel|lia].
  Qed.

  Lemma disc_chars_spec fuel :
    (length (s_chrs sv) < fuel)%nat ->
    disc_chars fuel a (a + svc_size sv - 1) [] (mkc mtu cm [] false) s
    = (Ok (shape0_chrs (a + 1) (s_chrs sv)), mkc mtu cm [] false, s).
  Proof.
    intros Hfuel.
    apply (enumerate_all _ _ _ _ (s_chrs sv) (a + 1) _ chrs_size_app (fun _ => eq_refl) (walk_app _ _)
             chars_advances eq_refl fuel a); [|exact Hfuel].
    split; [cbn [chrs_size fold_right]; lia|constructor].
  Qed.
End Chars.

(** * Phase 3: descriptors of a characteristic *)

Lemma type_uuid_desc d : type_uuid (desc_attr d) = desc_type d.
Proof. unfold desc_attr, desc_type. destruct (d_cccd d); reflexivity. Qed.

Lemma map_info_descs h ds :
  map (fun y : N * attr => (fst y, type_uuid (snd y))) (serve_descs h ds) = shape_descs h ds.
Proof.
  revert h. induction ds as [|d r IH]; intros h; cbn [serve_descs map shape_descs fst snd]; [reflexivity|].
  now rewrite type_uuid_desc, IH.
Qed.

Lemma serve_descs_firstn k h ds : firstn k (serve_descs h ds) = serve_descs h (firstn k ds).
Proof.
  revert h ds. induction k as [|k IH]; intros h [|d r]; cbn [firstn serve_descs]; now rewrite ?IH.
Qed.

Lemma serve_descs_len h ds : length (serve_descs h ds) = length ds.
Proof. revert h. induction ds as [|d r IH]; intros h; cbn [serve_descs length]; auto. Qed.

Lemma shape_descs_app d1 d2 h :
  shape_descs h (d1 ++ d2) = shape_descs h d1 ++ shape_descs (h + N.of_nat (length d1)) d2.
Proof. rewrite <- !map_info_descs, serve_descs_app, map_app. reflexivity. Qed.

Lemma length_app_N {A} (l1 l2 : list A) :
  N.of_nat (length (l1 ++ l2)) = N.of_nat (length l1) + N.of_nat (length l2).
Proof. rewrite app_length. lia. Qed.

Lemma descs_readable D b ds hi :
  block D (serve_descs b ds) b hi -> hi + 1 = b + N.of_nat (length ds) -> 1 <= b ->
  forall k, b <= k <= hi -> exists S, readable_target D k S.
Proof.
  intros Hb Hhi H1 k Hk. unfold readable_target. rewrite (lookup_block _ _ _ _ k Hb) by lia.
  assert (Hd : exists d, lookup (serve_descs b ds) k = Some (desc_attr d)).
  { clear Hb. revert b H1 Hhi Hk. induction ds as [|d r IH]; intros b H1 Hhi Hk; cbn [serve_descs lookup length] in *; [lia|].
    destruct (N.eqb_spec b k); [eauto|]. apply IH; lia. }
  destruct Hd as [d ->]. exists (d_val d). split; [lia|]. right.
  unfold desc_attr. destruct (d_cccd d); eauto.
Qed.

Lemma info_items_spec c s mtu ds : forall st h0 acc,
  clean c s mtu ->
  (forall k, st <= k < st + N.of_nat (length ds) -> exists S, readable_target (sdb s) k S) ->
  st + N.of_nat (length ds) <= 65535 ->
  info_items (shape_descs st ds) h0 acc c s
  = (Ok (acc ++ shape_descs st ds, match ds with [] => h0 | _ => st + N.of_nat (length ds) - 1 end, false), c, s).
Proof.
  induction ds as [|d r IH]; intros st h0 acc Hcl Hrd Hb; cbn [shape_descs info_items length] in *.
  - now rewrite app_nil_r.
  - destruct (Hrd st) as [S HS]; [lia|].
    replace (N.eqb st 65535) with false by lia.
    rewrite (read_returns_prefix c s mtu st S Hcl) by (assumption || lia).
    rewrite IH by (try assumption; try lia; intros k Hk; apply Hrd; lia).
    rewrite <- app_assoc. cbn [app]. do 5 f_equal. destruct r; cbn [length]; lia.
Qed.

Section Descs.
  Variables (s : server) (mtu cm : nat) (b : N) (ds : list desc) (hi : N).
  Hypotheses (Hcl : clean (mkc mtu cm [] false) s mtu)
             (Hb : block (sdb s) (serve_descs b ds) b hi) (Hhi : hi + 1 = b + N.of_nat (length ds))
             (Hwf : Forall wf_desc ds) (H1 : 1 <= b) (H65 : hi < 65535).

  Lemma srv_info_spec done rest :
    ds = done ++ rest -> rest <> [] ->
    let st := b + N.of_nat (length done) in
    exists k, (1 <= k <= length rest)%nat /\
      server_step s (QInfo st hi) = (s, Some (RInfo (shape_descs st (firstn k rest)))).
  Proof.
    intros Hds Hne st.
    assert (Hm : (23 <= s_cmtu s)%nat) by (destruct Hcl; lia).
    assert (Hl : N.of_nat (length ds) = N.of_nat (length done) + N.of_nat (length rest))
      by (rewrite Hds; apply length_app_N).
    assert (Hsel : sort_h (filter (in_range st hi) (sdb s)) = serve_descs st rest).
    { (* Find Information lists every kind of attribute: the kind is [fun _ => true] *)
      pose proof Hb as Hb'. rewrite Hds, serve_descs_app in Hb'.
      rewrite <- (filter_true (fun _ => true) (serve_descs st rest)) by (apply Forall_forall; reflexivity).
      eapply (range_selects (fun _ => true)) with (lo := b) (m := st) (h' := st + N.of_nat (length rest));
        [exact Hb' | apply serve_descs_laid | apply serve_descs_laid | unfold st; lia | unfold st; lia |].
      apply Forall_filter, (laid_bounds _ _ _ (serve_descs_laid done b)). }
    unfold server_step. unfold srv_info.
    destruct rest as [|x r]; [congruence|]. cbn [length] in Hl.
    rewrite range_valid, Hsel by (unfold st; lia).
    assert (Hu : wf_desc x) by (apply (Forall_elt x done r); now rewrite <- Hds).
    destruct (builder_prefix (fun y : N * attr => length (type_uuid (snd y))) (s_cmtu s) 2
                (serve_descs st (x :: r)) _ eq_refl) as (k & Hk & Hs);
      [cbn [snd]; rewrite type_uuid_desc; unfold wf_desc, uuid_ok in Hu; lia|].
    rewrite serve_descs_firstn in Hs. rewrite serve_descs_len in Hk.
    cbn [serve_descs] in Hs |- *. cbn [snd] in Hs |- *. rewrite Hs, map_info_descs. eauto.
  Qed.

  Lemma descs_advances :
    advances (fun l => N.of_nat (length l)) shape_descs
          (fun fuel st acc => disc_descs fuel st hi acc (mkc mtu cm [] false) s)
          (fun acc => (Ok acc, mkc mtu cm [] false, s)) ds b (fun st done => st = b + N.of_nat (length done)).
  Proof.
    intros f st acc done rest Hds ->.
    assert (Hl : N.of_nat (length ds) = N.of_nat (length done) + N.of_nat (length rest))
      by (rewrite Hds; apply length_app_N).
    cbn [disc_descs]. destruct rest as [|x r]; cbn [length] in Hl.
    - replace (N.ltb hi _) with true by lia. reflexivity.
    - replace (N.ltb hi _) with false by lia.
      destruct (srv_info_spec done (x :: r) Hds) as (k & Hk & Hsrv); [discriminate|].
      cbv zeta in Hsrv.
      destruct (encodable_range (b + N.of_nat (length done)) hi) as (_ & _ & He); [lia..|].
      rewrite (xfer_answer _ _ _ _ _ He Hsrv), wait_answer by reflexivity.
      assert (Hp : (length (firstn k (x :: r)) = k)%nat) by (apply firstn_length_le; lia).
      rewrite (info_items_spec _ _ mtu) ; [|exact Hcl| |]; rewrite ?Hp.
      + exists k, (b + N.of_nat (length done) + N.of_nat k - 1 + 1).
        split; [lia|]. split; [rewrite length_app_N, Hp; lia|].
        destruct (firstn k (x :: r)); [cbn [length] in Hp; lia|reflexivity].
      + intros h Hh. apply (descs_readable _ b ds hi Hb Hhi H1). cbn [length] in Hk. lia.
      + cbn [length] in Hk. lia.
  Qed.

  Lemma disc_descs_spec fuel :
    (length ds < fuel)%nat ->
    disc_descs fuel b hi [] (mkc mtu cm [] false) s = (Ok (shape_descs b ds), mkc mtu cm [] false, s).
  Proof.
    exact (enumerate_all _ _ _ _ ds b _ length_app_N (fun _ => eq_refl) shape_descs_app
             descs_advances eq_refl fuel b (eq_sym (N.add_0_r b))).
  Qed.
End Descs.

(** * Assembling the phases *)

(** the client's view after phase 2: characteristics known, descriptors not yet *)
Definition shape1_svcs :=
  walk svc_size (fun h s => {| ds_uuid := s_uuid s; ds_start := h; ds_end := h + svc_size s - 1;
                               ds_chrs := shape0_chrs (h + 1) (s_chrs s) |}).

Lemma svc_end_after_id cs : forall h m, h + chrs_size cs <= m + 1 ->
  svc_end_after m (shape0_chrs h cs) = m.
Proof.
  unfold svc_end_after.
  induction cs as [|c r IH]; intros h m Hb; cbn [shape0_chrs walk fold_left dc_handle]; [reflexivity|].
  cbn [chrs_size fold_right] in Hb. fold (chrs_size r) in Hb. pose proof (chr_size_ge c).
  replace (N.max m (h + 1)) with m by lia. apply IH. lia.
Qed.

(** handles of the characteristics of a service, as the client sorts them *)
Definition chr_handles := walk chr_size (fun h (_ : chr) => h).

Lemma chr_handles_from h cs : Forall (fun x => h <= x) (chr_handles h cs).
Proof.
  revert h. induction cs as [|c r IH]; intros h; cbn [chr_handles walk]; constructor; [lia|].
  eapply Forall_impl; [|apply IH]. cbn beta. intros; lia.
Qed.

Lemma insert_N_le x l : Forall (fun y => x <= y) l -> insert_N x l = x :: l.
Proof.
  destruct l as [|y r]; cbn [insert_N]; [reflexivity|]. intros H. inversion H; subst.
  replace (x <=? y) with true by lia. reflexivity.
Qed.

Lemma sort_N_chr_handles h cs : sort_N (chr_handles h cs) = chr_handles h cs.
Proof.
  unfold sort_N. revert h. induction cs as [|c r IH]; intros h; cbn [chr_handles walk fold_right]; [reflexivity|].
  fold (chr_handles (h + chr_size c) r). rewrite IH. apply insert_N_le.
  eapply Forall_impl; [|apply chr_handles_from]. cbn beta. intros; lia.
Qed.

Lemma end_after_spec c cr send l hc : forall cd h,
  l = cd ++ c :: cr -> hc = h + chrs_size cd ->
  end_after (chr_handles h l) hc send = Some (match cr with [] => send | _ => hc + chr_size c - 1 end).
Proof.
  intros cd h -> ->. revert h.
  induction cd as [|c0 cd IH]; intros h; cbn [app chr_handles walk end_after chrs_size fold_right].
  - rewrite N.add_0_r, N.eqb_refl. destruct cr; reflexivity.
  - fold (chrs_size cd). pose proof (chr_size_ge c0).
    replace (N.eqb h (h + (chr_size c0 + chrs_size cd))) with false by lia.
    rewrite N.add_assoc. apply IH.
Qed.

Lemma descs_block D a sv cd c cr :
  block D (svc_db a sv) a (a + svc_size sv - 1) -> s_chrs sv = cd ++ c :: cr ->
  let hc := a + 1 + chrs_size cd in
  block D (serve_descs (hc + 2) (c_descs c)) (hc + 2) (hc + chr_size c - 1).
Proof.
  intros Hb Hcs hc.
  assert (Hsz : svc_size sv = 1 + chrs_size cd + chr_size c + chrs_size cr).
  { unfold svc_size. rewrite Hcs, chrs_size_app. cbn [chrs_size fold_right]. fold (chrs_size cr). lia. }
  apply (block_trans _ (svc_db a sv) _ a (a + svc_size sv - 1)); [exact Hb | | unfold hc; lia..].
  unfold svc_db. rewrite Hcs, serve_chrs_app. fold hc. cbn [serve_chrs].
  exists ((a, APrimary (s_uuid sv) (a + svc_size sv - 1)) :: serve_chrs (a + 1) cd
          ++ [(hc, ADecl (c_props c) (hc + 1) (c_uuid c)); (hc + 1, AValue (c_uuid c) (c_val c))]),
         (serve_chrs (hc + chr_size c) cr).
  pose proof (chr_size_ge c). split; [|split].
  - cbn [app]. rewrite <- !app_assoc. reflexivity.
  - destruct (laid_bounds _ _ _ (serve_chrs_laid cd (a + 1))) as (_ & B & _). fold hc in B.
    constructor; [cbn [fst]; unfold hc; lia|]. apply below_app. split.
    + eapply below_mono; [exact B|lia].
    + repeat constructor; cbn [fst]; lia.
  - replace (hc + chr_size c - 1 + 1) with (hc + chr_size c) by lia.
    apply (laid_bounds _ _ _ (serve_chrs_laid cr _)).
Qed.

Lemma disc_svc_descs_cons fuel handles send ch r c s endh ds c1 s1 rest c2 s2 :
  end_after handles (dc_handle ch) send = Some endh ->
  disc_descs fuel (dc_vh ch + 1) endh [] c s = (Ok ds, c1, s1) ->
  disc_svc_descs fuel handles send r c1 s1 = (Ok rest, c2, s2) ->
  disc_svc_descs fuel handles send (ch :: r) c s
  = (Ok ({| dc_handle := dc_handle ch; dc_props := dc_props ch; dc_vh := dc_vh ch; dc_uuid := dc_uuid ch;
            dc_descs := ds |} :: rest), c2, s2).
Proof. intros H1 H2 H3. cbn [disc_svc_descs]. now rewrite H1, H2, H3. Qed.

Lemma disc_svc_descs_spec s mtu cm a sv fuel :
  clean (mkc mtu cm [] false) s mtu ->
  block (sdb s) (svc_db a sv) a (a + svc_size sv - 1) ->
  Forall wf_chr (s_chrs sv) -> a + svc_size sv <= 65535 ->
  (N.to_nat (svc_size sv) < fuel)%nat ->
  forall rest done hc, s_chrs sv = done ++ rest -> hc = a + 1 + chrs_size done ->
    disc_svc_descs fuel (chr_handles (a + 1) (s_chrs sv)) (a + svc_size sv - 1)
                   (shape0_chrs hc rest) (mkc mtu cm [] false) s
    = (Ok (shape_chrs hc rest), mkc mtu cm [] false, s).
Proof.
  intros Hcl Hb Hwf Hbound Hfuel.
  induction rest as [|c cr IH]; intros done hc Hcs Hhc; [reflexivity|].
  assert (Hsz : svc_size sv = 1 + chrs_size done + chr_size c + chrs_size cr).
  { unfold svc_size. rewrite Hcs, chrs_size_app. cbn [chrs_size fold_right]. fold (chrs_size cr). lia. }
  pose proof (chr_size_ge c) as Hc2.
  assert (Hwc : wf_chr c) by (apply (Forall_elt c done cr); now rewrite <- Hcs).
  eapply disc_svc_descs_cons with (endh := hc + chr_size c - 1); cbn [dc_handle dc_vh].
  - rewrite (end_after_spec c cr _ _ hc done (a + 1) Hcs Hhc). f_equal.
    destruct cr; [cbn [chrs_size fold_right] in Hsz|]; lia.
  - (* the descriptors lie between the value and the next declaration *)
    replace (hc + 1 + 1) with (hc + 2) by lia.
    apply disc_descs_spec;
      [exact Hcl | | unfold chr_size; lia | exact (proj2 Hwc) | lia | lia | unfold chr_size in Hsz; lia].
    rewrite Hhc. exact (descs_block _ a sv done c cr Hb Hcs).
  - apply (IH (done ++ [c])); [rewrite <- app_assoc; exact Hcs|].
    rewrite chrs_size_app. cbn [chrs_size fold_right]. lia.
Qed.

Section Profile.
  Variables (s : server) (mtu cm : nat) (P : profile) (fuel : nat).
  Hypotheses (Hcl : clean (mkc mtu cm [] false) s mtu) (Hdb : sdb s = serve P)
             (Hwf : Forall wf_svc P) (Hsz : profile_size P < 65535)
             (Hfuel : (N.to_nat (profile_size P) < fuel)%nat).

  Lemma svc_of_profile done sv r :
    P = done ++ sv :: r ->
    let a := 1 + profile_size done in
    block (sdb s) (svc_db a sv) a (a + svc_size sv - 1) /\ Forall wf_chr (s_chrs sv)
    /\ a + svc_size sv <= 65535 /\ svc_size sv <= profile_size P
    /\ a + svc_size sv = 1 + profile_size (done ++ [sv]).
  Proof.
    intros HP a. split; [rewrite Hdb, HP; apply svc_block|].
    destruct (Forall_elt (P := wf_svc) sv done r) as [_ Hsv]; [now rewrite <- HP|].
    pose proof Hsz as Hsz'. rewrite HP in Hsz' |- *. rewrite !profile_size_app in *. cbn [profile_size fold_right] in *.
    unfold a. repeat split; try assumption; lia.
  Qed.

  Lemma disc_all_chars_spec : forall rest done a, P = done ++ rest -> a = 1 + profile_size done ->
    disc_all_chars fuel (shape0_svcs a rest) (mkc mtu cm [] false) s
    = (Ok (shape1_svcs a rest), mkc mtu cm [] false, s).
  Proof.
    assert (Hm : (23 <= s_cmtu s)%nat) by (destruct Hcl; lia).
    induction rest as [|sv r IH]; intros done a HP ->;
      cbn [shape0_svcs shape1_svcs walk disc_all_chars ds_start ds_end ds_uuid]; [reflexivity|].
    destruct (svc_of_profile done sv r HP) as (Hb & Hwsv & Hbound & Hle & Ea).
    assert (N.of_nat (length (s_chrs sv)) <= chrs_size (s_chrs sv))
      by (apply total_size_length; intros c; pose proof (chr_size_ge c); lia).
    rewrite disc_chars_spec by (try assumption; unfold svc_size in *; lia).
    rewrite svc_end_after_id by (unfold svc_size; lia).
    fold (shape0_svcs (1 + profile_size done + svc_size sv) r).
    now rewrite (IH (done ++ [sv]) _ ltac:(rewrite <- app_assoc; exact HP) Ea).
  Qed.

  Lemma disc_all_descs_spec : forall rest done a, P = done ++ rest -> a = 1 + profile_size done ->
    disc_all_descs fuel (shape1_svcs a rest) (mkc mtu cm [] false) s
    = (Ok (shape_svcs a rest), mkc mtu cm [] false, s).
  Proof.
    induction rest as [|sv r IH]; intros done a HP ->;
      cbn [shape1_svcs walk disc_all_descs shape_svcs ds_start ds_end ds_uuid ds_chrs]; [reflexivity|].
    destruct (svc_of_profile done sv r HP) as (Hb & Hwsv & Hbound & Hle & Ea).
    unfold shape0_chrs at 1. rewrite map_walk. fold (chr_handles (1 + profile_size done + 1) (s_chrs sv)).
    rewrite sort_N_chr_handles.
    rewrite (disc_svc_descs_spec s mtu cm _ sv fuel Hcl Hb Hwsv Hbound ltac:(lia) (s_chrs sv) [] _ eq_refl)
      by (cbn [chrs_size fold_right]; lia).
    fold (shape1_svcs (1 + profile_size done + svc_size sv) r).
    now rewrite (IH (done ++ [sv]) _ ltac:(rewrite <- app_assoc; exact HP) Ea).
  Qed.
  (** Each loop is given the same fuel; none needs more passes than it has items to enumerate,
      plus one, and every item is an attribute of the profile. *)
  Lemma discover_spec : discover fuel (mkc mtu cm [] false) s = (Ok (shape P), mkc mtu cm [] false, s).
  Proof.
    assert (Hm : (23 <= s_cmtu s)%nat) by (destruct Hcl; lia).
    assert (N.of_nat (length P) <= profile_size P) by (apply total_size_length, svc_size_ge).
    unfold discover. cbn [mkc c_locked]. fold (mkc mtu cm [] false).
    rewrite (disc_primary_spec s mtu cm P Hm Hdb Hwf Hsz fuel) by lia.
    rewrite (disc_all_chars_spec P [] 1 eq_refl eq_refl).
    exact (disc_all_descs_spec P [] 1 eq_refl eq_refl).
  Qed.
End Profile.

Lemma disc_primary_error s mtu cm f st acc rq h code :
  fits16 st = true -> server_step s (QGroup st 65535) = (s, Some (RErr rq h code)) ->
  is_cmd_err (RErr rq h code) = false -> N.eqb code E_ATTR_NOT_FOUND = false ->
  disc_primary (S f) st acc (mkc mtu cm [] false) s = (Raise (EAtt code), mkc mtu cm [] false, s).
Proof.
  intros Hst Hsrv Hcmd Hcode.
  assert (He : encodable (QGroup st 65535) = true) by (cbn [encodable]; now rewrite Hst).
  cbn [disc_primary]. now rewrite (xfer_answer _ _ _ _ _ He Hsrv), wait_answer, Hcode.
Qed.

(** a profile mixing 16- and 128-bit UUIDs at every level *)
Definition p_mixed : profile :=
  let u128 := repeat 7 16 in
  [ {| s_uuid := [0; 24]; s_chrs :=
        [ {| c_uuid := [0; 42]; c_props := 10; c_val := [65]; c_descs :=
               [ {| d_cccd := false; d_uuid := [1; 41]; d_val := [97] |};
                 {| d_cccd := false; d_uuid := u128; d_val := [98] |};
                 {| d_cccd := true; d_uuid := [2; 41]; d_val := [0; 0] |} ] |};
          {| c_uuid := u128; c_props := 2; c_val := []; c_descs := [] |};
          {| c_uuid := [1; 42]; c_props := 18; c_val := [1]; c_descs := [] |} ] |};
    {| s_uuid := u128; s_chrs := [] |};
    {| s_uuid := [15; 24]; s_chrs := [ {| c_uuid := u128; c_props := 2; c_val := [100]; c_descs := [] |} ] |} ].
