(** C16 — the property theorems, each derived in a few lines from the lemmas of Proofs.v.

    Vocabulary (defined in Model.v, [svc_ids] / [all_ids] in Proofs.v): [build start sds] is
    [Profile.__init__] on a class declaring the services [sds]; [run p ops] applies add_service /
    update_service (alone or after add_characteristic / remove_characteristic / add_descriptor) /
    remove_service; [dump p] is the attribute database with every object reference resolved;
    [layout gaps p] says that the
    database holds exactly the attributes of the listed services, each under its own handle,
    in declaration order: declaration, include definitions, then per characteristic the
    declaration at h, the value at h+1, the descriptors from h+2, end handle = last own
    attribute, each service's range [handle..end] = its own attributes; with [gaps = false]
    every service starts right after the previous one, the first one at the start handle,
    and the next free handle is right after the last attribute. *)
From Coq Require Import List NArith Arith Bool Permutation.
From Whad Require Import Lib.Bytes C16.Model C16.Proofs.
Import ListNotations.
Open Scope N_scope.

(** For ANY profile definition and start handle >= 1 the built database has the layout,
    contiguous from the start handle. *)
Theorem C16_build_layout :
  forall (start : N) (sds : list sdef),
    1 <= start -> layout false (build start sds) /\ p_start (build start sds) = start.
Proof.
  intros start sds H. destruct (build_from_inv 0 start sds H) as (H1 & H2 & H3 & _).
  split; [now apply invs_layout|exact H3].
Qed.

(** The layout, contiguity included, is preserved by every sequence of add / update /
    add-characteristic+update / remove-characteristic+update / add-descriptor+update
    operations, and none raises. *)
Theorem C16_ops_layout_partial :
  forall (start : N) (sds : list sdef) (ops : list op),
    1 <= start -> no_remove ops = true ->
    exists q, run (build start sds) ops = Done q /\ layout false q /\ p_start q = start.
Proof.
  intros start sds ops H Hn. destruct (build_from_inv 0 start sds H) as (HI & _).
  destruct (run_inv ops _ HI) as (q & E & Hq). destruct (preserved_build_layout _ _ _ _ H Hq) as (_ & Hs & Hl).
  exists q. auto.
Qed.

(** With remove_service in the sequence everything but the contiguity ACROSS services still
    holds for all sequences (distinct handles, every attribute under its own handle, order,
    value right after declaration, descriptors after value, exact service ranges,
    increasing disjoint ranges, next free handle above everything), and nothing raises. *)
Theorem C16_ops_layout_gaps :
  forall (start : N) (sds : list sdef) (ops : list op),
    1 <= start ->
    exists q, run (build start sds) ops = Done q /\ layout true q /\ p_start q = start.
Proof.
  intros start sds ops H. destruct (build_from_inv 0 start sds H) as (HI & _).
  destruct (run_inv ops _ HI) as (q & E & Hq). destruct (preserved_build_layout _ _ _ _ H Hq) as (Hl & Hs & _).
  exists q. auto.
Qed.

(** FULL STATEMENT (contiguity also after removals) — refuted by the faithful model:
    remove_service leaves a gap (KNOWN-FINDING remove-service-leaves-handle-gap). *)
Definition C16_ops_layout_statement : Prop :=
  forall (start : N) (sds : list sdef) (ops : list op) (q : profile),
    1 <= start -> run (build start sds) ops = Done q -> layout false q.

Theorem C16_ops_layout_refuted :
  exists start sds ops q, 1 <= start /\ run (build start sds) ops = Done q /\ ~ layout false q.
Proof.
  pose (w := fun u => mkSD SKprimary (u16 u) [] [mkCD (u16 0x2A00) [65] 2 None false false None [] []]).
  exists 1, [w 0x1800; w 0x1801], [OpRemove 0%nat].
  eexists. split; [discriminate|]. split; [vm_compute; reflexivity|].
  intros HL. apply layout_contiguous in HL as [HL _]. vm_compute in HL. discriminate.
Qed.

(** Histories in which services are assembled BY HAND: the Python-object construction order is
    part of the history.  Service objects are created empty and stay pending while, in any
    order and interleaved with every operation on the profile, characteristics are attached
    to them, descriptors are added to already attached characteristics (leaving the service's
    own end handle stale), include definitions are added; [HRegister] passes one to
    add_service.  For ALL such histories no step raises and the layout holds after the run
    (hence, the statement being about every history, after every step); it is contiguous
    from the start handle when the history contains no remove_service. *)
Theorem C16_hand_assembly_histories :
  forall (start : N) (sds : list sdef) (hs : list hop),
    1 <= start ->
    exists q pend, hrun (build start sds, []) hs = (Done q, pend) /\ layout true q /\ p_start q = start
                   /\ (forallb hop_no_remove hs = true -> layout false q).
Proof.
  intros start sds hs H. destruct (build_from_inv 0 start sds H) as (HI & _).
  destruct (hrun_inv hs _ [] HI (Forall_nil _)) as (q & pend & E & Hq).
  exists q, pend. split; [exact E|exact (preserved_build_layout _ _ _ _ H Hq)].
Qed.

(** Building is a pure function of (definition, start handle) that creates fresh objects:
    two instances (of one class or of two), the second built from the object identities the
    first left unused, both have the full layout at their own start handle, and no object
    identity (service or characteristic, hence no value / descriptor / include reference of
    the attribute databases) occurs in both.  [all_ids] lists the identities of a profile. *)
Theorem C16_instances_independent :
  forall (start1 start2 : N) (sds1 sds2 : list sdef),
    1 <= start1 -> 1 <= start2 ->
    let p1 := build start1 sds1 in
    let p2 := build_from (p_fresh p1) start2 sds2 in
    layout false p1 /\ layout false p2 /\ p_start p2 = start2
    /\ (forall x, In x (all_ids (p_svcs p1)) -> ~ In x (all_ids (p_svcs p2))).
Proof.
  intros start1 start2 sds1 sds2 H1 H2. cbv zeta.
  destruct (build_from_inv 0 start1 sds1 H1) as (I1 & T1 & _).
  destruct (build_from_inv (p_fresh (build start1 sds1)) start2 sds2 H2) as (I2 & T2 & S2 & _ & G2).
  split; [now apply invs_layout|]. split; [now apply invs_layout|]. split; [exact S2|].
  intros x Hx1 Hx2. destruct I1 as [[_ _ _ [_ Hlt]] _ _]. rewrite Forall_forall in Hlt, G2.
  exact (N.lt_irrefl _ (N.lt_le_trans _ _ _ (Hlt _ Hx1) (G2 _ Hx2))).
Qed.

(** What the layout means for the handles: distinct, every attribute found under the handle
    it carries, no dangling reference ... *)
Theorem C16_layout_distinct_handles :
  forall g p, layout g p ->
    NoDup (map fst (dump p))
    /\ Forall (fun e => attr_handle (snd e) = fst e /\ snd e <> ADangling) (dump p).
Proof.
  intros g p (_ & Hd & Hs & _). rewrite Hd. split; [|apply svc_dump_all_handles].
  eapply incr_NoDup. apply (gchain_entries _ _ _ _ (svcs_spec_chain _ _ _ _ Hs)).
Qed.

(** ... and allocated contiguously without gaps from the start handle. *)
Theorem C16_layout_contiguous :
  forall p, layout false p ->
    map fst (dump p) = Nseq (p_start p) (length (dump p)) /\ p_next p = p_start p + lenN (dump p).
Proof. exact layout_contiguous. Qed.

(** Lookups agree with the layout WHATEVER the registration order of the attribute dict.
    [db_agrees p]: the dict holds exactly the attributes of the listed services, each under
    its own handle, as a PERMUTATION of the layout (the model keeps Python's insertion order),
    and the layout's handles are strictly ascending.  It holds for every class-built profile
    after every operation sequence (there the dict order is proved to BE the ascending order:
    [layout] states an equality of lists) and for every re-imported profile (whose dict is in
    the order of the from_json loop: descriptors, declaration, value, ..., service last). *)
Theorem C16_layout_agrees : forall g p, layout g p -> db_agrees p.
Proof.
  intros g p (_ & Hd & Hs & Hv & Hnd). unfold db_agrees. rewrite Hd, Hv.
  split; [reflexivity|]. split; [|split; [reflexivity|exact Hnd]].
  eapply incr_ascending. apply (gchain_entries _ _ _ _ (svcs_spec_chain _ _ _ _ Hs)).
Qed.

Theorem C16_lookup_by_handle :
  forall p h a, db_agrees p ->
    (find_by_handle p h = Some a <-> In (h, a) (flat_map svc_dump (p_svcs p))).
Proof. exact lookup_by_handle. Qed.

Theorem C16_lookup_by_handle_own :
  forall p h a, db_agrees p -> find_by_handle p h = Some a -> attr_handle a = h.
Proof.
  intros p h a HA H. apply (lookup_by_handle _ _ _ HA) in H.
  pose proof (svc_dump_all_handles (p_svcs p)) as Hh. rewrite Forall_forall in Hh. now apply Hh in H.
Qed.

(** find_objects_by_range (which sorts the handles it collected: the sort is modelled) *)
Theorem C16_lookup_by_range :
  forall p a b, db_agrees p ->
    find_by_range p a b
    = map snd (filter (fun e => (a <=? fst e) && (fst e <=? b)) (flat_map svc_dump (p_svcs p))).
Proof.
  intros p a b HA. pose proof HA as (Hp & Ha & _). unfold find_by_range.
  rewrite <- keys_dump, (sort_filter_perm _ _ _ (Permutation_map fst Hp) Ha), filter_map_fst.
  apply find_all_by_handle; [exact HA|]. intros e He. now apply filter_In in He.
Qed.

(** attr_by_type_uuid yields, in dict order, exactly the layout's attributes of the type in range *)
Theorem C16_lookup_by_type :
  forall p u a b, db_agrees p ->
    Permutation (find_by_type p u a b)
      (map fst (filter (fun e => uuid_eqb (attr_type (snd e)) u && (a <=? fst e) && (fst e <=? b))
                       (flat_map svc_dump (p_svcs p)))).
Proof.
  intros p u a b (Hp & _). unfold find_by_type. rewrite (Permutation_filter' _ _ _ Hp).
  pose proof (svc_dump_all_handles (p_svcs p)) as Hh. rewrite Forall_forall in Hh.
  erewrite filter_ext_in, map_ext_in; [reflexivity| |].
  - intros e He. apply filter_In in He as [He _]. now apply Hh.
  - intros e He. cbv beta. now destruct (Hh _ He) as [-> _].
Qed.

(** service(uuid) / char(uuid) return the first of exactly the layout's matches *)
Theorem C16_lookup_service_by_uuid :
  forall p u, db_agrees p ->
    Permutation (find_services p u) (map s_handle (filter (fun s => uuid_eqb (s_uuid s) u) (p_svcs p))).
Proof. intros p u (Hp & _). unfold find_services. now rewrite Hp, services_of_dump. Qed.

Theorem C16_lookup_char_by_uuid :
  forall p u, db_agrees p ->
    Permutation (find_chars p u)
      (map c_handle (filter (fun c => uuid_eqb (c_uuid c) u) (flat_map s_chars (p_svcs p)))).
Proof. intros p u (Hp & _). unfold find_chars. now rewrite Hp, chars_of_dump. Qed.

Theorem C16_lookup_char_by_value_handle :
  forall p s c, db_agrees p -> In s (p_svcs p) -> In c (s_chars s) ->
    find_chr_by_value_handle p (c_vhandle c) = LSome (c_handle c).
Proof.
  intros p s c HA Hs Hc. unfold find_chr_by_value_handle.
  rewrite (proj2 (lookup_by_handle p _ (AVal (c_vhandle c) (c_uuid c) (c_value c) (c_handle c)) HA)); [reflexivity|].
  apply in_flat_map. exists s. split; [exact Hs|]. right. apply in_or_app. right.
  apply in_flat_map. exists c. split; [exact Hc|]. right. now left.
Qed.

Theorem C16_lookup_service_by_char_handle :
  forall p s c, db_agrees p -> In s (p_svcs p) -> In c (s_chars s) ->
    find_svc_by_chr_handle p (c_handle c) = LSome (s_handle s).
Proof.
  intros p s c (_ & _ & Hv & Hnd) Hs Hc. unfold find_svc_by_chr_handle.
  assert (H : db_get (c_handle c) (cmap_view p) = Some (Some (s_handle s))).
  { apply db_get_In; [unfold cmap_view; now rewrite map_map|].
    rewrite Hv. apply in_flat_map. exists s. split; [exact Hs|].
    apply in_map_iff. now exists c. }
  unfold cmap_view in H. rewrite (db_get_map (fun sid => option_map s_handle (find_svc sid (p_svcs p)))) in H.
  destruct (db_get (c_handle c) (p_cmap p)) as [sid|]; cbn [option_map] in H; [|discriminate].
  injection H as H. destruct (find_svc sid (p_svcs p)); cbn [option_map] in H; [|discriminate]. now injection H as ->.
Qed.

(** JSON: for every profile reachable by any definition and ANY operation sequence
    (removals included), the import of its export does not raise,
    export (import (export p)) = export p  (same handles, UUIDs, properties, security
    requirements, values and descriptors), and the imported profile agrees with its layout
    (so all the lookup theorems above hold on it). *)
Theorem C16_import_export_id :
  forall (start : N) (sds : list sdef) (ops : list op) (q : profile),
    1 <= start -> run (build start sds) ops = Done q ->
    exists q', import (export q) = Done q' /\ export q' = export q /\ db_agrees q'.
Proof.
  intros start sds ops q H E. destruct (build_from_inv 0 start sds H) as (HI & _).
  destruct (run_inv ops (build start sds) HI) as (q0 & E0 & Hq & _). rewrite E in E0. injection E0 as <-.
  now apply import_export_id.
Qed.

(** Security requirements survive accesses -> int -> accesses -> int; an int keeps exactly
    its six defined bits (true of every int: only the low seven bits are read, and those
    128 values are swept). *)
Theorem C16_security_roundtrip :
  forall l : list access, acc_to_int (int_to_acc (acc_to_int l)) = acc_to_int l.
Proof. exact security_roundtrip. Qed.

Theorem C16_security_int_roundtrip :
  forall n : N, n < 256 -> acc_to_int (int_to_acc n) = N.land n 0x77.
Proof. intros n _. apply security_int_roundtrip. Qed.

(** Non-vacuity: a concrete profile (a notifying characteristic with a user description,
    a second service), update_service of the first service, then a service added: seven
    then ten attributes at handles 1.., and the JSON round trip succeeds. *)
Example C16_nonvacuous :
  let c1 := mkCD (u16 0x2A00) [65] 0 (Some [PRead; PNotify]) false false (Some [104; 105]) [] [] in
  let c2 := mkCD (u16 0x2A01) [] 8 None false false None [mkA ARead true true false] [DDreport] in
  let p0 := build 1 [mkSD SKprimary (u16 0x1800) [] [c1]; mkSD SKprimary (u16 0x1801) [] []] in
  map fst (dump p0) = [1; 2; 3; 4; 5; 6]
  /\ exists q, run p0 [OpUpdate 0%nat; OpAdd (mkSD SKprimary (u16 0x1802) [] [c2])] = Done q
               /\ map fst (dump q) = [1; 2; 3; 4; 5; 6; 7; 8; 9; 10] /\ p_next q = 11
               /\ exists q', import (export q) = Done q' /\ export q' = export q.
Proof.
  cbv zeta. split; [vm_compute; reflexivity|]. eexists. split; [vm_compute; reflexivity|].
  split; [vm_compute; reflexivity|]. split; [vm_compute; reflexivity|].
  eexists. split; vm_compute; reflexivity.
Qed.
