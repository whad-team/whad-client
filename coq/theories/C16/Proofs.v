(** C16 — lemmas about the GATT profile model.

    The handle setters produce the layout of the statement ([svc_spec_set]); everything known
    of the keys a service registers (increasing, inside its range) is read off [svc_spec].
    A service is consistent ([svc_ok]) when it is a fixpoint of its setter.  The invariant [Inv]:
    the listed services are consistent, their ranges increase ([gchain]), the dict and the
    characteristic table are the concatenation of what the services register (so the dict
    order is the ascending order), object identities are unique; [tight]: no gap between
    services.  [preserved] is what one operation leaves; [step_inv] / [hstep_inv] show it for
    every operation, [inv_layout] / [invs_layout] translate the invariant into [layout].
    The lookups are proved from [db_agrees] alone; the JSON import keeps its own invariant
    [InvI] (dict in the order of the from_json loop) and ends in [db_agrees]. *)
From Coq Require Import List NArith Arith Bool Lia Permutation.
From Whad Require Import Lib.Lists Lib.Bytes C16.Model.
Import ListNotations.
Open Scope N_scope.

Lemma lenN_app {A} (a b : list A) : lenN (a ++ b) = lenN a + lenN b.
Proof. induction a as [|x a IH]; cbn [lenN app]; [reflexivity|]. rewrite IH. lia. Qed.

Lemma lenN_length {A} (l : list A) : lenN l = N.of_nat (length l).
Proof. induction l as [|x l IH]; cbn [lenN length]; [reflexivity|]. rewrite IH. lia. Qed.

Lemma lenN_map {A B} (f : A -> B) l : lenN (map f l) = lenN l.
Proof. induction l as [|x l IH]; cbn [lenN map]; congruence. Qed.

Lemma Nseq_app h a b : Nseq h (a + b) = Nseq h a ++ Nseq (h + N.of_nat a) b.
Proof.
  revert h; induction a as [|a IH]; intros h; cbn [Nseq Nat.add app].
  - f_equal. lia.
  - rewrite IH. do 3 f_equal. lia.
Qed.

Lemma Nseq_length h n : length (Nseq h n) = n.
Proof. revert h; induction n as [|n IH]; intros h; cbn [Nseq length]; [reflexivity|]. now rewrite IH. Qed.

Lemma Nseq_In h n x : In x (Nseq h n) <-> h <= x < h + N.of_nat n.
Proof.
  revert h; induction n as [|n IH]; intros h; cbn [Nseq In].
  - lia.
  - rewrite IH. lia.
Qed.

Lemma Nseq_NoDup h n : NoDup (Nseq h n).
Proof.
  revert h; induction n as [|n IH]; intros h; cbn [Nseq]; constructor; [|apply IH].
  rewrite Nseq_In. lia.
Qed.

Lemma flat_map_snoc {A B} (f : A -> list B) l x : flat_map f (l ++ [x]) = flat_map f l ++ f x.
Proof. rewrite flat_map_app. cbn [flat_map]. now rewrite app_nil_r. Qed.

Lemma NoDup_app_elim {A} (a b : list A) :
  NoDup (a ++ b) -> NoDup a /\ NoDup b /\ (forall x, In x a -> ~ In x b).
Proof.
  induction a as [|x a IH]; cbn [app]; intros H.
  - repeat split; [constructor|exact H|intros ? []].
  - inversion H; subst. destruct (IH H3) as (H4 & H5 & H6). repeat split.
    + constructor; [|exact H4]. intros Hin. apply H2. apply in_or_app. now left.
    + exact H5.
    + intros y [->|Hy]; [intros Hin; apply H2; apply in_or_app; now right|now apply H6].
Qed.

Lemma ascending_NoDup l : ascending l -> NoDup l.
Proof.
  induction l as [|x r IH]; cbn [ascending]; [constructor|]. intros [Hx Hr]. constructor; [|now apply IH].
  intros Hin. rewrite Forall_forall in Hx. apply Hx in Hin. lia.
Qed.

Lemma nth_mid {A} (a : list A) x b : nth_error (a ++ x :: b) (length a) = Some x.
Proof. induction a as [|y a IH]; cbn [app length nth_error]; [reflexivity|exact IH]. Qed.
Lemma skipn_mid {A} (a : list A) x b : skipn (S (length a)) (a ++ x :: b) = b.
Proof. induction a as [|y a IH]; cbn [app length skipn]; [reflexivity|exact IH]. Qed.

Lemma remove_nth_mid {A} (a : list A) x b : remove_nth (length a) (a ++ x :: b) = a ++ b.
Proof. induction a as [|y a IH]; cbn [length app remove_nth]; [reflexivity|now rewrite IH]. Qed.

Lemma remove_nth_split {A} (l : list A) j :
  (j < length l)%nat -> exists a x b, l = a ++ x :: b /\ remove_nth j l = a ++ b.
Proof.
  intros Hj. destruct (nth_error l j) as [x|] eqn:E; [|apply nth_error_None in E; lia].
  apply nth_error_split in E as (a & b & -> & <-). exists a, x, b. split; [reflexivity|apply remove_nth_mid].
Qed.

Lemma map_map_nth {A B} (g : A -> B) f j l : (forall x, g (f x) = g x) -> map g (map_nth f j l) = map g l.
Proof.
  intros Hf. revert j; induction l as [|x r IH]; intros j; destruct j; cbn [map_nth map]; try reflexivity.
  - now rewrite Hf.
  - now rewrite IH.
Qed.

Lemma Forall_map_nth {A} (P : A -> Prop) f j l : (forall x, P x -> P (f x)) -> Forall P l -> Forall P (map_nth f j l).
Proof.
  intros Hf. revert j; induction l as [|x r IH]; intros j H; destruct j; cbn [map_nth]; try exact H.
  - inversion H; subst. constructor; auto.
  - inversion H; subst. constructor; auto.
Qed.

Lemma find_unique {A} (key : A -> N) (l : list A) x :
  NoDup (map key l) -> In x l -> find (fun y => key y =? key x) l = Some x.
Proof.
  induction l as [|a l IH]; cbn [map find In]; [tauto|].
  intros Hnd [->|Hin]; [now rewrite N.eqb_refl|].
  inversion Hnd as [|? ? Hni Hnd']; subst. destruct (key a =? key x) eqn:E; [|now apply IH].
  apply N.eqb_eq in E. exfalso. apply Hni. rewrite E. now apply in_map.
Qed.

Lemma map_flat_map_in {A B C} (f : B -> C) (g : A -> list B) (h : A -> list C) l :
  (forall x, In x l -> map f (g x) = h x) -> map f (flat_map g l) = flat_map h l.
Proof. intros H. rewrite !flat_map_concat_map, concat_map, map_map. f_equal. now apply map_ext_in. Qed.

Lemma flat_map_flat_map_single {A B C} (f : B -> list C) (g : A -> list B) (h : A -> C) l :
  (forall x, In x l -> flat_map f (g x) = [h x]) -> flat_map f (flat_map g l) = map h l.
Proof.
  induction l as [|x l IH]; intros H; cbn [flat_map map]; [reflexivity|].
  rewrite flat_map_app, H, IH; [reflexivity|intros y Hy; apply H; now right|now left].
Qed.

Lemma flat_map_nil {A B} (f : A -> list B) l : (forall x, In x l -> f x = []) -> flat_map f l = [].
Proof. intros H. rewrite flat_map_concat_map. now apply concat_nil_Forall, Forall_map, Forall_forall. Qed.

Lemma flat_map_flat_map_nil {A B C} (f : B -> list C) (g : A -> list B) l :
  (forall x, flat_map f (g x) = []) -> flat_map f (flat_map g l) = [].
Proof. intros H. induction l as [|x l IH]; cbn [flat_map]; [reflexivity|]. now rewrite flat_map_app, H, IH. Qed.

Lemma Permutation_filter' {A} (f : A -> bool) l l' : Permutation l l' -> Permutation (filter f l) (filter f l').
Proof.
  induction 1 as [|x l l' _ IH|x y l|l l' l'' _ IH1 _ IH2]; cbn [filter].
  - constructor.
  - destruct (f x); [now constructor|exact IH].
  - destruct (f x), (f y); try reflexivity. apply perm_swap.
  - now transitivity (filter f l').
Qed.

Lemma Permutation_flat_map_pointwise {A B} (f g : A -> list B) l :
  (forall x, In x l -> Permutation (f x) (g x)) -> Permutation (flat_map f l) (flat_map g l).
Proof.
  induction l as [|x l IH]; intros H; cbn [flat_map]; [constructor|].
  apply Permutation_app; [apply H; now left|apply IH; intros y Hy; apply H; now right].
Qed.

Lemma fold_left_keeps {A B C} (g : A -> C) (f : A -> B -> A) l :
  (forall a x, g (f a x) = g a) -> forall a, g (fold_left f l a) = g a.
Proof. intros H. induction l as [|x r IH]; intros a; cbn [fold_left]; [reflexivity|]. now rewrite IH. Qed.

Lemma forallb_map {A B} (f : B -> bool) (g : A -> B) l : forallb f (map g l) = forallb (fun x => f (g x)) l.
Proof. induction l as [|x l IH]; cbn [map forallb]; [reflexivity|]. now rewrite IH. Qed.

Lemma forallb_ext' {A} (f g : A -> bool) l : (forall x, f x = g x) -> forallb f l = forallb g l.
Proof. intros H. induction l as [|x l IH]; cbn [forallb]; [reflexivity|]. now rewrite H, IH. Qed.

(** * Association lists sorted by key *)

Section DBL.
  Context {V : Type}.
  Implicit Types l a b : list (N * V).

  Definition all_lt l (h : N) : Prop := Forall (fun e => fst e < h) l.
  Definition all_ge l (h : N) : Prop := Forall (fun e => h <= fst e) l.

  Fixpoint incr (lo : N) l : Prop :=
    match l with [] => True | e :: r => lo <= fst e /\ incr (fst e + 1) r end.

  Definition contig (h : N) l : Prop := map fst l = Nseq h (length l).

  Lemma all_lt_app a b h : all_lt (a ++ b) h <-> all_lt a h /\ all_lt b h.
  Proof. apply Forall_app. Qed.
  Lemma all_ge_app a b h : all_ge (a ++ b) h <-> all_ge a h /\ all_ge b h.
  Proof. apply Forall_app. Qed.
  Lemma all_lt_weaken l h h' : all_lt l h -> h <= h' -> all_lt l h'.
  Proof. intros H Hle. eapply Forall_impl; [|exact H]. cbn. intros; lia. Qed.
  Lemma all_ge_weaken l h h' : all_ge l h -> h' <= h -> all_ge l h'.
  Proof. intros H Hle. eapply Forall_impl; [|exact H]. cbn. intros; lia. Qed.

  Lemma incr_weaken lo lo' l : incr lo l -> lo' <= lo -> incr lo' l.
  Proof. destruct l as [|e r]; cbn [incr]; [trivial|]. intros [H1 H2] Hle. split; [lia|exact H2]. Qed.

  Lemma incr_all_ge lo l : incr lo l -> all_ge l lo.
  Proof.
    revert lo; induction l as [|e r IH]; intros lo; cbn [incr]; [constructor|].
    intros [H1 H2]. constructor; [exact H1|]. eapply all_ge_weaken; [apply IH, H2|lia].
  Qed.

  Lemma incr_app lo a b mid :
    incr lo a -> all_lt a mid -> lo <= mid -> incr mid b -> incr lo (a ++ b).
  Proof.
    revert lo; induction a as [|e r IH]; intros lo Ha Hlt Hle Hb; cbn [app incr].
    - eapply incr_weaken; eassumption.
    - cbn [incr] in Ha. destruct Ha as [H1 H2]. inversion Hlt as [|? ? Hx Hr]; subst.
      split; [exact H1|]. apply IH; [exact H2|exact Hr|lia|exact Hb].
  Qed.

  Lemma contig_nil h : contig h [].
  Proof. reflexivity. Qed.

  Lemma contig_cons h e l : fst e = h -> contig (h + 1) l -> contig h (e :: l).
  Proof. unfold contig. intros He Hl. cbn [map length Nseq]. now rewrite He, Hl. Qed.

  Lemma contig_app h a b : contig h a -> contig (h + lenN a) b -> contig h (a ++ b).
  Proof.
    unfold contig. intros Ha Hb. rewrite map_app, app_length, Nseq_app, Ha, Hb.
    rewrite lenN_length. reflexivity.
  Qed.

  Lemma contig_sorted h l : contig h l -> incr h l /\ all_lt l (h + lenN l).
  Proof.
    revert h; induction l as [|e r IH]; intros h; [split; constructor|].
    unfold contig. cbn [map length Nseq lenN incr]. intros H. injection H as He Hr. destruct (IH _ Hr) as [H1 H2].
    split; [split; [lia|now rewrite He]|]. constructor; [lia|]. eapply all_lt_weaken; [exact H2|lia].
  Qed.

  Lemma incr_ascending lo l : incr lo l -> ascending (map fst l).
  Proof.
    revert lo; induction l as [|e r IH]; intros lo; cbn [incr map ascending]; [trivial|].
    intros [H1 H2]. split; [|eapply IH; exact H2].
    apply Forall_map. eapply Forall_impl; [|exact (incr_all_ge _ _ H2)]. cbn. intros; lia.
  Qed.

  Lemma incr_NoDup lo l : incr lo l -> NoDup (map fst l).
  Proof. intros H. eapply ascending_NoDup, incr_ascending, H. Qed.

  (** [db_set] with a key not yet present appends (Python dict: new keys go last). *)
  Lemma db_set_fresh k v l : ~ In k (map fst l) -> db_set k v l = l ++ [(k, v)].
  Proof.
    induction l as [|[k' v'] r IH]; intros H; cbn [db_set app]; [reflexivity|].
    cbn [map fst In] in H. destruct (k =? k') eqn:E; [apply N.eqb_eq in E; exfalso; apply H; now left|].
    rewrite IH; [reflexivity|tauto].
  Qed.

  Lemma db_set_all_fresh es l :
    NoDup (map fst es) -> (forall k, In k (map fst es) -> ~ In k (map fst l)) -> db_set_all es l = l ++ es.
  Proof.
    unfold db_set_all. revert l; induction es as [|[k v] r IH]; intros l Hnd Hd; cbn [fold_left].
    - now rewrite app_nil_r.
    - cbn [map fst] in Hnd. inversion Hnd as [|? ? Hk Hnd']; subst. cbn [fst snd].
      rewrite db_set_fresh by (apply Hd; now left). rewrite IH; [now rewrite <- app_assoc|exact Hnd'|].
      intros k' Hk' Hin. rewrite map_app, in_app_iff in Hin. destruct Hin as [Hin|[<-|[]]].
      + apply (Hd k'); [now right|exact Hin].
      + contradiction.
  Qed.

  Lemma fresh_above lo es l : incr lo es -> all_lt l lo -> forall k, In k (map fst es) -> ~ In k (map fst l).
  Proof.
    intros Hes Hl k (e & <- & He)%in_map_iff (e' & E & He')%in_map_iff.
    apply incr_all_ge in Hes. unfold all_ge, all_lt in *. rewrite Forall_forall in Hes, Hl.
    apply Hes in He. apply Hl in He'. lia.
  Qed.

  Lemma db_set_all_append lo es l : incr lo es -> all_lt l lo -> db_set_all es l = l ++ es.
  Proof. intros Hes Hl. apply db_set_all_fresh; [eapply incr_NoDup, Hes|exact (fresh_above _ _ _ Hes Hl)]. Qed.

  Lemma db_set_all_flat_map {A} (ent : A -> list (N * V)) xs l :
    fold_left (fun d x => db_set_all (ent x) d) xs l = db_set_all (flat_map ent xs) l.
  Proof.
    revert l; induction xs as [|x r IH]; intros l; cbn [fold_left flat_map]; [reflexivity|].
    rewrite IH. unfold db_set_all. now rewrite fold_left_app.
  Qed.

  Lemma db_set_same k v l : db_get k l = Some v -> db_set k v l = l.
  Proof.
    induction l as [|[k' v'] r IH]; cbn [db_get db_set]; [discriminate|].
    rewrite (N.eqb_sym k k'). destruct (k' =? k) eqn:E.
    - intros H. injection H as ->. apply N.eqb_eq in E. now subst.
    - intros H. now rewrite IH.
  Qed.

  Lemma db_set_all_same es l :
    (forall e, In e es -> db_get (fst e) l = Some (snd e)) -> db_set_all es l = l.
  Proof.
    unfold db_set_all. induction es as [|e r IH]; intros H; cbn [fold_left]; [reflexivity|].
    rewrite db_set_same by (apply H; now left). apply IH. intros x Hx. apply H. now right.
  Qed.

  Lemma filter_all_true (f : N * V -> bool) l : Forall (fun e => f e = true) l -> filter f l = l.
  Proof. induction 1 as [|e r He _ IH]; cbn [filter]; [reflexivity|]. now rewrite He, IH. Qed.
  Lemma filter_all_false (f : N * V -> bool) l : Forall (fun e => f e = false) l -> filter f l = [].
  Proof. induction 1 as [|e r He _ IH]; cbn [filter]; [reflexivity|]. now rewrite He, IH. Qed.

  Lemma db_below_app a b h : all_lt a h -> all_ge b h -> db_below h (a ++ b) = a.
  Proof.
    intros Ha Hb. unfold db_below. rewrite filter_app.
    rewrite filter_all_true, filter_all_false, app_nil_r; [reflexivity| |].
    - eapply Forall_impl; [|exact Hb]. cbn. intros; lia.
    - eapply Forall_impl; [|exact Ha]. cbn. intros; lia.
  Qed.

  Lemma filter_filter (f g : N * V -> bool) l :
    filter f (filter g l) = filter (fun e => g e && f e) l.
  Proof.
    induction l as [|e r IH]; cbn [filter]; [reflexivity|].
    destruct (g e); cbn [filter andb]; [destruct (f e)|]; now rewrite IH.
  Qed.

  Lemma db_del_all_filter ks l :
    db_del_all ks l = filter (fun e => negb (mem_N (fst e) ks)) l.
  Proof.
    unfold db_del_all. revert l; induction ks as [|k r IH]; intros l; cbn [fold_left].
    - cbn [mem_N existsb negb]. symmetry. apply filter_all_true. apply Forall_forall. reflexivity.
    - rewrite IH. unfold db_del. rewrite filter_filter. apply filter_ext. intros e.
      unfold mem_N. cbn [existsb]. rewrite negb_orb. reflexivity.
  Qed.

  Lemma db_del_all_app ks1 ks2 l :
    db_del_all (ks1 ++ ks2) l = db_del_all ks2 (db_del_all ks1 l).
  Proof. unfold db_del_all. apply fold_left_app. Qed.

  Lemma mem_N_In (x : N) (ks : list N) : mem_N x ks = true <-> In x ks.
  Proof.
    unfold mem_N. rewrite existsb_exists. split.
    - intros (y & Hy & E). apply N.eqb_eq in E. now subst.
    - intros H. exists x. split; [exact H|apply N.eqb_refl].
  Qed.

  Lemma db_del_all_block a s b ks :
    NoDup (map fst (a ++ s ++ b)) -> Permutation ks (map fst s) -> db_del_all ks (a ++ s ++ b) = a ++ b.
  Proof.
    intros Hnd Hks. rewrite !map_app in Hnd.
    apply NoDup_app_elim in Hnd as (_ & Hsb & Hd1). apply NoDup_app_elim in Hsb as (_ & _ & Hd2).
    (* an entry goes iff its key is one of [s]'s; no key of [a] or [b] is *)
    assert (Hkeep : forall l, (forall k, In k (map fst l) -> ~ In k (map fst s)) ->
                              filter (fun e => negb (mem_N (fst e) ks)) l = l).
    { intros l Hl. apply filter_all_true, Forall_forall. intros e He. apply negb_true_iff, not_true_iff_false.
      rewrite mem_N_In, Hks. now apply Hl, in_map. }
    rewrite db_del_all_filter, !filter_app, (Hkeep a), (Hkeep b), filter_all_false; [reflexivity|..].
    - apply Forall_forall. intros e He. apply negb_false_iff, mem_N_In. rewrite Hks. now apply in_map.
    - intros k Hk Hin. exact (Hd2 k Hin Hk).
    - intros k Hk Hin. apply (Hd1 k Hk), in_or_app. now left.
  Qed.

  Lemma db_get_app_l k a b v : db_get k a = Some v -> db_get k (a ++ b) = Some v.
  Proof.
    induction a as [|[k' v'] r IH]; cbn [db_get app]; [discriminate|].
    destruct (k' =? k); [trivial|exact IH].
  Qed.

  Lemma db_get_app_r k a b : ~ In k (map fst a) -> db_get k (a ++ b) = db_get k b.
  Proof.
    induction a as [|[k' v'] r IH]; cbn [db_get app map In fst]; [reflexivity|].
    intros H. destruct (k' =? k) eqn:E; [exfalso; apply H; left; lia|]. apply IH. tauto.
  Qed.

  Lemma db_get_notin k l : ~ In k (map fst l) -> db_get k l = None.
  Proof. intros H. rewrite <- (app_nil_r l). now rewrite db_get_app_r. Qed.

  Lemma db_get_In k v l : NoDup (map fst l) -> In (k, v) l -> db_get k l = Some v.
  Proof.
    induction l as [|[k' v'] r IH]; cbn [db_get map In fst]; [tauto|].
    intros Hnd [H|H].
    - injection H as -> ->. now rewrite N.eqb_refl.
    - inversion Hnd as [|? ? Hni Hnd']; subst. destruct (k' =? k) eqn:E.
      + exfalso. apply Hni. apply N.eqb_eq in E. subst. apply in_map_iff. now exists (k, v).
      + now apply IH.
  Qed.

  Lemma db_get_Some_In k v l : db_get k l = Some v -> In (k, v) l.
  Proof.
    induction l as [|[k' v'] r IH]; cbn [db_get In]; [discriminate|].
    destruct (k' =? k) eqn:E; [|now right; apply IH].
    intros H. injection H as ->. apply N.eqb_eq in E. subst. now left.
  Qed.

  Lemma db_get_filter k (f : N * V -> bool) l :
    (forall v, f (k, v) = true) -> db_get k (filter f l) = db_get k l.
  Proof.
    intros Hf. induction l as [|[k' v'] r IH]; cbn [filter db_get]; [reflexivity|].
    destruct (f (k', v')) eqn:E; cbn [db_get].
    - destruct (k' =? k); [reflexivity|exact IH].
    - destruct (k' =? k) eqn:E2; [|exact IH]. apply N.eqb_eq in E2. subst. now rewrite Hf in E.
  Qed.

  Lemma db_get_del_all k ks l : ~ In k ks -> db_get k (db_del_all ks l) = db_get k l.
  Proof.
    intros Hk. rewrite db_del_all_filter. apply db_get_filter. intros v. cbn [fst].
    destruct (mem_N k ks) eqn:E; [apply mem_N_In in E; contradiction|reflexivity].
  Qed.

  Lemma db_set_all_twice es es' l :
    Permutation es' es -> NoDup (map fst es) -> (forall k, In k (map fst es) -> ~ In k (map fst l)) ->
    db_set_all es (db_set_all es' l) = l ++ es'.
  Proof.
    intros Hp Hnd Hf. assert (Hnd' : NoDup (map fst es')) by (now rewrite Hp).
    rewrite (db_set_all_fresh es'); [|exact Hnd'|intros k Hk; apply Hf; now rewrite <- Hp].
    apply db_set_all_same. intros [k v] He. cbn [fst snd].
    rewrite db_get_app_r by (apply Hf; exact (in_map fst _ _ He)).
    apply db_get_In; [exact Hnd'|now rewrite Hp].
  Qed.
End DBL.

(** * Handle setters *)

Fixpoint chars_size (cs : list chr) : N :=
  match cs with [] => 0 | c :: r => 2 + lenN (c_descs c) + chars_size r end.
Definition svc_size (s : svc) : N := 1 + lenN (s_incls s) + chars_size (s_chars s).

Lemma length_relabel_descs h ds : length (relabel_descs h ds) = length ds.
Proof. revert h; induction ds as [|d r IH]; intros h; cbn [relabel_descs length]; [reflexivity|]. now rewrite IH. Qed.
Lemma lenN_relabel_descs h ds : lenN (relabel_descs h ds) = lenN ds.
Proof. now rewrite !lenN_length, length_relabel_descs. Qed.

Lemma length_relabel_incls h l : length (relabel_incls h l) = length l.
Proof. revert h; induction l as [|d r IH]; intros h; cbn [relabel_incls length]; [reflexivity|]. now rewrite IH. Qed.
Lemma lenN_relabel_incls h l : lenN (relabel_incls h l) = lenN l.
Proof. now rewrite !lenN_length, length_relabel_incls. Qed.

Lemma relabel_descs_idem h h' ds : relabel_descs h (relabel_descs h' ds) = relabel_descs h ds.
Proof.
  revert h h'; induction ds as [|d r IH]; intros h h'; cbn [relabel_descs]; [reflexivity|].
  now rewrite IH.
Qed.

Lemma chr_set_handle_idem h h' c : chr_set_handle h (chr_set_handle h' c) = chr_set_handle h c.
Proof.
  unfold chr_set_handle. cbn [c_id c_uuid c_props c_sec c_value c_descs].
  now rewrite lenN_relabel_descs, relabel_descs_idem.
Qed.

Lemma c_end_set h c : c_end (chr_set_handle h c) = h + 1 + lenN (c_descs c).
Proof. reflexivity. Qed.

Lemma relabel_chars_idem h h' cs : relabel_chars h (relabel_chars h' cs) = relabel_chars h cs.
Proof.
  revert h h'; induction cs as [|c r IH]; intros h h'; cbn [relabel_chars]; [reflexivity|].
  rewrite chr_set_handle_idem. f_equal. apply IH.
Qed.

Lemma relabel_incls_idem h h' l : relabel_incls h (relabel_incls h' l) = relabel_incls h l.
Proof.
  revert h h'; induction l as [|i r IH]; intros h h'; cbn [relabel_incls]; [reflexivity|].
  now rewrite IH.
Qed.

Lemma chars_size_relabel h cs : chars_size (relabel_chars h cs) = chars_size cs.
Proof.
  revert h; induction cs as [|c r IH]; intros h; cbn [relabel_chars chars_size]; [reflexivity|].
  rewrite IH. unfold chr_set_handle. cbn [c_descs]. now rewrite lenN_relabel_descs.
Qed.

Lemma last_end_relabel h cs : last_end h (relabel_chars h cs) = h + chars_size cs.
Proof.
  revert h; induction cs as [|c r IH]; intros h; cbn [relabel_chars last_end chars_size]; [lia|].
  rewrite IH, c_end_set. lia.
Qed.

Lemma svc_set_handle_idem h h' s : svc_set_handle h (svc_set_handle h' s) = svc_set_handle h s.
Proof.
  unfold svc_set_handle. cbn [s_id s_primary s_uuid s_incls s_chars].
  now rewrite lenN_relabel_incls, relabel_chars_idem, relabel_incls_idem.
Qed.

Lemma s_end_set h s : s_end (svc_set_handle h s) + 1 = h + svc_size s.
Proof. unfold svc_set_handle, svc_size. cbn [s_end]. rewrite last_end_relabel. lia. Qed.

Lemma svc_size_set h s : svc_size (svc_set_handle h s) = svc_size s.
Proof.
  unfold svc_set_handle, svc_size. cbn [s_incls s_chars].
  now rewrite lenN_relabel_incls, chars_size_relabel.
Qed.

Lemma keys_desc_entries sid cid k ds : map fst (desc_entries sid cid k ds) = map d_handle ds.
Proof. revert k; induction ds as [|d r IH]; intros k; cbn [desc_entries map fst]; [reflexivity|]. now rewrite IH. Qed.
Lemma keys_chr_entries sid c : map fst (chr_entries sid c) = chr_keys c.
Proof. unfold chr_entries, chr_keys. cbn [map fst]. now rewrite keys_desc_entries. Qed.
Lemma keys_chars_entries sid cs : map fst (flat_map (chr_entries sid) cs) = flat_map chr_keys cs.
Proof. apply map_flat_map_in. intros c _. apply keys_chr_entries. Qed.
Lemma keys_incl_entries sid k l : map fst (incl_entries sid k l) = map i_handle l.
Proof. revert k; induction l as [|d r IH]; intros k; cbn [incl_entries map fst]; [reflexivity|]. now rewrite IH. Qed.
Lemma keys_svc_entries s :
  map fst (svc_entries s) = s_handle s :: map i_handle (s_incls s) ++ flat_map chr_keys (s_chars s).
Proof. unfold svc_entries. cbn [map fst]. now rewrite map_app, keys_incl_entries, keys_chars_entries. Qed.
Lemma keys_svc_cmap s : map fst (svc_cmap s) = map c_handle (s_chars s).
Proof. unfold svc_cmap. rewrite map_map. reflexivity. Qed.

Lemma keys_svc_dump s : map fst (svc_dump s) = map fst (svc_entries s).
Proof.
  rewrite keys_svc_entries. unfold svc_dump. cbn [map fst]. f_equal. rewrite map_app, map_map. f_equal.
  apply map_flat_map_in. intros c _. unfold chr_dump, chr_keys, desc_dump. cbn [map fst]. now rewrite map_map.
Qed.

Lemma lenN_chr_entries sid c : lenN (chr_entries sid c) = 2 + lenN (c_descs c).
Proof. rewrite <- (lenN_map fst), keys_chr_entries. unfold chr_keys. cbn [lenN]. rewrite lenN_map. lia. Qed.

Lemma lenN_chars_entries sid cs : lenN (flat_map (chr_entries sid) cs) = chars_size cs.
Proof.
  induction cs as [|c r IH]; cbn [flat_map lenN chars_size]; [reflexivity|].
  rewrite lenN_app, lenN_chr_entries, IH. lia.
Qed.

Lemma lenN_svc_entries s : lenN (svc_entries s) = svc_size s.
Proof.
  unfold svc_entries, svc_size. cbn [lenN].
  rewrite lenN_app, lenN_chars_entries, <- (lenN_map fst), keys_incl_entries, lenN_map. lia.
Qed.

Lemma lenN_svc_dump s : lenN (svc_dump s) = svc_size s.
Proof. now rewrite <- (lenN_map fst), keys_svc_dump, (lenN_map fst), lenN_svc_entries. Qed.

Lemma svc_spec_end s : svc_spec s -> s_end s + 1 = s_handle s + 1 + lenN (s_incls s) + chars_size (s_chars s).
Proof. intros (_ & _ & _ & He). rewrite lenN_svc_dump in He. unfold svc_size in He. lia. Qed.

Lemma handles_relabel_descs h ds : map d_handle (relabel_descs h ds) = Nseq (h + 1) (length ds).
Proof. revert h; induction ds as [|d r IH]; intros h; cbn [relabel_descs map length Nseq d_handle set_d_handle]; [reflexivity|]. now rewrite IH. Qed.

Lemma handles_relabel_incls h l : map i_handle (relabel_incls h l) = Nseq (h + 1) (length l).
Proof. revert h; induction l as [|d r IH]; intros h; cbn [relabel_incls map length Nseq i_handle set_i_handle]; [reflexivity|]. now rewrite IH. Qed.

Lemma chr_spec_set h c : chr_spec h (chr_set_handle h c).
Proof.
  unfold chr_spec, chr_set_handle. cbn [c_handle c_vhandle c_descs c_end].
  rewrite handles_relabel_descs, length_relabel_descs, lenN_relabel_descs.
  repeat split. f_equal. lia.
Qed.

Lemma chars_spec_relabel h cs : chars_spec (h + 1) (relabel_chars h cs).
Proof.
  revert h; induction cs as [|c r IH]; intros h; cbn [relabel_chars chars_spec]; [trivial|].
  split; [apply chr_spec_set|apply IH].
Qed.

Lemma contig_Nseq {V} (l : list (N * V)) h n : map fst l = Nseq h n -> contig h l.
Proof. intros H. unfold contig. rewrite H. f_equal. now rewrite <- (map_length fst), H, Nseq_length. Qed.

Lemma contig_keys {V W} (a : list (N * V)) (b : list (N * W)) h :
  map fst a = map fst b -> contig h a -> contig h b.
Proof. intros E H. apply (contig_Nseq b h (length a)). now rewrite <- E. Qed.

Lemma chars_spec_contig sid h cs : chars_spec h cs -> contig h (flat_map (chr_entries sid) cs).
Proof.
  revert h; induction cs as [|c r IH]; intros h; cbn [chars_spec flat_map]; [intros _; apply contig_nil|].
  intros [(H1 & H2 & H3 & H4) Hr]. apply contig_app.
  - unfold chr_entries. apply contig_cons; [exact H1|]. apply contig_cons; [exact H2|].
    eapply contig_Nseq. rewrite keys_desc_entries, H3. f_equal. lia.
  - rewrite lenN_chr_entries. replace (h + (2 + lenN (c_descs c))) with (c_end c + 1) by lia. apply IH, Hr.
Qed.

Lemma svc_spec_intro s :
  map i_handle (s_incls s) = Nseq (s_handle s + 1) (length (s_incls s)) ->
  chars_spec (s_handle s + 1 + lenN (s_incls s)) (s_chars s) ->
  s_end s + 1 = s_handle s + svc_size s -> svc_spec s.
Proof.
  intros Hi Hc He. split; [exact Hi|]. split; [exact Hc|]. split; [|now rewrite lenN_svc_dump].
  apply (contig_keys (svc_entries s)); [symmetry; apply keys_svc_dump|].
  unfold svc_entries. apply contig_cons; [reflexivity|]. apply contig_app.
  - eapply contig_Nseq. rewrite keys_incl_entries. exact Hi.
  - rewrite <- (lenN_map fst), keys_incl_entries, lenN_map. now apply chars_spec_contig.
Qed.

Lemma svc_spec_set h s : svc_spec (svc_set_handle h s).
Proof.
  apply svc_spec_intro; [| |now rewrite s_end_set, svc_size_set]; cbn [svc_set_handle s_handle s_incls s_chars].
  - rewrite length_relabel_incls. apply handles_relabel_incls.
  - rewrite lenN_relabel_incls.
    replace (h + 1 + lenN (s_incls s)) with (h + lenN (s_incls s) + 1) by lia. apply chars_spec_relabel.
Qed.

Definition svc_ok (s : svc) : Prop := svc_set_handle (s_handle s) s = s.

Lemma svc_ok_set h s : svc_ok (svc_set_handle h s).
Proof. unfold svc_ok. replace (s_handle (svc_set_handle h s)) with h by reflexivity. apply svc_set_handle_idem. Qed.

Lemma svc_ok_spec s : svc_ok s -> svc_spec s.
Proof. intros H. rewrite <- H. apply svc_spec_set. Qed.

(** [add_characteristic] keeps a consistent service consistent.  Nothing below rests on it:
    [update_service] lays the service out again whatever state it is in. *)
Lemma relabel_chars_app h a b :
  relabel_chars h (a ++ b) = relabel_chars h a ++ relabel_chars (last_end h (relabel_chars h a)) b.
Proof.
  revert h; induction a as [|c r IH]; intros h; cbn [app relabel_chars last_end]; [reflexivity|].
  now rewrite IH.
Qed.

Lemma last_end_app h a b : last_end h (a ++ b) = last_end (last_end h a) b.
Proof. revert h; induction a as [|c r IH]; intros h; cbn [app last_end]; [reflexivity|apply IH]. Qed.

Lemma svc_ok_parts s :
  svc_ok s ->
  relabel_incls (s_handle s) (s_incls s) = s_incls s
  /\ relabel_chars (s_handle s + lenN (s_incls s)) (s_chars s) = s_chars s
  /\ last_end (s_handle s + lenN (s_incls s)) (s_chars s) = s_end s.
Proof.
  unfold svc_ok. intros H.
  assert (H1 : s_incls (svc_set_handle (s_handle s) s) = s_incls s) by (now rewrite H).
  assert (H2 : s_chars (svc_set_handle (s_handle s) s) = s_chars s) by (now rewrite H).
  assert (H3 : s_end (svc_set_handle (s_handle s) s) = s_end s) by (now rewrite H).
  cbn [svc_set_handle s_incls s_chars s_end] in H1, H2, H3. rewrite H2 in H3. auto.
Qed.

Lemma svc_add_char_ok s c :
  svc_ok s -> c_handle c = 0 -> svc_ok (svc_add_char s c) /\ s_handle (svc_add_char s c) = s_handle s.
Proof.
  intros Hok H0. split; [|reflexivity]. destruct (svc_ok_parts _ Hok) as (Hi & Hc & He).
  unfold svc_add_char. rewrite H0. cbn [N.eqb].
  unfold svc_ok, svc_set_handle. cbn [s_handle s_id s_primary s_uuid s_incls s_chars s_end].
  rewrite Hi, relabel_chars_app, Hc, He. cbn [relabel_chars]. rewrite chr_set_handle_idem.
  rewrite last_end_app, He. cbn [last_end]. f_equal. rewrite c_end_set. lia.
Qed.

(** * Chains of services with increasing, disjoint handle ranges *)

Section CHAIN.
  Context {V : Type} (ent : svc -> list (N * V)).

  Definition ent_sorted (s : svc) : Prop :=
    s_handle s <= s_end s /\ incr (s_handle s) (ent s) /\ all_lt (ent s) (s_end s + 1).

  Fixpoint gchain (lo : N) (l : list svc) (hi : N) : Prop :=
    match l with
    | [] => lo <= hi
    | s :: r => lo <= s_handle s /\ ent_sorted s /\ gchain (s_end s + 1) r hi
    end.

  Fixpoint next_after (lo : N) (l : list svc) : N :=
    match l with [] => lo | s :: r => next_after (s_end s + 1) r end.

  Lemma gchain_le lo l hi : gchain lo l hi -> lo <= hi.
  Proof.
    revert lo; induction l as [|s r IH]; intros lo; cbn [gchain]; [trivial|].
    intros (H1 & (H2 & _) & H3). apply IH in H3. lia.
  Qed.

  Lemma gchain_weaken lo lo' l hi hi' : gchain lo l hi -> lo' <= lo -> hi <= hi' -> gchain lo' l hi'.
  Proof.
    revert lo lo'; induction l as [|s r IH]; intros lo lo'; cbn [gchain]; [lia|].
    intros (H1 & H2 & H3) Hlo Hhi. split; [lia|]. split; [exact H2|]. eapply IH; [exact H3|apply N.le_refl|exact Hhi].
  Qed.

  Lemma gchain_next lo l hi : gchain lo l hi -> gchain lo l (next_after lo l) /\ next_after lo l <= hi.
  Proof.
    revert lo; induction l as [|s r IH]; intros lo; cbn [gchain next_after]; [lia|].
    intros (H1 & H2 & H3). destruct (IH _ H3) as [H4 H5]. split; [|exact H5]. split; [exact H1|]. split; [exact H2|exact H4].
  Qed.

  Lemma gchain_app_intro lo a mid b hi : gchain lo a mid -> gchain mid b hi -> gchain lo (a ++ b) hi.
  Proof.
    revert lo; induction a as [|s r IH]; intros lo; cbn [gchain app].
    - intros H1 H2. eapply gchain_weaken; [exact H2|exact H1|lia].
    - intros (H1 & H2 & H3) Hb. split; [exact H1|]. split; [exact H2|]. now apply IH.
  Qed.

  Lemma gchain_snoc lo l hi s :
    gchain lo l hi -> hi <= s_handle s -> ent_sorted s -> gchain lo (l ++ [s]) (s_end s + 1).
  Proof.
    intros Hc Hle Hs. apply (gchain_app_intro _ _ _ _ _ Hc). cbn [gchain]. split; [exact Hle|]. split; [exact Hs|apply N.le_refl].
  Qed.

  Lemma gchain_mid lo A s B hi :
    gchain lo (A ++ s :: B) hi -> gchain lo A (s_handle s) /\ gchain (s_handle s) (s :: B) hi.
  Proof.
    revert lo; induction A as [|a A IH]; intros lo; cbn [gchain app]; intros (H1 & H2 & H3); [auto using N.le_refl|].
    destruct (IH _ H3) as (H4 & H5). auto.
  Qed.

  Lemma gchain_In lo l hi s : gchain lo l hi -> In s l -> lo <= s_handle s.
  Proof. intros Hc (A & B & ->)%in_split. apply gchain_mid in Hc as [Hc _]. exact (gchain_le _ _ _ Hc). Qed.

  Lemma gchain_entries lo l hi :
    gchain lo l hi -> incr lo (flat_map ent l) /\ all_lt (flat_map ent l) hi.
  Proof.
    revert lo; induction l as [|s r IH]; intros lo; cbn [gchain flat_map].
    - intros _. split; constructor.
    - intros (H1 & (H2 & H3 & H4) & H5). pose proof (gchain_le _ _ _ H5) as Hle.
      destruct (IH _ H5) as [H6 H7]. split.
      + eapply incr_app; [eapply incr_weaken; [exact H3|exact H1]|exact H4|lia|exact H6].
      + apply all_lt_app. split; [eapply all_lt_weaken; [exact H4|exact Hle]|exact H7].
  Qed.

  (** [add_service] on a table: one more service above those of a chain *)
  Lemma register_snoc lo l hi s :
    gchain lo l hi -> hi <= s_handle s -> ent_sorted s ->
    db_set_all (ent s) (flat_map ent l) = flat_map ent (l ++ [s]).
  Proof.
    intros Hc Hle (_ & Hs & _). rewrite flat_map_snoc. apply (db_set_all_append (s_handle s)); [exact Hs|].
    eapply all_lt_weaken; [apply (gchain_entries _ _ _ Hc)|exact Hle].
  Qed.

  (** [update_service] on a table: everything from [h] on is purged, then [l'] is registered *)
  Lemma reregister_chain lo A h l hi l' hi' :
    gchain lo A h -> gchain h l hi -> gchain h l' hi' ->
    fold_left (fun d x => db_set_all (ent x) d) l' (db_below h (flat_map ent (A ++ l))) = flat_map ent (A ++ l').
  Proof.
    intros HA Hl Hl'. destruct (gchain_entries _ _ _ HA) as [_ HltA].
    rewrite !flat_map_app, db_below_app; [|exact HltA|apply incr_all_ge, (gchain_entries _ _ _ Hl)].
    rewrite db_set_all_flat_map. apply (db_set_all_append h); [apply (gchain_entries _ _ _ Hl')|exact HltA].
  Qed.

  (** [remove_service] on a table: deleting, in any order, the keys one service registered *)
  Lemma unregister_chain lo A s B hi ks :
    gchain lo (A ++ s :: B) hi -> Permutation ks (map fst (ent s)) ->
    db_del_all ks (flat_map ent (A ++ s :: B)) = flat_map ent (A ++ B).
  Proof.
    intros Hc Hks. apply gchain_entries, proj1, incr_NoDup in Hc. rewrite !flat_map_app in *. cbn [flat_map] in *.
    now apply db_del_all_block.
  Qed.
End CHAIN.

Definition all_entries (l : list svc) : list (N * ref) := flat_map svc_entries l.
Definition all_cmap (l : list svc) : list (N * N) := flat_map svc_cmap l.

Lemma svc_spec_sorted {V} (ent : svc -> list (N * V)) s :
  map fst (svc_dump s) = map fst (ent s) -> svc_spec s -> ent_sorted ent s.
Proof.
  intros Hk (_ & _ & Hc & He). rewrite lenN_svc_dump in He.
  apply (contig_keys _ (ent s) _ Hk), contig_sorted in Hc as [H1 H2].
  rewrite <- (lenN_map fst), <- Hk, (lenN_map fst), lenN_svc_dump, <- He in H2.
  split; [unfold svc_size in He; lia|]. split; assumption.
Qed.

Lemma svc_ok_sorted s : svc_ok s -> ent_sorted svc_entries s.
Proof. intros H. apply svc_spec_sorted; [apply keys_svc_dump|now apply svc_ok_spec]. Qed.

Lemma chars_spec_cmap (sid : N) h cs :
  chars_spec h cs ->
  incr h (map (fun c => (c_handle c, sid)) cs) /\ all_lt (map (fun c => (c_handle c, sid)) cs) (h + chars_size cs).
Proof.
  revert h; induction cs as [|c r IH]; intros h; cbn [chars_spec map incr chars_size]; [split; constructor|].
  intros [(H1 & _ & _ & H4) Hr]. destruct (IH _ Hr) as [K1 K2]. cbn [fst]. split.
  - split; [lia|]. eapply incr_weaken; [exact K1|lia].
  - constructor; [cbn [fst]; lia|]. eapply all_lt_weaken; [exact K2|lia].
Qed.

Lemma svc_spec_cmap_sorted s : svc_spec s -> ent_sorted svc_cmap s.
Proof.
  intros Hs. pose proof (svc_spec_end s Hs) as He. destruct Hs as (_ & Hc & _).
  destruct (chars_spec_cmap (s_id s) _ _ Hc) as [H1 H2]. unfold ent_sorted, svc_cmap.
  split; [lia|]. split; [eapply incr_weaken; [exact H1|lia]|eapply all_lt_weaken; [exact H2|lia]].
Qed.

Lemma gchain_cmap lo l hi : gchain svc_entries lo l hi -> Forall svc_ok l -> gchain svc_cmap lo l hi.
Proof.
  revert lo; induction l as [|s r IH]; intros lo; cbn [gchain]; [trivial|].
  intros (H1 & H2 & H3) Hok. inversion Hok; subst. split; [exact H1|split; [now apply svc_spec_cmap_sorted, svc_ok_spec|now apply IH]].
Qed.

(** * Object identities *)

Definition svc_ids (s : svc) : list N := s_id s :: map c_id (s_chars s).
Definition all_ids (l : list svc) : list N := flat_map svc_ids l.
Definition ids_ok (fresh : N) (l : list svc) : Prop :=
  NoDup (all_ids l) /\ Forall (fun x => x < fresh) (all_ids l).

Lemma c_id_relabel h cs : map c_id (relabel_chars h cs) = map c_id cs.
Proof. revert h; induction cs as [|c r IH]; intros h; cbn [relabel_chars map]; [reflexivity|]. now rewrite IH. Qed.

Lemma svc_ids_set h s : svc_ids (svc_set_handle h s) = svc_ids s.
Proof. unfold svc_ids, svc_set_handle. cbn [s_id s_chars]. now rewrite c_id_relabel. Qed.

Lemma all_ids_shift h l : all_ids (shift_services h l) = all_ids l.
Proof.
  revert h; induction l as [|s r IH]; intros h; cbn [shift_services all_ids flat_map]; [reflexivity|].
  fold (all_ids (shift_services (s_end (svc_set_handle (h + 1) s)) r)). fold (all_ids r).
  now rewrite svc_ids_set, IH.
Qed.

Lemma all_ids_app a b : all_ids (a ++ b) = all_ids a ++ all_ids b.
Proof. apply flat_map_app. Qed.

Lemma all_ids_mid A s B : all_ids (A ++ s :: B) = all_ids A ++ svc_ids s ++ all_ids B.
Proof. apply flat_map_app. Qed.

Lemma number_chars_ids n cs : map c_id (number_chars n cs) = Nseq n (length cs).
Proof. revert n; induction cs as [|c r IH]; intros n; cbn [number_chars map length Nseq c_id]; [reflexivity|]. now rewrite IH. Qed.

Lemma svc_ids_number n s : svc_ids (number_svc n s) = Nseq n (S (length (s_chars s))).
Proof. unfold svc_ids, number_svc. cbn [s_id s_chars Nseq]. now rewrite number_chars_ids. Qed.

(** * The invariants *)

Record InvW (p : profile) : Prop := mkInvW {
  w_start : 1 <= p_start p;
  w_chain : gchain svc_entries (p_start p) (p_svcs p) (p_next p);
  w_db : p_db p = all_entries (p_svcs p);
  w_ids : ids_ok (p_fresh p) (p_svcs p) }.

Record Inv (p : profile) : Prop := mkInv {
  i_w : InvW p;
  i_ok : Forall svc_ok (p_svcs p);
  i_cmap : p_cmap p = all_cmap (p_svcs p) }.

Fixpoint tight (lo : N) (l : list svc) (hi : N) : Prop :=
  match l with [] => lo = hi | s :: r => s_handle s = lo /\ tight (s_end s + 1) r hi end.

Definition InvS (p : profile) : Prop := Inv p /\ tight (p_start p) (p_svcs p) (p_next p).

Lemma tight_app_intro lo a mid b hi : tight lo a mid -> tight mid b hi -> tight lo (a ++ b) hi.
Proof.
  revert lo; induction a as [|s r IH]; intros lo; cbn [tight app].
  - now intros ->.
  - intros [H1 H2] Hb. split; [exact H1|now apply IH].
Qed.

Lemma tight_mid lo A s B hi : tight lo (A ++ s :: B) hi -> tight lo A (s_handle s) /\ tight (s_end s + 1) B hi.
Proof.
  revert lo; induction A as [|a A IH]; intros lo; cbn [tight app]; intros [H1 H2]; [auto|].
  destruct (IH _ H2). auto.
Qed.

Definition tight_p (p : profile) : Prop := tight (p_start p) (p_svcs p) (p_next p).

(** What every operation leaves: the invariant, the start handle and, unless the operation
    removes a service ([keeps = false]), contiguity. *)
Definition preserved (keeps : bool) (p q : profile) : Prop :=
  Inv q /\ p_start q = p_start p /\ (keeps = true -> tight_p p -> tight_p q).

Lemma preserved_refl keeps p : Inv p -> preserved keeps p p.
Proof. intros H. split; [exact H|]. split; [reflexivity|auto]. Qed.

Lemma preserved_trans k1 k2 p q r : preserved k1 p q -> preserved k2 q r -> preserved (k1 && k2) p r.
Proof.
  intros (_ & H2 & H3) (K1 & K2 & K3). split; [exact K1|]. split; [congruence|].
  intros [E1 E2]%andb_true_iff Hp. auto.
Qed.

Definition placed (p : profile) (s0 : svc) : svc :=
  let s1 := number_svc (p_fresh p) s0 in
  if s_handle s1 =? 0 then svc_set_handle (p_next p) s1 else s1.

Lemma add_service_eq p s0 :
  add_service p s0 = mkP (p_start p) (s_end (placed p s0) + 1) (p_fresh p + 1 + lenN (s_chars s0))
                         (p_svcs p ++ [placed p s0])
                         (db_set_all (svc_entries (placed p s0)) (p_db p))
                         (db_set_all (svc_cmap (placed p s0)) (p_cmap p)).
Proof. reflexivity. Qed.

Lemma svc_ids_placed p s0 : svc_ids (placed p s0) = Nseq (p_fresh p) (S (length (s_chars s0))).
Proof.
  unfold placed. destruct (s_handle (number_svc (p_fresh p) s0) =? 0);
    [rewrite svc_ids_set|]; apply svc_ids_number.
Qed.

Lemma ids_ok_add p s0 :
  ids_ok (p_fresh p) (p_svcs p) ->
  ids_ok (p_fresh p + 1 + lenN (s_chars s0)) (p_svcs p ++ [placed p s0]).
Proof.
  intros [Hnd Hlt]. unfold ids_ok, all_ids. rewrite flat_map_snoc, svc_ids_placed. fold (all_ids (p_svcs p)).
  rewrite Forall_forall in Hlt. split.
  - apply NoDup_app_intro; [exact Hnd|apply Nseq_NoDup|].
    intros x Hx Hin. apply Hlt in Hx. apply Nseq_In in Hin. lia.
  - apply Forall_app. split.
    + apply Forall_forall. intros x Hx. apply Hlt in Hx. lia.
    + apply Forall_forall. intros x Hx. apply Nseq_In in Hx. rewrite lenN_length. lia.
Qed.

Lemma add_service_invW p s0 :
  InvW p -> ent_sorted svc_entries (placed p s0) -> p_next p <= s_handle (placed p s0) ->
  InvW (add_service p s0).
Proof.
  intros [Hs Hc Hdb Hid] Hsorted Hle. rewrite add_service_eq. constructor; cbn [p_start p_next p_fresh p_svcs p_db].
  - exact Hs.
  - exact (gchain_snoc _ _ _ _ _ Hc Hle Hsorted).
  - rewrite Hdb. exact (register_snoc _ _ _ _ _ Hc Hle Hsorted).
  - now apply ids_ok_add.
Qed.

Lemma placed_template p s0 : s_handle s0 = 0 -> placed p s0 = svc_set_handle (p_next p) (number_svc (p_fresh p) s0).
Proof. intros H. unfold placed. cbn [number_svc s_handle]. now rewrite H. Qed.

Lemma placed_nonzero q s0 : s_handle s0 <> 0 -> placed q s0 = number_svc (p_fresh q) s0.
Proof. intros H. unfold placed. cbn [number_svc s_handle]. now rewrite (proj2 (N.eqb_neq _ _) H). Qed.

Lemma add_service_preserved p s0 : Inv p -> s_handle s0 = 0 -> preserved true p (add_service p s0).
Proof.
  intros [Hw Hok Hcm] H0. pose proof (placed_template p s0 H0) as Hp.
  assert (Hsok : svc_ok (placed p s0)) by (rewrite Hp; apply svc_ok_set).
  assert (Hh : s_handle (placed p s0) = p_next p) by (now rewrite Hp).
  split; [constructor|split; [reflexivity|]].
  - apply add_service_invW; [exact Hw|now apply svc_ok_sorted|lia].
  - rewrite add_service_eq. cbn [p_svcs]. apply Forall_app. split; [exact Hok|]. now constructor.
  - rewrite add_service_eq. cbn [p_cmap p_svcs]. rewrite Hcm.
    apply (register_snoc svc_cmap (p_start p) _ (p_next p)); [apply gchain_cmap; [apply Hw|exact Hok]|lia|].
    now apply svc_spec_cmap_sorted, svc_ok_spec.
  - intros _ Ht. unfold tight_p. rewrite add_service_eq. cbn [p_start p_svcs p_next].
    eapply tight_app_intro; [exact Ht|]. cbn [tight]. rewrite Hp. split; reflexivity.
Qed.

(** what [Profile.__init__] and [OpAdd] pass to add_service has handle 0 *)
Lemma svc_template_handle sd : s_handle (svc_template sd) = 0.
Proof. unfold svc_template. destruct (sd_kind sd); now rewrite !(fold_left_keeps s_handle). Qed.

Lemma svc_build_handle sd t : s_handle (svc_build sd t) = 0.
Proof.
  unfold svc_build. destruct (sd_kind sd); [| |apply svc_template_handle]; now rewrite !(fold_left_keeps s_handle).
Qed.

Lemma shift_services_props h B :
  Forall svc_ok (shift_services h B)
  /\ gchain svc_entries (h + 1) (shift_services h B) (last_svc_end h (shift_services h B) + 1)
  /\ tight (h + 1) (shift_services h B) (last_svc_end h (shift_services h B) + 1).
Proof.
  revert h; induction B as [|r t IH]; intros h; cbn [shift_services last_svc_end gchain tight].
  - repeat split; [constructor|lia].
  - destruct (IH (s_end (svc_set_handle (h + 1) r))) as (H1 & H2 & H3).
    split; [constructor; [apply svc_ok_set|exact H1]|]. split.
    + split; [cbn [svc_set_handle s_handle]; lia|]. split; [apply svc_ok_sorted, svc_ok_set|exact H2].
    + split; [reflexivity|exact H3].
Qed.

(** the updated service is laid out again from its own handle, whatever its state *)
Lemma update_at_eq p A s B :
  p_svcs p = A ++ s :: B ->
  update_at p (length A) =
  let r := svc_set_handle (s_handle s) s in
  let B' := shift_services (s_end r) B in
  mkP (p_start p) (last_svc_end (s_end r) B' + 1) (p_fresh p) (A ++ r :: B')
      (fold_left (fun d x => db_set_all (svc_entries x) d) (r :: B') (db_below (s_handle s) (p_db p)))
      (fold_left (fun d x => db_set_all (svc_cmap x) d) (r :: B') (db_below (s_handle s) (p_cmap p))).
Proof.
  intros H. unfold update_at. rewrite H, nth_mid, (firstn_app_exact _ _ _ eq_refl), skipn_mid. reflexivity.
Qed.

(** [update_service] on a listed service whose object was replaced by ANY object [s'] with the
    same handle (whatever its layout; identities still unique). *)
Lemma modify_update p i s s' fresh' :
  Inv p -> nth_error (p_svcs p) i = Some s -> s_handle s' = s_handle s ->
  (forall A B, ids_ok (p_fresh p) (A ++ s :: B) -> ids_ok fresh' (A ++ s' :: B)) ->
  preserved true p (update_at (set_svc_at p i s' fresh') i).
Proof.
  intros [[Hst Hc Hdb Hid] Hok Hcm] (A & B & Hsv & <-)%nth_error_split Hh Hid'.
  rewrite (update_at_eq _ A s' B) by (cbn [set_svc_at p_svcs]; now rewrite Hsv, (firstn_app_exact _ _ _ eq_refl), skipn_mid).
  cbv zeta. cbn [set_svc_at p_start p_fresh p_db p_cmap]. rewrite Hh.
  rewrite Hsv in Hc, Hdb, Hok, Hcm, Hid. apply Hid' in Hid.
  apply Forall_app in Hok as [HokA HokB]. apply gchain_mid in Hc as (HcA & Hc0).
  set (r := svc_set_handle (s_handle s) s').
  destruct (shift_services_props (s_end r) B) as (HokB' & HcB' & HtB).
  set (B' := shift_services (s_end r) B) in *.
  assert (Hc1 : gchain svc_entries (s_handle s) (r :: B') (last_svc_end (s_end r) B' + 1)).
  { cbn [gchain]. split; [apply N.le_refl|]. split; [apply svc_ok_sorted, svc_ok_set|exact HcB']. }
  assert (Hok1 : Forall svc_ok (r :: B')) by (constructor; [apply svc_ok_set|exact HokB']).
  split; [constructor; [constructor|..]|split; [reflexivity|]]; cbn [p_start p_next p_fresh p_svcs p_db p_cmap].
  - exact Hst.
  - eapply gchain_app_intro; [exact HcA|exact Hc1].
  - rewrite Hdb. exact (reregister_chain svc_entries _ _ _ _ _ _ _ HcA Hc0 Hc1).
  - unfold ids_ok in *. rewrite all_ids_mid in *. unfold B', r. now rewrite all_ids_shift, svc_ids_set.
  - apply Forall_app. now split.
  - rewrite Hcm. exact (reregister_chain svc_cmap _ _ _ _ _ _ _ (gchain_cmap _ _ _ HcA HokA) (gchain_cmap _ _ _ Hc0 HokB)
                                        (gchain_cmap _ _ _ Hc1 Hok1)).
  - intros _ Ht. unfold tight_p in *. cbn [p_start p_svcs p_next]. rewrite Hsv in Ht. apply tight_mid in Ht as [HtA _].
    apply (tight_app_intro _ _ _ _ _ HtA). split; [reflexivity|exact HtB].
Qed.

Lemma set_svc_at_same p i s : nth_error (p_svcs p) i = Some s -> set_svc_at p i s (p_fresh p) = p.
Proof.
  intros (A & B & H & <-)%nth_error_split. unfold set_svc_at. rewrite H, (firstn_app_exact _ _ _ eq_refl), skipn_mid, <- H. now destruct p.
Qed.

Lemma update_at_preserved p i : Inv p -> preserved true p (update_at p i).
Proof.
  intros HI. destruct (nth_error (p_svcs p) i) as [s|] eqn:E.
  - pose proof (modify_update p i s s (p_fresh p) HI E eq_refl (fun _ _ H => H)) as H.
    now rewrite (set_svc_at_same _ _ _ E) in H.
  - unfold update_at. rewrite E. now apply preserved_refl.
Qed.

Lemma ids_ok_same fresh A s s' B :
  svc_ids s' = svc_ids s -> ids_ok fresh (A ++ s :: B) -> ids_ok fresh (A ++ s' :: B).
Proof. unfold ids_ok. rewrite !all_ids_mid. now intros ->. Qed.

Lemma ids_ok_replace_add fresh A s s' B :
  svc_ids s' = svc_ids s ++ [fresh] -> ids_ok fresh (A ++ s :: B) -> ids_ok (fresh + 1) (A ++ s' :: B).
Proof.
  unfold ids_ok. rewrite !all_ids_mid. intros -> [Hnd Hlt]. rewrite <- app_assoc. cbn [app].
  rewrite Forall_forall in Hlt. rewrite app_assoc. split.
  (* in each part, the new identity moved to the front *)
  - rewrite <- Permutation_middle, <- app_assoc. constructor; [intros Hin%Hlt; lia|exact Hnd].
  - eapply Permutation_Forall; [apply Permutation_middle|]. rewrite <- app_assoc.
    constructor; [lia|]. apply Forall_forall. intros x Hx%Hlt. lia.
Qed.

Lemma ids_ok_replace_sub fresh A s s' B x y z :
  svc_ids s = x ++ y :: z -> svc_ids s' = x ++ z -> ids_ok fresh (A ++ s :: B) -> ids_ok fresh (A ++ s' :: B).
Proof.
  unfold ids_ok. rewrite !all_ids_mid. intros -> -> H. rewrite <- !app_assoc in *. cbn [app] in H.
  (* the identity that goes moved to the front *)
  rewrite app_assoc, <- Permutation_middle, <- app_assoc in H. destruct H as [Hnd Hlt].
  split; [now inversion Hnd|now inversion Hlt].
Qed.

Lemma ids_ok_remove fresh A s B : ids_ok fresh (A ++ s :: B) -> ids_ok fresh (A ++ B).
Proof.
  unfold ids_ok. rewrite all_ids_mid, all_ids_app, Permutation_app_swap_app. intros [Hnd Hlt].
  split; [apply NoDup_app_elim in Hnd; apply Hnd|apply Forall_app in Hlt; apply Hlt].
Qed.

Lemma svc_ids_add_char s c : svc_ids (svc_add_char s c) = svc_ids s ++ [c_id c].
Proof. unfold svc_ids, svc_add_char. cbn [s_id s_chars]. rewrite map_app. now destruct (c_handle c =? 0). Qed.

(** [remove_service] deletes, in its own order, exactly the keys the service registered *)
Lemma remove_at_inv p i : Inv p -> exists q, remove_at p i = Done q /\ preserved false p q.
Proof.
  intros HI. unfold remove_at.
  destruct (nth_error (p_svcs p) i) as [s|] eqn:E; [|exists p; split; [reflexivity|now apply preserved_refl]].
  apply nth_error_split in E as (A & B & Hsv & <-). destruct HI as [[Hst Hc Hdb Hid] Hok Hcm].
  rewrite Hsv in *. rewrite remove_nth_mid. pose proof (gchain_mid _ _ _ _ _ _ Hc) as (HcA & _ & Hs & HcB).
  set (ks1 := flat_map chr_keys (s_chars s)).
  assert (Hget : db_get (s_handle s) (db_del_all ks1 (p_db p)) = Some (RSvc (s_id s))).
  { rewrite db_get_del_all, Hdb.
    - apply db_get_In; [eapply incr_NoDup, (gchain_entries _ _ _ _ Hc)|].
      apply in_flat_map. exists s. split; [apply in_elt|now left].
    - pose proof (incr_NoDup _ _ (proj1 (proj2 Hs))) as N. rewrite keys_svc_entries in N.
      inversion N as [|? ? Hni _]. intros Hin. apply Hni, in_or_app. now right. }
  rewrite Hget. eexists. split; [reflexivity|]. split; [|split; [reflexivity|discriminate]].
  constructor; [constructor|..]; cbn [p_start p_next p_fresh p_svcs p_db p_cmap].
  - exact Hst.
  - eapply gchain_app_intro; [exact HcA|]. destruct Hs as (Hs & _). eapply gchain_weaken; [exact HcB|lia|lia].
  - change (db_del (s_handle s) (db_del_all ks1 (p_db p))) with (db_del_all [s_handle s] (db_del_all ks1 (p_db p))).
    rewrite <- !db_del_all_app, Hdb. apply (unregister_chain svc_entries _ _ _ _ _ _ Hc).
    rewrite keys_svc_entries. apply (Permutation_app_comm ks1 (s_handle s :: _)).
  - eapply ids_ok_remove; exact Hid.
  - apply Forall_app in Hok as [HokA HokB]. apply Forall_app. split; [exact HokA|now inversion HokB].
  - rewrite Hcm. apply (unregister_chain svc_cmap _ _ _ _ _ _ (gchain_cmap _ _ _ Hc Hok)). now rewrite keys_svc_cmap.
Qed.

(** * Every operation preserves the invariant *)

(** Every operation but add_service and remove_service modifies one listed service, keeping
    its handle, and calls [update_service] on it: [modify_update]. *)
Lemma step_inv p o : Inv p -> exists q, step p o = Done q /\ preserved (negb (is_remove o)) p q.
Proof.
  intros HI.
  assert (Hnone : exists q, Done p = Done q /\ preserved true p q)
    by (exists p; split; [reflexivity|now apply preserved_refl]).
  destruct o as [sd|i|i cd|i j|i j dd|i]; cbn [step is_remove negb].
  - eexists. split; [reflexivity|]. apply add_service_preserved; [exact HI|apply svc_template_handle].
  - eexists. split; [reflexivity|]. exact (update_at_preserved p i HI).
  - destruct (nth_error (p_svcs p) i) as [s|] eqn:E; [|exact Hnone].
    eexists. split; [reflexivity|]. apply (modify_update p i s); [exact HI|exact E|reflexivity|].
    intros A B. apply ids_ok_replace_add, svc_ids_add_char.
  - destruct (nth_error (p_svcs p) i) as [s|] eqn:E; [|exact Hnone].
    destruct (j <? length (s_chars s))%nat eqn:Ej; [apply Nat.ltb_lt in Ej|exact Hnone].
    eexists. split; [reflexivity|]. apply (modify_update p i s); [exact HI|exact E|reflexivity|].
    destruct (remove_nth_split _ _ Ej) as (a & x & b & H1 & H2). intros A B.
    apply (ids_ok_replace_sub _ A s _ B (s_id s :: map c_id a) (c_id x) (map c_id b)).
    + unfold svc_ids. rewrite H1, map_app. reflexivity.
    + rewrite svc_ids_set. unfold svc_ids, set_chars. cbn [s_id s_chars]. rewrite H2, map_app. reflexivity.
  - destruct (nth_error (p_svcs p) i) as [s|] eqn:E; [|exact Hnone].
    eexists. split; [reflexivity|]. apply (modify_update p i s); [exact HI|exact E|reflexivity|].
    intros A B. apply ids_ok_same. unfold svc_ids, set_chars. cbn [s_id s_chars]. f_equal. now apply map_map_nth.
  - exact (remove_at_inv p i HI).
Qed.

Definition pend_ok (pend : list svc) : Prop := Forall (fun s => s_handle s = 0) pend.

(** Whatever was done to a pending service (in whatever order), registering it and every
    other step of a history preserve the invariant; no step raises. *)
Lemma hstep_inv p pend h :
  Inv p -> pend_ok pend ->
  exists q pend', hstep (p, pend) h = (Done q, pend') /\ preserved (hop_no_remove h) p q /\ pend_ok pend'.
Proof.
  intros HI HP.
  assert (Hsame : forall pend', pend_ok pend' ->
            exists q pend'', (Done p, pend') = (Done q, pend'') /\ preserved true p q /\ pend_ok pend'')
    by (intros pend' H; exists p, pend'; auto using preserved_refl).
  destruct h as [pr u|i cd|i j dd|i u|i|o]; cbn [hstep hop_no_remove].
  - apply Hsame, Forall_app. split; [exact HP|]. now constructor.
  - now apply Hsame, Forall_map_nth.
  - now apply Hsame, Forall_map_nth.
  - now apply Hsame, Forall_map_nth.
  - destruct (nth_error pend i) as [s|] eqn:E; [|now apply Hsame].
    apply nth_error_split in E as (a & b & -> & <-). rewrite remove_nth_mid.
    apply Forall_app in HP as [Ha [Hs Hb]%Forall_cons_iff].
    eexists _, _. split; [reflexivity|]. split; [now apply add_service_preserved|]. apply Forall_app. now split.
  - destruct (step_inv p o HI) as (q & -> & Hq). exists q, pend. split; [reflexivity|]. split; [|exact HP].
    now destruct o.
Qed.

Lemma hrun_inv hs : forall p pend,
  Inv p -> pend_ok pend ->
  exists q pend', hrun (p, pend) hs = (Done q, pend') /\ preserved (forallb hop_no_remove hs) p q.
Proof.
  induction hs as [|h r IH]; intros p pend HI HP; cbn [hrun forallb fst snd].
  - exists p, pend. split; [reflexivity|now apply preserved_refl].
  - destruct (hstep_inv p pend h HI HP) as (q & pend' & -> & Hq & HP').
    destruct (IH q pend' (proj1 Hq) HP') as (q' & pend'' & E & Hq'). exists q', pend''.
    split; [exact E|exact (preserved_trans _ _ _ _ _ Hq Hq')].
Qed.

Lemma hrun_ops ops : forall p pend, hrun (p, pend) (map HOp ops) = (run p ops, pend).
Proof.
  induction ops as [|o r IH]; intros p pend; cbn [map hrun run hstep fst snd]; [reflexivity|].
  destruct (step p o); [apply IH|reflexivity].
Qed.

Lemma run_inv ops p : Inv p -> exists q, run p ops = Done q /\ preserved (no_remove ops) p q.
Proof.
  intros HI. destruct (hrun_inv (map HOp ops) p [] HI (Forall_nil _)) as (q & pend & E & Hq).
  rewrite hrun_ops in E. injection E as E _. exists q. split; [exact E|].
  rewrite forallb_map in Hq. unfold no_remove. erewrite forallb_ext'; [exact Hq|]. now intros [].
Qed.

Definition ids_from (n : N) (p : profile) : Prop :=
  n <= p_fresh p /\ Forall (fun x => n <= x) (all_ids (p_svcs p)).

Lemma add_service_ids_from n p s0 : ids_from n p -> ids_from n (add_service p s0).
Proof.
  intros [H1 H2]. unfold ids_from. rewrite add_service_eq. cbn [p_fresh p_svcs]. split; [lia|].
  unfold all_ids. rewrite flat_map_snoc, svc_ids_placed. apply Forall_app. split; [exact H2|].
  apply Forall_forall. intros x Hx. apply Nseq_In in Hx. lia.
Qed.

Lemma build_fold n sds : forall p,
  Inv p -> ids_from n p ->
  let q := fold_left (fun p sd => add_service p (svc_build sd (svc_template sd))) sds p in
  preserved true p q /\ ids_from n q.
Proof.
  induction sds as [|sd r IH]; intros p HI Hn; cbn [fold_left]; [split; [now apply preserved_refl|exact Hn]|].
  pose proof (add_service_preserved p _ HI (svc_build_handle sd (svc_template sd))) as K.
  destruct (IH _ (proj1 K) (add_service_ids_from n p _ Hn)) as (K1 & K2).
  split; [exact (preserved_trans _ _ _ _ _ K K1)|exact K2].
Qed.

Lemma empty_inv n start : 1 <= start -> Inv (mkP start start n [] [] []).
Proof.
  intros H. constructor; [constructor|..]; cbn [p_start p_next p_fresh p_svcs p_db p_cmap gchain all_entries all_cmap flat_map].
  - exact H.
  - lia.
  - reflexivity.
  - split; constructor.
  - constructor.
  - reflexivity.
Qed.

Lemma build_from_inv n start sds :
  1 <= start ->
  let q := build_from n start sds in
  Inv q /\ tight_p q /\ p_start q = start /\ ids_from n q.
Proof.
  intros H. destruct (build_fold n sds _ (empty_inv n start H)) as ((K1 & K2 & K3) & K4).
  - split; [apply N.le_refl|constructor].
  - split; [exact K1|]. split; [now apply K3|]. split; [exact K2|exact K4].
Qed.

(** * The database under the invariant: every reference resolves to its own attribute *)

Lemma in_all_ids_sid l s : In s l -> In (s_id s) (all_ids l).
Proof. intros H. apply in_flat_map. exists s. split; [exact H|now left]. Qed.

Lemma all_ids_parts l :
  NoDup (all_ids l) -> NoDup (map s_id l) /\ Forall (fun s => NoDup (map c_id (s_chars s))) l.
Proof.
  induction l as [|s l IH]; cbn [all_ids flat_map map]; [repeat constructor|].
  fold (all_ids l). intros H. apply NoDup_app_elim in H as (H1 & H2 & H3). destruct (IH H2) as [H4 H5].
  unfold svc_ids in *. inversion H1; subst. split.
  - constructor; [|exact H4]. intros Hin. apply in_map_iff in Hin as (x & Hx & Hin).
    apply (H3 (s_id s)); [now left|]. rewrite <- Hx. now apply in_all_ids_sid.
  - constructor; assumption.
Qed.

Lemma find_svc_in svcs s : NoDup (all_ids svcs) -> In s svcs -> find_svc (s_id s) svcs = Some s.
Proof. intros [Hs _]%all_ids_parts Hin. now apply (find_unique s_id). Qed.

Definition res (svcs : list svc) (e : N * ref) : N * attr := (fst e, resolve svcs (snd e)).

Lemma resolve_incls svcs s pre l :
  find_svc (s_id s) svcs = Some s -> s_incls s = pre ++ l ->
  map (res svcs) (incl_entries (s_id s) (length pre) l)
  = map (fun i => (i_handle i, AIncl (i_handle i) (i_uuid i))) l.
Proof.
  intros Hf. revert pre; induction l as [|i r IH]; intros pre Hs; cbn [incl_entries map]; [reflexivity|].
  f_equal.
  - unfold res, resolve. cbn [fst snd]. now rewrite Hf, Hs, nth_mid.
  - replace (S (length pre)) with (length (pre ++ [i])) by (rewrite app_length; cbn [length]; lia).
    apply IH. now rewrite <- app_assoc.
Qed.

Lemma resolve_descs svcs s c pre l :
  find_svc (s_id s) svcs = Some s -> find_chr (c_id c) (s_chars s) = Some c -> c_descs c = pre ++ l ->
  map (res svcs) (desc_entries (s_id s) (c_id c) (length pre) l) = desc_dump l.
Proof.
  intros Hf Hc. revert pre; induction l as [|d r IH]; intros pre Hs; cbn [desc_entries desc_dump map]; [reflexivity|].
  f_equal.
  - unfold res, resolve. cbn [fst snd]. now rewrite Hf, Hc, Hs, nth_mid.
  - replace (S (length pre)) with (length (pre ++ [d])) by (rewrite app_length; cbn [length]; lia).
    apply IH. now rewrite <- app_assoc.
Qed.

Lemma resolve_chr svcs s c :
  find_svc (s_id s) svcs = Some s -> find_chr (c_id c) (s_chars s) = Some c ->
  map (res svcs) (chr_entries (s_id s) c) = chr_dump c.
Proof.
  intros Hf Hc. unfold chr_entries, chr_dump. cbn [map]. f_equal; [|f_equal].
  - unfold res, resolve. cbn [fst snd]. now rewrite Hf, Hc.
  - unfold res, resolve. cbn [fst snd]. now rewrite Hf, Hc.
  - now apply (resolve_descs svcs s c []).
Qed.

Lemma resolve_svc svcs s :
  find_svc (s_id s) svcs = Some s -> NoDup (map c_id (s_chars s)) ->
  map (res svcs) (svc_entries s) = svc_dump s.
Proof.
  intros Hf Hnd. unfold svc_entries, svc_dump. cbn [map]. f_equal.
  - unfold res, resolve. cbn [fst snd]. now rewrite Hf.
  - rewrite map_app. f_equal.
    + now apply (resolve_incls svcs s []).
    + apply map_flat_map_in. intros c Hc. apply resolve_chr; [exact Hf|]. now apply (find_unique c_id).
Qed.

Lemma res_all_entries svcs :
  NoDup (all_ids svcs) -> map (res svcs) (all_entries svcs) = flat_map svc_dump svcs.
Proof.
  intros Hnd. apply map_flat_map_in. intros s Hs. apply resolve_svc; [now apply find_svc_in|].
  apply all_ids_parts in Hnd as [_ Hc]. rewrite Forall_forall in Hc. now apply Hc.
Qed.

Lemma cmap_view_of p :
  NoDup (all_ids (p_svcs p)) -> p_cmap p = all_cmap (p_svcs p) ->
  cmap_view p = flat_map (fun s => map (fun c => (c_handle c, Some (s_handle s))) (s_chars s)) (p_svcs p).
Proof.
  intros Hnd Hcm. unfold cmap_view. rewrite Hcm. apply map_flat_map_in. intros s Hs.
  unfold svc_cmap. rewrite map_map. apply map_ext. intros c. cbn [fst snd]. now rewrite find_svc_in.
Qed.

(** ** consistent services meet the explicit layout *)

Lemma gchain_spec lo l hi : gchain svc_entries lo l hi -> Forall svc_ok l -> svcs_spec true lo l hi.
Proof.
  revert lo; induction l as [|s r IH]; intros lo; cbn [gchain svcs_spec]; [trivial|].
  intros (H1 & _ & H3) Hok. inversion Hok; subst. split; [exact H1|]. split; [now apply svc_ok_spec|now apply IH].
Qed.

Lemma tight_spec lo l hi : tight lo l hi -> Forall svc_ok l -> svcs_spec false lo l hi.
Proof.
  revert lo; induction l as [|s r IH]; intros lo; cbn [tight svcs_spec]; [now intros ->|].
  intros (H1 & H3) Hok. apply Forall_cons_iff in Hok as [Hs Hr]. split; [exact H1|]. split; [now apply svc_ok_spec|now apply IH].
Qed.

Lemma inv_layout_with g p : Inv p -> svcs_spec g (p_start p) (p_svcs p) (p_next p) -> layout g p.
Proof.
  intros [[Hst Hc Hdb [Hnd _]] Hok Hcm] Hs. split; [exact Hst|]. split; [|split; [exact Hs|split]].
  - unfold dump. rewrite Hdb. exact (res_all_entries _ Hnd).
  - now apply cmap_view_of.
  - rewrite Hcm. eapply incr_NoDup. apply (gchain_entries _ _ _ _ (gchain_cmap _ _ _ Hc Hok)).
Qed.

Theorem inv_layout p : Inv p -> layout true p.
Proof. intros HI. apply inv_layout_with; [exact HI|]. apply gchain_spec; apply HI. Qed.

Theorem invs_layout p : Inv p -> tight_p p -> layout false p.
Proof. intros HI Ht. apply inv_layout_with; [exact HI|]. apply tight_spec; [exact Ht|apply HI]. Qed.

Lemma preserved_build_layout start sds keeps q :
  1 <= start -> preserved keeps (build start sds) q ->
  layout true q /\ p_start q = start /\ (keeps = true -> layout false q).
Proof.
  intros H (HI & Hs & Ht). destruct (build_from_inv 0 start sds H) as (_ & H2 & H3 & _).
  split; [now apply inv_layout|]. split; [exact (eq_trans Hs H3)|]. intros Hk. apply invs_layout; auto.
Qed.

(** * What the layout implies: distinct handles, contiguity, lookups *)

Lemma svcs_spec_chain g lo l hi : svcs_spec g lo l hi -> gchain svc_dump lo l hi.
Proof.
  revert lo; induction l as [|s r IH]; intros lo; cbn [svcs_spec gchain]; [destruct g; lia|].
  intros (H1 & H2 & H3). split; [destruct g; lia|]. split; [now apply svc_spec_sorted|apply IH, H3].
Qed.

Lemma svcs_spec_contig lo l hi :
  svcs_spec false lo l hi -> contig lo (flat_map svc_dump l) /\ hi = lo + lenN (flat_map svc_dump l).
Proof.
  revert lo; induction l as [|s r IH]; intros lo; cbn [svcs_spec flat_map lenN].
  - intros ->. split; [apply contig_nil|lia].
  - intros (<- & (_ & _ & Hc & He) & H3). destruct (IH _ H3) as (H4 & H5). split.
    + apply contig_app; [exact Hc|]. now rewrite <- He.
    + rewrite lenN_app. lia.
Qed.

Lemma svc_dump_handles s : Forall (fun e => attr_handle (snd e) = fst e /\ snd e <> ADangling) (svc_dump s).
Proof.
  unfold svc_dump. constructor; [easy|]. apply Forall_app. split.
  - apply Forall_map, Forall_forall. easy.
  - apply Forall_flat_map, Forall_forall. intros c _. unfold chr_dump. constructor; [easy|]. constructor; [easy|].
    apply Forall_map, Forall_forall. easy.
Qed.

Lemma svc_dump_all_handles l :
  Forall (fun e => attr_handle (snd e) = fst e /\ snd e <> ADangling) (flat_map svc_dump l).
Proof. apply Forall_flat_map, Forall_forall. intros s _. apply svc_dump_handles. Qed.

Theorem layout_contiguous p :
  layout false p -> map fst (dump p) = Nseq (p_start p) (length (dump p)) /\ p_next p = p_start p + lenN (dump p).
Proof. intros (_ & Hd & Hs & _). rewrite Hd. apply svcs_spec_contig, Hs. Qed.

Lemma db_get_map {V W} (f : V -> W) h (l : list (N * V)) :
  db_get h (map (fun e => (fst e, f (snd e))) l) = option_map f (db_get h l).
Proof.
  induction l as [|[k v] r IH]; cbn [map db_get fst snd option_map]; [reflexivity|].
  destruct (k =? h); [reflexivity|exact IH].
Qed.

Lemma insertN_perm x l : Permutation (x :: l) (insertN x l).
Proof.
  induction l as [|y r IH]; cbn [insertN]; [reflexivity|].
  destruct (x <=? y); [reflexivity|]. rewrite perm_swap. now constructor.
Qed.

Lemma sortN_perm l : Permutation l (sortN l).
Proof.
  induction l as [|x r IH]; cbn [sortN]; [constructor|].
  rewrite <- insertN_perm. now constructor.
Qed.

Lemma insertN_asc x l : ascending l -> ~ In x l -> ascending (insertN x l).
Proof.
  induction l as [|y r IH]; cbn [insertN ascending In]; [intros _ _; repeat constructor|]. intros [Hy Hr] Hx.
  destruct (x <=? y) eqn:E.
  - cbn [ascending]. assert (x < y) by (apply N.leb_le in E; assert (x <> y) by (intros ->; apply Hx; now left); lia).
    split; [|split; assumption]. constructor; [assumption|]. eapply Forall_impl; [|exact Hy]. cbn. intros; lia.
  - cbn [ascending]. apply N.leb_gt in E. split; [|apply IH; [exact Hr|tauto]].
    eapply Permutation_Forall; [apply insertN_perm|]. now constructor.
Qed.

Lemma sortN_asc l : NoDup l -> ascending (sortN l).
Proof.
  induction 1 as [|x r Hx Hnd IH]; cbn [sortN]; [exact I|].
  apply insertN_asc; [exact IH|]. now rewrite <- sortN_perm.
Qed.

Lemma asc_perm_eq l : forall l', ascending l -> ascending l' -> Permutation l l' -> l = l'.
Proof.
  induction l as [|x r IH]; intros l' Ha Ha' Hp.
  - now apply Permutation_nil in Hp.
  - destruct l' as [|y r']; [apply Permutation_sym, Permutation_nil in Hp; discriminate|].
    cbn [ascending] in Ha, Ha'. destruct Ha as [Hx Hr], Ha' as [Hy Hr'].
    rewrite Forall_forall in Hx, Hy.
    assert (Exy : x = y).
    { assert (H1 : In x (y :: r')) by (rewrite <- Hp; now left).
      assert (H2 : In y (x :: r)) by (rewrite Hp; now left).
      destruct H1 as [H1|H1]; [now symmetry|]. destruct H2 as [H2|H2]; [exact H2|].
      apply Hy in H1. apply Hx in H2. lia. }
    subst y. f_equal. apply IH; [exact Hr|exact Hr'|]. now apply Permutation_cons_inv in Hp.
Qed.

Lemma ascending_filter f l : ascending l -> ascending (filter f l).
Proof.
  induction l as [|x r IH]; cbn [ascending filter]; [trivial|]. intros [Hx Hr].
  destruct (f x); [|now apply IH]. cbn [ascending]. split; [|now apply IH].
  exact (incl_Forall (incl_filter f r) Hx).
Qed.

(** the sort of [find_objects_by_range]: the handles collected from the dict, in whatever
    order the dict holds them, come out as the in-range slice of the ascending layout *)
Lemma sort_filter_perm f ks L : Permutation ks L -> ascending L -> sortN (filter f ks) = filter f L.
Proof.
  intros Hp Ha. apply asc_perm_eq.
  - apply sortN_asc, NoDup_filter. rewrite Hp. now apply ascending_NoDup.
  - now apply ascending_filter.
  - rewrite <- sortN_perm. now apply Permutation_filter'.
Qed.

Lemma filter_map_fst {V} (f : N -> bool) (l : list (N * V)) :
  filter f (map fst l) = map fst (filter (fun e => f (fst e)) l).
Proof. induction l as [|e r IH]; cbn [map filter]; [reflexivity|]. destruct (f (fst e)); cbn [map]; now rewrite IH. Qed.

(** * Lookups agree with the layout, whatever the registration order of the dict *)

Lemma keys_dump p : map fst (dump p) = map fst (p_db p).
Proof. unfold dump. rewrite map_map. reflexivity. Qed.

Lemma agrees_NoDup p : db_agrees p -> NoDup (map fst (dump p)).
Proof.
  intros (Hp & Ha & _). rewrite Hp. now apply ascending_NoDup.
Qed.

(** find_object_by_handle(h) returns exactly the attribute the layout puts at h *)
Theorem lookup_by_handle p h a :
  db_agrees p -> (find_by_handle p h = Some a <-> In (h, a) (flat_map svc_dump (p_svcs p))).
Proof.
  intros HA. pose proof (agrees_NoDup _ HA) as Hnd. destruct HA as (Hp & _).
  unfold find_by_handle. rewrite <- db_get_map. fold (dump p). split.
  - intros H%db_get_Some_In. now rewrite <- Hp.
  - intros H. apply db_get_In; [exact Hnd|now rewrite Hp].
Qed.

Lemma find_all_by_handle p l :
  db_agrees p -> (forall e, In e l -> In e (flat_map svc_dump (p_svcs p))) ->
  flat_map (fun h => match find_by_handle p h with Some x => [x] | None => [] end) (map fst l) = map snd l.
Proof.
  intros HA. induction l as [|[k v] r IH]; intros Hl; cbn [map flat_map fst snd]; [reflexivity|].
  rewrite (proj2 (lookup_by_handle p k v HA)) by (apply Hl; now left).
  cbn [app]. f_equal. apply IH. intros e He. apply Hl. now right.
Qed.

Lemma services_of_dump u l :
  flat_map (fun e : N * attr => match snd e with ASvc h _ u' _ => if uuid_eqb u' u then [h] else [] | _ => [] end)
           (flat_map svc_dump l)
  = map s_handle (filter (fun s => uuid_eqb (s_uuid s) u) l).
Proof.
  induction l as [|s r IH]; cbn [flat_map filter map]; [reflexivity|].
  rewrite flat_map_app, IH. unfold svc_dump. cbn [flat_map snd]. rewrite flat_map_nil.
  - destruct (uuid_eqb (s_uuid s) u); reflexivity.
  - intros e [(i & <- & _)%in_map_iff|(c & _ & [<-|[<-|(d & <- & _)%in_map_iff]])%in_flat_map]%in_app_iff;
      reflexivity.
Qed.

Lemma chars_of_dump u l :
  flat_map (fun e : N * attr => match snd e with AChar h u' _ _ _ _ => if uuid_eqb u' u then [h] else [] | _ => [] end)
           (flat_map svc_dump l)
  = map c_handle (filter (fun c => uuid_eqb (c_uuid c) u) (flat_map s_chars l)).
Proof.
  induction l as [|s r IH]; cbn [flat_map filter map]; [reflexivity|].
  rewrite flat_map_app, IH, filter_app, map_app. f_equal. unfold svc_dump. cbn [flat_map snd app].
  rewrite flat_map_app, (flat_map_nil _ (map _ _)) by (intros e (i & <- & _)%in_map_iff; reflexivity).
  cbn [app]. induction (s_chars s) as [|c cs IHc]; cbn [flat_map filter map]; [reflexivity|].
  rewrite flat_map_app, IHc. unfold chr_dump at 1. cbn [flat_map snd app].
  rewrite flat_map_nil by (intros e (d & <- & _)%in_map_iff; reflexivity).
  destruct (uuid_eqb (c_uuid c) u); reflexivity.
Qed.

(** * SecurityAccess conversions *)

Lemma int_to_acc_mod n : int_to_acc (n mod 2 ^ 7) = int_to_acc n.
Proof.
  assert (E : n mod 2 ^ 7 / 16 = (n / 16) mod 2 ^ 3).
  { change (2 ^ 7) with (16 * 2 ^ 3). rewrite N.mod_mul_r, (N.mul_comm 16), N.div_add by discriminate.
    now rewrite N.div_small by (apply N.mod_lt; discriminate). }
  unfold int_to_acc. rewrite E, !N.mod_pow2_bits_low by reflexivity.
  rewrite <- !N.land_ones, <- !N.land_assoc. reflexivity.
Qed.

(** int -> accesses -> int keeps exactly the six defined bits: by the lemma above only
    the 128 values of the low seven bits are left, and those are swept *)
Theorem security_int_roundtrip n : acc_to_int (int_to_acc n) = N.land n 0x77.
Proof.
  assert (S : forallb (fun n => acc_to_int (int_to_acc n) =? N.land n 0x77) (Nseq 0 128) = true) by (vm_compute; reflexivity).
  rewrite forallb_forall in S. rewrite <- int_to_acc_mod.
  replace (N.land n 0x77) with (N.land (n mod 2 ^ 7) 0x77) by (rewrite <- N.land_ones, <- N.land_assoc; reflexivity).
  apply N.eqb_eq, S, Nseq_In. pose proof (N.mod_lt n (2 ^ 7)). lia.
Qed.

Lemma acc_to_int_bits l : forall w acc, N.land acc 0x77 = acc -> N.land (acc_to_int_aux w acc l) 0x77 = acc_to_int_aux w acc l.
Proof.
  induction l as [|[t e a z] r IH]; intros w acc H; cbn [acc_to_int_aux]; [exact H|].
  apply IH. rewrite N.land_lor_distr_l, H. f_equal.
  destruct (match a_type _ with ARead => false | AWrite => true | ABase => w end), e, a, z; reflexivity.
Qed.

Theorem security_roundtrip l : acc_to_int (int_to_acc (acc_to_int l)) = acc_to_int l.
Proof. rewrite security_int_roundtrip. now apply acc_to_int_bits. Qed.

(** * JSON export / import *)

Definition exp_entry (svcs : list svc) (e : N * ref) : list jsvc :=
  match snd e with
  | RSvc sid => match find_svc sid svcs with Some s => [export_svc s] | None => [] end
  | _ => []
  end.

Lemma export_unfold p : export p = flat_map (exp_entry (p_svcs p)) (p_db p).
Proof. reflexivity. Qed.

Lemma exp_incl_entries svcs sid k l : flat_map (exp_entry svcs) (incl_entries sid k l) = [].
Proof. revert k; induction l as [|i r IH]; intros k; cbn [incl_entries flat_map]; [reflexivity|]. now rewrite IH. Qed.

Lemma exp_desc_entries svcs sid cid k l : flat_map (exp_entry svcs) (desc_entries sid cid k l) = [].
Proof. revert k; induction l as [|i r IH]; intros k; cbn [desc_entries flat_map]; [reflexivity|]. now rewrite IH. Qed.

Lemma exp_chars_entries svcs sid cs : flat_map (exp_entry svcs) (flat_map (chr_entries sid) cs) = [].
Proof. apply flat_map_flat_map_nil. intros c. apply exp_desc_entries. Qed.

Lemma exp_svc_entries svcs s :
  find_svc (s_id s) svcs = Some s -> flat_map (exp_entry svcs) (svc_entries s) = [export_svc s].
Proof.
  intros Hf. unfold svc_entries. cbn [flat_map]. rewrite flat_map_app, exp_incl_entries, exp_chars_entries.
  unfold exp_entry. cbn [snd]. now rewrite Hf.
Qed.

(** the export lists the services of the profile, in order, whatever the order in which each
    service registered its entries ([ent]: [svc_entries], or [imp_entries] after an import) *)
Lemma export_of (ent : svc -> list (N * ref)) p :
  (forall svcs s, find_svc (s_id s) svcs = Some s -> flat_map (exp_entry svcs) (ent s) = [export_svc s]) ->
  p_db p = flat_map ent (p_svcs p) -> NoDup (all_ids (p_svcs p)) -> export p = map export_svc (p_svcs p).
Proof.
  intros Hent Hdb Hnd. rewrite export_unfold, Hdb. apply flat_map_flat_map_single.
  intros s Hs. now apply Hent, find_svc_in.
Qed.

Definition imp_chr (c : chr) : chr := import_chr (export_chr c).
Definition imp_svc (s : svc) : svc :=
  mkS 0 (s_primary s) (s_uuid s) (s_handle s) (s_end s) [] (map imp_chr (s_chars s)).

Lemma fold_max_nseq ds : forall e,
  map d_handle ds = Nseq (e + 1) (length ds) -> fold_left (fun e d => N.max (d_handle d) e) ds e = e + lenN ds.
Proof.
  induction ds as [|d r IH]; intros e; cbn [map length Nseq fold_left lenN]; [intros _; lia|].
  intros H. injection H as Hd Hr. rewrite Hd. replace (N.max (e + 1) e) with (e + 1) by lia.
  rewrite IH by exact Hr. lia.
Qed.

(** A re-imported characteristic is the exported one with a new identity, its security list
    normalised and the descriptor classes recomputed from the UUIDs: every handle is kept. *)
Lemma imp_chr_eq c :
  chr_spec (c_handle c) c ->
  imp_chr c = mkC 0 (c_handle c) (c_vhandle c) (c_end c) (c_uuid c) (c_props c)
                  (int_to_acc (acc_to_int (c_sec c))) (c_value c)
                  (map (fun d => import_desc (export_desc d)) (c_descs c)).
Proof.
  intros (_ & Hv & Hd & He). unfold imp_chr, import_chr, export_chr.
  cbn [jc_handle jc_props jc_sec jc_vhandle jc_uuid jc_data jc_descs]. rewrite map_map, <- Hv. f_equal.
  rewrite fold_max_nseq.
  - rewrite lenN_map. lia.
  - rewrite map_map, map_length. cbn [import_desc export_desc d_handle jd_handle].
    replace (c_vhandle c + 1) with (c_handle c + 2) by lia. exact Hd.
Qed.

Lemma export_imp_chr c : chr_spec (c_handle c) c -> export_chr (imp_chr c) = export_chr c.
Proof.
  intros H. rewrite (imp_chr_eq c H). unfold export_chr.
  cbn [c_handle c_props c_sec c_vhandle c_uuid c_value c_descs]. rewrite security_roundtrip, map_map. reflexivity.
Qed.

Lemma chars_spec_imp h cs : forall m, chars_spec h cs -> chars_spec h (number_chars m (map imp_chr cs)).
Proof.
  revert h; induction cs as [|c r IH]; intros h m; cbn [map number_chars chars_spec]; [trivial|].
  intros [Hc Hr]. pose proof Hc as (<- & _). rewrite (imp_chr_eq c Hc).
  cbn [c_handle c_vhandle c_end c_uuid c_props c_sec c_value c_descs]. split; [|apply IH, Hr].
  unfold chr_spec. cbn [c_handle c_vhandle c_end c_descs]. rewrite map_map, map_length, lenN_map. exact Hc.
Qed.

Lemma chars_size_imp cs : forall m, chars_size (number_chars m (map imp_chr cs)) = chars_size cs.
Proof.
  induction cs as [|c r IH]; intros m; cbn [map number_chars chars_size c_descs imp_chr import_chr export_chr jc_descs]; [reflexivity|].
  now rewrite IH, !lenN_map.
Qed.

Lemma chars_spec_facts h cs :
  chars_spec h cs ->
  Forall (fun c => h <= c_handle c /\ chr_spec (c_handle c) c /\ c_end c + 1 <= h + chars_size cs) cs.
Proof.
  revert h; induction cs as [|c r IH]; intros h; cbn [chars_spec chars_size]; [constructor|].
  intros [Hc Hr]. pose proof Hc as (H1 & H2 & H3 & H4). constructor.
  - rewrite H1. split; [lia|]. split; [exact Hc|lia].
  - eapply Forall_impl; [|apply IH, Hr]. cbn beta. intros x (Hx1 & Hx2 & Hx3). split; [lia|]. split; [exact Hx2|lia].
Qed.

Lemma export_number_chars n cs : map export_chr (number_chars n cs) = map export_chr cs.
Proof. revert n; induction cs as [|c r IH]; intros n; cbn [number_chars map]; [reflexivity|]. now rewrite IH. Qed.

Lemma imp_svc_sorted n s :
  svc_spec s ->
  ent_sorted svc_entries (number_svc n (imp_svc s)) /\ ent_sorted svc_cmap (number_svc n (imp_svc s)).
Proof.
  intros Hs. pose proof (svc_spec_end s Hs) as He. pose proof Hs as (_ & Hcs & _).
  pose proof (chars_spec_imp _ _ (n + 1) Hcs) as Hcs1.
  destruct (contig_sorted _ _ (chars_spec_contig n _ _ Hcs1)) as [J1 J2]. rewrite lenN_chars_entries, chars_size_imp in J2.
  destruct (chars_spec_cmap n _ _ Hcs1) as [K1 K2]. rewrite chars_size_imp in K2.
  unfold ent_sorted, svc_entries, svc_cmap, number_svc, imp_svc.
  cbn [s_handle s_end s_id s_incls s_chars incl_entries app]. split; (split; [lia|split]).
  - cbn [incr fst]. split; [lia|]. eapply incr_weaken; [exact J1|lia].
  - constructor; [cbn [fst]; lia|]. eapply all_lt_weaken; [exact J2|lia].
  - eapply incr_weaken; [exact K1|lia].
  - eapply all_lt_weaken; [exact K2|lia].
Qed.

Lemma export_imp_svc n s : svc_spec s -> export_svc (number_svc n (imp_svc s)) = export_svc s.
Proof.
  intros (_ & Hcs & _). pose proof (chars_spec_facts _ _ Hcs) as Hf. rewrite Forall_forall in Hf.
  unfold export_svc, number_svc, imp_svc, svc_type. cbn [s_uuid s_primary s_handle s_end s_chars]. f_equal.
  rewrite export_number_chars, map_map. apply map_ext_in. intros c Hc. apply export_imp_chr.
  now destruct (Hf _ Hc) as (_ & Hsp & _).
Qed.

Lemma add_chars_nonzero cs : forall s,
  Forall (fun c => c_handle c <> 0) cs ->
  fold_left svc_add_char cs s
  = mkS (s_id s) (s_primary s) (s_uuid s) (s_handle s)
        (fold_left (fun e c => N.max (c_end c) e) cs (s_end s)) (s_incls s) (s_chars s ++ cs).
Proof.
  induction cs as [|c r IH]; intros s H; cbn [fold_left].
  - rewrite app_nil_r. now destruct s.
  - inversion H as [|? ? Hc Hr]; subst. rewrite IH by exact Hr. unfold svc_add_char.
    rewrite (proj2 (N.eqb_neq _ _) Hc).
    cbn [s_id s_primary s_uuid s_handle s_end s_incls s_chars]. now rewrite <- app_assoc.
Qed.

Lemma fold_max_le cs e : Forall (fun c => c_end c <= e) cs -> fold_left (fun e c => N.max (c_end c) e) cs e = e.
Proof.
  induction cs as [|c r IH]; intros H; cbn [fold_left]; [reflexivity|]. inversion H; subst.
  replace (N.max (c_end c) e) with e by lia. now apply IH.
Qed.

Lemma import_step_ok q s :
  svc_spec s ->
  import_step (Done q) (export_svc s) = Done (add_service (pre_register q (imp_svc s)) (imp_svc s)).
Proof.
  intros Hs. pose proof (svc_spec_end s Hs) as He. pose proof Hs as (_ & Hcs & _).
  pose proof (chars_spec_facts _ _ Hcs) as Hf.
  unfold import_step, export_svc. cbn [js_type js_uuid js_start js_end js_chars].
  assert (E2 : uuid_eqb (svc_type s) (u16 0x2800) = s_primary s) by (unfold svc_type; now destruct (s_primary s)).
  assert (E3 : uuid_eqb (svc_type s) (u16 0x2800) || uuid_eqb (svc_type s) (u16 0x2801) = true)
    by (unfold svc_type; now destruct (s_primary s)).
  rewrite E3, E2. cbn [negb]. rewrite map_map. fold imp_chr.
  (* every characteristic comes with its handle (not 0), and none ends beyond the service *)
  replace (fold_left _ _ _) with (imp_svc s); [reflexivity|]. rewrite add_chars_nonzero.
  - cbn [s_id s_primary s_uuid s_handle s_end s_incls s_chars app]. unfold imp_svc. f_equal. symmetry.
    apply fold_max_le, Forall_map. eapply Forall_impl; [|exact Hf].
    intros c (_ & Hsp & Hle). rewrite (imp_chr_eq c Hsp). cbn [c_end]. lia.
  - apply Forall_map. eapply Forall_impl; [|exact Hf]. intros c (Hlo & _). change (c_handle c <> 0). lia.
Qed.

(** ** the dict of an imported profile: registration order of the from_json loop *)

Lemma imp_entries_perm s : s_incls s = [] -> Permutation (imp_entries s) (svc_entries s).
Proof.
  intros Hi. unfold imp_entries, svc_entries. rewrite Hi. cbn [incl_entries app].
  rewrite <- Permutation_cons_append. constructor.
  apply Permutation_flat_map_pointwise. intros c _. exact (Permutation_app_comm _ [_; _]).
Qed.

Definition imp_all (l : list svc) : list (N * ref) := flat_map imp_entries l.

Lemma imp_all_perm l : Forall (fun s => s_incls s = []) l -> Permutation (imp_all l) (all_entries l).
Proof.
  intros H. rewrite Forall_forall in H. apply Permutation_flat_map_pointwise. intros s Hs. now apply imp_entries_perm, H.
Qed.

(** invariant of a profile under construction by the JSON import *)
Record InvI (p : profile) : Prop := mkInvI {
  j_start : 1 <= p_start p;
  j_chain : gchain svc_entries (p_start p) (p_svcs p) (p_next p);
  j_cchain : gchain svc_cmap (p_start p) (p_svcs p) (p_next p);
  j_db : p_db p = imp_all (p_svcs p);
  j_cmap : p_cmap p = all_cmap (p_svcs p);
  j_noincl : Forall (fun s => s_incls s = []) (p_svcs p);
  j_ids : ids_ok (p_fresh p) (p_svcs p) }.

Lemma exp_imp_entries svcs s :
  find_svc (s_id s) svcs = Some s -> flat_map (exp_entry svcs) (imp_entries s) = [export_svc s].
Proof.
  intros Hf. unfold imp_entries. rewrite flat_map_app, flat_map_flat_map_nil.
  - cbn [flat_map app]. unfold exp_entry. cbn [snd]. now rewrite Hf.
  - intros c. now rewrite flat_map_app, exp_desc_entries.
Qed.

Lemma keys_all_dump l : map fst (flat_map svc_dump l) = map fst (all_entries l).
Proof.
  unfold all_entries. induction l as [|s r IH]; cbn [flat_map]; [reflexivity|]. now rewrite !map_app, keys_svc_dump, IH.
Qed.

(** an imported profile agrees with its layout, although its dict is not in ascending order *)
Lemma invi_agrees p : InvI p -> db_agrees p.
Proof.
  intros [Hst Hc Hcc Hdb Hcm Hni [Hnd Hlt]]. unfold db_agrees. split; [|split; [|split]].
  - unfold dump. fold (res (p_svcs p)). rewrite Hdb, <- (res_all_entries _ Hnd).
    apply Permutation_map, imp_all_perm, Hni.
  - rewrite keys_all_dump. eapply incr_ascending. apply (gchain_entries _ _ _ _ Hc).
  - rewrite (cmap_view_of _ Hnd Hcm). reflexivity.
  - rewrite Hcm. eapply incr_NoDup. apply (gchain_entries _ _ _ _ Hcc).
Qed.

Lemma import_add_invi q s :
  InvI q -> svc_spec s -> p_next q <= s_handle s ->
  let q' := add_service (pre_register q (imp_svc s)) (imp_svc s) in
  InvI q' /\ p_svcs q' = p_svcs q ++ [number_svc (p_fresh q) (imp_svc s)] /\ p_next q' = s_end s + 1.
Proof.
  intros [Hst Hc Hcc Hdb Hcm Hni Hid] Hsp Hn. cbv zeta.
  assert (Hnz : s_handle (imp_svc s) <> 0) by (pose proof (gchain_le _ _ _ _ Hc); cbn [imp_svc s_handle]; lia).
  destruct (imp_svc_sorted (p_fresh q) s Hsp) as [Hsort Hcsort].
  pose proof (ids_ok_add q (imp_svc s) Hid) as Hid'. rewrite (placed_nonzero _ _ Hnz) in Hid'.
  rewrite add_service_eq, (placed_nonzero _ _ Hnz). cbn [pre_register p_start p_next p_fresh p_svcs p_db p_cmap].
  set (s1 := number_svc (p_fresh q) (imp_svc s)) in *. split; [|split; reflexivity].
  assert (Hlt : all_lt (p_db q) (s_handle s1)).
  { rewrite Hdb. unfold all_lt. rewrite (imp_all_perm _ Hni).
    eapply all_lt_weaken; [apply (gchain_entries _ _ _ _ Hc)|exact Hn]. }
  constructor; cbn [p_start p_next p_fresh p_svcs p_db p_cmap].
  - exact Hst.
  - exact (gchain_snoc _ _ _ _ s1 Hc Hn Hsort).
  - exact (gchain_snoc _ _ _ _ s1 Hcc Hn Hcsort).
  - rewrite (db_set_all_twice _ (imp_entries s1)).
    + rewrite Hdb. apply eq_sym, flat_map_snoc.
    + now apply imp_entries_perm.
    + eapply incr_NoDup, Hsort.
    + exact (fresh_above _ _ _ (proj1 (proj2 Hsort)) Hlt).
  - rewrite Hcm. exact (register_snoc _ _ _ _ s1 Hcc Hn Hcsort).
  - apply Forall_app. split; [exact Hni|]. now constructor.
  - exact Hid'.
Qed.

Lemma import_fold l : forall q lo hi,
  InvI q -> p_next q <= lo -> gchain svc_entries lo l hi -> Forall svc_spec l ->
  exists q', fold_left import_step (map export_svc l) (Done q) = Done q' /\ InvI q'
             /\ map export_svc (p_svcs q') = map export_svc (p_svcs q) ++ map export_svc l.
Proof.
  induction l as [|s r IH]; intros q lo hi HW Hn Hc Hl; cbn [map fold_left].
  - exists q. split; [reflexivity|]. split; [exact HW|]. now rewrite app_nil_r.
  - cbn [gchain] in Hc. destruct Hc as (H1 & H2 & H3). apply Forall_cons_iff in Hl as [Hsp Hr].
    rewrite import_step_ok by exact Hsp.
    destruct (import_add_invi q s HW Hsp (N.le_trans _ _ _ Hn H1)) as (HW1 & Esv & Enx).
    destruct (IH _ (s_end s + 1) hi HW1) as (q' & E1 & E2 & E3); [rewrite Enx; apply N.le_refl|exact H3|exact Hr|].
    exists q'. split; [exact E1|]. split; [exact E2|]. rewrite E3, Esv, map_app. cbn [map].
    rewrite export_imp_svc by exact Hsp. now rewrite <- app_assoc.
Qed.

Lemma svc_in_domain s : 1 <= s_handle s -> svc_spec s -> jsvc_in_domain (export_svc s) = true.
Proof.
  intros H1 (_ & Hcs & _). pose proof (chars_spec_facts _ _ Hcs) as Hf. rewrite Forall_forall in Hf.
  unfold jsvc_in_domain, export_svc. cbn [js_start js_chars]. apply andb_true_iff. split.
  - apply negb_true_iff, N.eqb_neq. lia.
  - rewrite forallb_map. apply forallb_forall. intros c Hc. destruct (Hf _ Hc) as (Hlo & (_ & _ & Hd & _) & _).
    unfold jchar_in_domain, export_chr. cbn [jc_handle jc_descs]. apply andb_true_iff. split.
    + apply negb_true_iff, N.eqb_neq. lia.
    + rewrite forallb_map. apply forallb_forall. intros d Hd'. cbn [export_desc jd_handle].
      assert (Hin : In (d_handle d) (map d_handle (c_descs c))) by (now apply in_map).
      rewrite Hd in Hin. apply Nseq_In in Hin. apply negb_true_iff, N.eqb_neq. lia.
Qed.

Lemma empty_invi : InvI (empty_profile 1).
Proof.
  constructor; cbn [empty_profile p_start p_next p_fresh p_svcs p_db p_cmap gchain imp_all all_cmap flat_map].
  - lia.
  - lia.
  - lia.
  - reflexivity.
  - reflexivity.
  - constructor.
  - split; constructor.
Qed.

Lemma import_exported l lo hi :
  1 <= lo -> gchain svc_entries lo l hi -> Forall svc_spec l ->
  exists q, import (map export_svc l) = Done q /\ InvI q /\ map export_svc (p_svcs q) = map export_svc l.
Proof.
  intros Hlo Hc Hl. unfold import. replace (forallb jsvc_in_domain (map export_svc l)) with true.
  - exact (import_fold l (empty_profile 1) lo hi empty_invi Hlo Hc Hl).
  - symmetry. rewrite forallb_map. apply forallb_forall. intros s Hs. apply svc_in_domain.
    + pose proof (gchain_In _ _ _ _ _ Hc Hs). lia.
    + rewrite Forall_forall in Hl. now apply Hl.
Qed.

(** Exporting, importing and exporting again gives the same export; the imported profile
    agrees with its layout (all its lookups do), whatever its registration order. *)
Theorem import_export_id p :
  Inv p -> exists q, import (export p) = Done q /\ export q = export p /\ db_agrees q.
Proof.
  intros [[Hst Hc Hdb [Hnd _]] Hok _]. rewrite (export_of svc_entries p exp_svc_entries Hdb Hnd).
  destruct (import_exported _ _ _ Hst Hc (Forall_impl _ svc_ok_spec Hok)) as (q & E1 & E2 & E3).
  exists q. split; [exact E1|]. split; [|now apply invi_agrees].
  rewrite (export_of imp_entries q exp_imp_entries (j_db _ E2) (proj1 (j_ids _ E2))). exact E3.
Qed.
