(** C15 — proofs about the advertising-data model.  The list decoders are put in closed form
    over [chunks]; every record decoder is total ([decode_total]) and so is the TLV loop
    ([parser_total]); every class decodes the value it serialises ([decode_value]), the loop
    frames one record whatever its type ([parse_loop_frame]), hence [parse_serialise].
    For the device database: an event is handled in one of three ways ([handle_cases]), the
    timeout sweep has a closed form ([swept], [timeouts_spec], [on_device_found_spec]), and
    two invariants are carried along a scan ([dev_ok], [Inv]). *)
From Coq Require Import List NArith Arith Bool Lia ZifyBool.
From Whad Require Import Lib.Lists Lib.Bytes Lib.PyOps Lib.Utf8 C15.Model.
Import ListNotations.
Open Scope N_scope.

Lemma wf_bytes_slice a b l : wf_bytes l = true -> wf_bytes (slice a b l) = true.
Proof. intros H. unfold slice. apply wf_bytes_firstn, wf_bytes_skipn, H. Qed.

(** exposes the range of each byte of a literal byte string to [lia] *)
Ltac wfb H := unfold wf_bytes, wf_byte in H; cbn [forallb] in H.

Definition okerr {A} (o : outcome A) : Prop := (exists a, o = Ok a) \/ o = Raise AdvDataError.

Lemma okerr_ok {A} (a : A) : okerr (Ok a).
Proof. left; eauto. Qed.
Lemma okerr_err {A} : okerr (@Raise A AdvDataError).
Proof. right; reflexivity. Qed.

Lemma okerr_guard {A} (c : bool) (a : A) : okerr (if c then Ok a else Raise AdvDataError).
Proof. destruct c; [apply okerr_ok|apply okerr_err]. Qed.

Lemma okerr_bind {A B} (o : outcome A) (f : A -> outcome B) :
  okerr o -> (forall a, okerr (f a)) -> okerr (bind o f).
Proof. intros [[a ->]| ->] Hf; cbn [bind]; [apply Hf | apply okerr_err]. Qed.

Lemma guard_Ok_inv {A} (c : bool) (a r : A) e : (if c then Ok a else Raise e) = Ok r -> c = true /\ a = r.
Proof. destruct c; [intros [= <-]; auto|discriminate]. Qed.

Lemma bind_Ok_inv {A B} (o : outcome A) (f : A -> outcome B) b :
  bind o f = Ok b -> exists a, o = Ok a /\ f a = Ok b.
Proof. destruct o as [a|e]; [exists a; auto|discriminate]. Qed.

Lemma mapM_ok {A B} (f : A -> outcome B) (P : B -> Prop) l :
  (forall x, In x l -> exists y, f x = Ok y /\ P y) ->
  exists ys, mapM f l = Ok ys /\ Forall P ys.
Proof.
  induction l as [|x l IH]; intros H; cbn [mapM].
  - exists []. split; [reflexivity|constructor].
  - destruct (H x (or_introl eq_refl)) as (y & Hy & Py). rewrite Hy. cbn [bind].
    destruct IH as (ys & Hys & Pys); [intros z Hz; apply H; right; exact Hz|].
    rewrite Hys. cbn [bind]. exists (y :: ys). split; [reflexivity|constructor; assumption].
Qed.

Lemma mapM_map {A B C} (g : B -> outcome C) (h : A -> B) l :
  mapM (fun i => g (h i)) l = mapM g (map h l).
Proof. induction l as [|x l IH]; cbn [mapM map]; [reflexivity|rewrite IH; reflexivity]. Qed.

Lemma mapM_all_ok {A B} (f : A -> outcome B) (g : A -> B) l :
  (forall x, In x l -> f x = Ok (g x)) -> mapM f l = Ok (map g l).
Proof.
  induction l as [|x l IH]; intros H; cbn [mapM map]; [reflexivity|].
  rewrite (H x (or_introl eq_refl)). cbn [bind]. rewrite IH; [reflexivity|].
  intros z Hz. apply H. right. exact Hz.
Qed.

Lemma uuid_of_bytes_2 p : length p = 2%nat -> uuid_of_bytes p = Ok (Build_uuid p 1).
Proof. destruct p as [|a [|b [|c p]]]; intros H; try discriminate H. reflexivity. Qed.

Lemma uuid_of_bytes_16 p : length p = 16%nat -> uuid_of_bytes p = Ok (Build_uuid p 2).
Proof. intros H. unfold uuid_of_bytes. rewrite H. reflexivity. Qed.

Lemma bdaddr_6 p : length p = 6%nat -> bdaddr_from_bytes p = Ok p.
Proof. intros H. unfold bdaddr_from_bytes. rewrite H. reflexivity. Qed.

Lemma pack_H_ok n : n < 65536 -> pack_H n = Ok (le16 n).
Proof. intros H. unfold pack_H. apply N.ltb_lt in H. rewrite H. reflexivity. Qed.

Lemma uuid_of_int_16 n : n < 65536 -> uuid_of_int n = Ok (Build_uuid (le16 n) 1).
Proof.
  intros H. unfold uuid_of_int. rewrite pack_H_ok by exact H.
  destruct (N.leb_spec n 65536); [reflexivity|lia].
Qed.

Lemma mk_connrange_ok a b : a < 65536 -> b < 65536 -> mk_connrange a b = Ok (ConnRange a b).
Proof. intros Ha Hb. unfold mk_connrange. rewrite !pack_H_ok by assumption. reflexivity. Qed.

Lemma le16_sum n : n mod 256 + 256 * (n / 256) = n.
Proof. symmetry. rewrite N.add_comm. apply N.div_mod. discriminate. Qed.

Lemma le16_unpack n : unpack_H (le16 n) = Ok n.
Proof. unfold le16, unpack_H. rewrite le16_sum. reflexivity. Qed.

(** [le16_sum] one byte further up: [w] is the weight of that byte, [w' = 256 w]. *)
Lemma byte_at n w w' : w <> 0 -> w' = w * 256 ->
  w * ((n / w) mod 256) + w' * (n / w') = w * (n / w).
Proof.
  intros Hw ->. rewrite <- N.div_div by (exact Hw || discriminate).
  rewrite <- N.mul_assoc, <- N.mul_add_distr_l, le16_sum. reflexivity.
Qed.

Lemma le24_sum n : n < 16777216 ->
  n mod 256 + 256 * ((n / 256) mod 256) + 65536 * ((n / 65536) mod 256) = n.
Proof.
  intros H. rewrite (N.mod_small (n / 65536)) by (apply N.div_lt_upper_bound; [discriminate|exact H]).
  rewrite <- N.add_assoc, (byte_at n 256 65536) by (discriminate || reflexivity). apply le16_sum.
Qed.

Lemma le16_bytes x y : x < 256 -> le16 (x + 256 * y) = [x; y].
Proof.
  intros H. unfold le16.
  rewrite (N.mul_comm 256), N.mod_add, N.div_add, N.mod_small, N.div_small by (exact H || discriminate).
  reflexivity.
Qed.

Fixpoint bits_le (l : list bool) : N := match l with [] => 0 | b :: r => b2n b + 2 * bits_le r end.

Lemma testbit_bits_le l : forall k, N.testbit (bits_le l) k = nth (N.to_nat k) l false.
Proof.
  induction l as [|b l IH]; intros k; cbn [bits_le].
  - rewrite N.bits_0. destruct (N.to_nat k); reflexivity.
  - change (b2n b) with (N.b2n b). induction k as [|k _] using N.peano_ind.
    + apply N.add_b2n_double_bit0.
    + rewrite N.add_comm, N.testbit_succ_r, Nnat.N2Nat.inj_succ. apply IH.
Qed.

(** the [int(len/k)] slices the list decoders take: an incomplete last piece is dropped *)
Definition chunks (k : nat) (p : bytes) : list bytes :=
  map (fun i => slice (i * k) ((i + 1) * k) p) (seq 0 (length p / k)).

Lemma chunk_length k (p : bytes) i :
  (i < length p / k)%nat -> length (slice (i * k) ((i + 1) * k) p) = k.
Proof.
  intros Hi. rewrite slice_length.
  assert (H : ((i + 1) * k <= length p)%nat).
  { destruct k as [|k]; [cbn in Hi; lia|].
    apply (Nat.le_trans _ (S k * (length p / S k))); [|apply Nat.mul_div_le; discriminate].
    rewrite Nat.mul_comm, Nat.add_1_r. apply Nat.mul_le_mono_l, Hi. }
  clear Hi. lia.
Qed.

Lemma chunks_aux k (us : list bytes) :
  Forall (fun u => length u = k) us -> forall pre a, length pre = (a * k)%nat ->
  map (fun i => slice (i * k) ((i + 1) * k) (pre ++ concat us)) (seq a (length us)) = us.
Proof.
  induction 1 as [|u us Hu _ IH]; intros pre a Hp; [reflexivity|].
  cbn [length seq map concat]. f_equal.
  - unfold slice. replace ((a + 1) * k - a * k)%nat with k by nia.
    rewrite skipn_app_exact by lia. apply firstn_app_exact. lia.
  - rewrite app_assoc. apply IH. rewrite app_length. lia.
Qed.

Lemma chunks_concat k (us : list bytes) :
  (0 < k)%nat -> Forall (fun u => length u = k) us -> chunks k (concat us) = us.
Proof.
  intros Hk H. unfold chunks. rewrite (concat_length_const k us H), Nat.div_mul by lia.
  apply (chunks_aux k us H [] 0). reflexivity.
Qed.

Lemma len_is_spec k b : len_is k b = true -> length b = k /\ wf_bytes b = true.
Proof. unfold len_is. intros H. apply andb_true_iff in H as [L W]. apply Nat.eqb_eq in L. auto. Qed.

Lemma forallb_len_is k us : forallb (len_is k) us = true -> Forall (fun u => length u = k) us.
Proof.
  intros H. apply Forall_forall. intros u Hu. rewrite forallb_forall in H. apply (len_is_spec k u), H, Hu.
Qed.

Lemma decode_uuid_list_chunks k ty (p : bytes) :
  (forall q, length q = k -> uuid_of_bytes q = Ok (Build_uuid q ty)) ->
  decode_uuid_list k p = Ok (map (fun q => Build_uuid q ty) (chunks k p)).
Proof.
  intros Hu. unfold decode_uuid_list, chunks. rewrite map_map. apply mapM_all_ok.
  intros i Hi. apply in_seq in Hi. apply Hu, chunk_length. lia.
Qed.

Lemma map_packed_mk ty (us : list bytes) : map packed (map (fun q => Build_uuid q ty) us) = us.
Proof. rewrite map_map. cbn [packed]. apply map_id. Qed.

Lemma forallb_uty_mk ty (us : list bytes) :
  forallb (fun u => uty u =? ty) (map (fun q => Build_uuid q ty) us) = true.
Proof. apply forallb_forall. intros u Hu. apply in_map_iff in Hu as (x & <- & _). apply N.eqb_refl. Qed.

Lemma decode_uuid16s_chunks c p : decode_uuid16s c p = Ok (Uuid16s c (chunks 2 p)).
Proof.
  unfold decode_uuid16s. rewrite (decode_uuid_list_chunks 2 1 p uuid_of_bytes_2).
  cbn [bind]. unfold mk_uuid16s. rewrite forallb_uty_mk, map_packed_mk. reflexivity.
Qed.

Lemma decode_uuid128s_chunks c p : decode_uuid128s c p = Ok (Uuid128s c (chunks 16 p)).
Proof.
  unfold decode_uuid128s. rewrite (decode_uuid_list_chunks 16 2 p uuid_of_bytes_16).
  cbn [bind]. unfold mk_uuid128s. rewrite forallb_uty_mk, map_packed_mk. reflexivity.
Qed.

Lemma decode_target_chunks mk p :
  decode_target mk p
  = if (0 <? length p)%nat && (length p mod 6 =? 0)%nat then Ok (mk (chunks 6 p)) else Raise AdvDataError.
Proof.
  unfold decode_target. destruct (_ && _); [|reflexivity].
  rewrite (mapM_all_ok _ (fun i => slice (i * 6) ((i + 1) * 6) p)); [reflexivity|].
  intros i Hi. apply in_seq in Hi. rewrite (Nat.mul_comm 6 i), (Nat.mul_comm 6 (i + 1)).
  apply bdaddr_6, chunk_length. lia.
Qed.

Section Total.
Variable urlnorm : text -> url_result.

Lemma decode_uuid16s_total c p : okerr (decode_uuid16s c p).
Proof. rewrite decode_uuid16s_chunks. apply okerr_ok. Qed.

Lemma decode_uuid128s_total c p : okerr (decode_uuid128s c p).
Proof. rewrite decode_uuid128s_chunks. apply okerr_ok. Qed.

Lemma decode_target_total mk p : okerr (decode_target mk p).
Proof. rewrite decode_target_chunks. apply okerr_guard. Qed.

(* The fixed-size decoders: the length guard leaves a payload of known shape, on which
   every [struct.unpack] / index succeeds. *)

Lemma decode_flags_total p : okerr (decode_flags p).
Proof.
  unfold decode_flags. destruct p as [|a [|b p]]; cbn [length Nat.eqb]; try apply okerr_err.
  cbn [index nth_error bind]. apply okerr_ok.
Qed.

Lemma decode_txpower_total p : okerr (decode_txpower p).
Proof.
  unfold decode_txpower. destruct p as [|a p]; cbn [length Nat.leb]; [apply okerr_err|].
  cbn [index nth_error bind]. apply okerr_ok.
Qed.

Lemma decode_manuf_total p : okerr (decode_manuf p).
Proof.
  unfold decode_manuf. destruct p as [|a [|b p]]; cbn [length Nat.leb]; try apply okerr_err.
  cbn [slice Nat.sub skipn firstn unpack_H bind]. apply okerr_ok.
Qed.

Lemma decode_connrange_total p : wf_bytes p = true -> okerr (decode_connrange p).
Proof.
  intros W. unfold decode_connrange.
  destruct p as [|a [|b [|c [|d [|e p]]]]]; cbn [length Nat.eqb]; try apply okerr_err.
  cbn [unpack_HH bind fst snd]. wfb W. rewrite mk_connrange_ok by lia. apply okerr_ok.
Qed.

Lemma decode_svcdata16_total p : wf_bytes p = true -> okerr (decode_svcdata16 p).
Proof.
  intros W. unfold decode_svcdata16.
  destruct p as [|a [|b p]]; cbn [length Nat.leb]; try apply okerr_err.
  cbn [slice Nat.sub skipn firstn unpack_H bind]. wfb W. rewrite uuid_of_int_16 by lia.
  apply okerr_ok.
Qed.

Lemma decode_appearance_total p : okerr (decode_appearance p).
Proof.
  unfold decode_appearance. destruct p as [|a [|b [|c p]]]; cbn [length Nat.eqb]; try apply okerr_err.
  cbn [unpack_H bind]. apply okerr_guard.
Qed.

Lemma decode_advinterval_total p : okerr (decode_advinterval p).
Proof.
  unfold decode_advinterval.
  destruct p as [|a [|b [|c [|d [|e p]]]]]; cbn [length Nat.eqb]; try apply okerr_err;
    cbn [unpack_H unpack_I index nth_error bind]; apply okerr_guard.
Qed.

Lemma decode_devaddr_total p : okerr (decode_devaddr p).
Proof.
  unfold decode_devaddr.
  destruct p as [|a0 [|a1 [|a2 [|a3 [|a4 [|a5 [|a6 [|a7 p]]]]]]]]; cbn [length Nat.eqb]; try apply okerr_err.
  cbn [index nth_error bind slice Nat.sub skipn firstn]. rewrite bdaddr_6 by reflexivity.
  apply okerr_ok.
Qed.

Lemma decode_lerole_total p : okerr (decode_lerole p).
Proof.
  unfold decode_lerole. destruct p as [|a [|b p]]; cbn [length Nat.eqb]; try apply okerr_err.
  cbn [index nth_error bind]. apply okerr_guard.
Qed.

Lemma decode_svcdata128_total p : okerr (decode_svcdata128 p).
Proof.
  unfold decode_svcdata128. destruct (16 <=? length p)%nat eqn:E; [|apply okerr_err].
  apply Nat.leb_le in E.
  rewrite uuid_of_bytes_16 by (rewrite slice_length; lia).
  apply okerr_ok.
Qed.

Lemma decode_lefeatures_total p : okerr (decode_lefeatures p).
Proof. apply okerr_guard. Qed.

(** Whatever urllib answers: [mk_uri] raises nothing but ValueError subclasses and
    AdvDataError, and the repaired decoder catches the former. *)
Lemma mk_uri_caught url : okerr (catch_as_adv is_value_error (mk_uri urlnorm url)).
Proof.
  unfold mk_uri. destruct (urlnorm url) as [|sname uri]; [apply okerr_err|].
  destruct (match sname with [] => None | _ :: _ => scheme_of_name sname end) as [s|]; [|apply okerr_err].
  unfold encode_utf8.
  destruct (utf8_encode [scheme_code s]); cbn [bind catch_as_adv is_value_error]; [|apply okerr_err].
  destruct (utf8_encode uri); cbn [bind catch_as_adv is_value_error]; [apply okerr_ok|apply okerr_err].
Qed.

Lemma decode_uri_total p : okerr (decode_uri urlnorm p).
Proof.
  unfold decode_uri. destruct p as [|b0 r]; cbn [length Nat.leb]; [apply okerr_err|].
  apply okerr_bind.
  - unfold decode_utf8.
    destruct (utf8_decode (b0 :: r)) as [t|] eqn:E; cbn [bind catch_as_adv is_unicode_decode_error];
      [|apply okerr_err].
    (* a non-empty byte string decodes to a non-empty text, whose first code point is
       valid and therefore encodable *)
    destruct t as [|c t]; [exfalso; exact (utf8_decode_nonempty _ _ E)|].
    cbn [bind].
    pose proof (utf8_decode_valid _ _ E) as V. cbn [valid_text forallb] in V.
    apply andb_true_iff in V as [Vc _]. apply utf8_enc1_valid in Vc as [a Ha].
    unfold encode_utf8. cbn [utf8_encode]. rewrite Ha. cbn [bind].
    destruct (utf8_decode (skipn (length (a ++ [])) (b0 :: r)));
      cbn [bind catch_as_adv is_unicode_decode_error]; [apply okerr_ok|apply okerr_err].
  - intros sd. destruct (scheme_of_code (fst sd)); apply mk_uri_caught.
Qed.

Lemma decode_total t p : wf_bytes p = true ->
  match decode urlnorm t p with Some o => okerr o | None => True end.
Proof.
  intros W. unfold decode.
  (* by cases on the type byte, down to the 22 handled values *)
  repeat match goal with
  | |- match (match ?x with _ => _ end) with _ => _ end => destruct x
  end;
  first [ exact I | apply okerr_ok
        | apply decode_flags_total | apply decode_uuid16s_total | apply decode_uuid128s_total
        | apply decode_txpower_total | apply decode_manuf_total
        | apply decode_connrange_total; exact W | apply decode_svcdata16_total; exact W
        | apply decode_target_total | apply decode_appearance_total | apply decode_advinterval_total
        | apply decode_devaddr_total | apply decode_lerole_total | apply decode_svcdata128_total
        | apply decode_lefeatures_total | apply decode_uri_total ].
Qed.

Lemma parse_loop_total f : forall data,
  wf_bytes data = true -> (length data <= f)%nat -> okerr (parse_loop urlnorm f data).
Proof.
  induction f as [|f IH]; intros data W Hl.
  - destruct data; [apply okerr_ok|cbn [length] in Hl; lia].
  - cbn [parse_loop]. destruct (length data <? 2)%nat eqn:E; [apply okerr_ok|].
    apply Nat.ltb_ge in E. destruct data as [|l [|t data]]; cbn [length] in E; try lia.
    cbn [slice Nat.sub skipn firstn unpack_BB bind fst snd].
    destruct (N.to_nat l <=? length data + 1)%nat eqn:E2; [|apply okerr_err].
    (* the rest is shorter than the data by at least one byte, also for a zero length byte *)
    assert (Wr : wf_bytes (skipn (N.to_nat l + 1) (l :: t :: data)) = true)
      by apply wf_bytes_skipn, W.
    assert (Lr : (length (skipn (N.to_nat l + 1) (l :: t :: data)) <= f)%nat).
    { rewrite skipn_length. cbn [length] in *. lia. }
    pose proof (decode_total t _ (wf_bytes_slice 2 (N.to_nat l + 1) _ W)) as D.
    destruct (decode urlnorm t _) as [o|].
    + apply okerr_bind; [exact D|]. intros r. apply okerr_bind; [apply IH; assumption|].
      intros l0. apply okerr_ok.
    + apply IH; assumption.
Qed.

Lemma parser_total data : wf_bytes data = true ->
  ((length data <= 31)%nat -> okerr (from_bytes urlnorm data))
  /\ ((31 < length data)%nat -> from_bytes urlnorm data = Raise AdvDataFieldListOverflow).
Proof.
  intros W. unfold from_bytes. split; intros H.
  - apply Nat.ltb_ge in H. rewrite H. apply parse_loop_total; [exact W|apply le_n].
  - apply Nat.ltb_lt in H. rewrite H. reflexivity.
Qed.

Lemma parse_loop_fuel_enough data :
  wf_bytes data = true -> parse_loop urlnorm (length data) data <> Raise OutOfFuel.
Proof.
  intros W. destruct (parse_loop_total (length data) data W (le_n _)) as [[l ->]| ->]; discriminate.
Qed.

End Total.

Lemma rec_bytes_length r : length (rec_bytes r) = (2 + length (value r))%nat.
Proof. reflexivity. Qed.

Lemma concat_rec_bytes_length l : length (concat (map rec_bytes l)) = total_len l.
Proof.
  induction l as [|r l IH]; [reflexivity|].
  cbn [map concat]. rewrite app_length, rec_bytes_length, IH. reflexivity.
Qed.

Lemma total_len_cons r l : total_len (r :: l) = (2 + length (value r) + total_len l)%nat.
Proof. reflexivity. Qed.

(** The hypothesis on [l]: records that [AdvDataField.to_bytes] can pack at all. *)
Lemma to_bytes_loop_spec l : forall out,
  Forall (fun r => (length (value r) + 1 < 256)%nat) l -> (length out <= 31)%nat ->
  to_bytes_loop out l
  = if (length out + total_len l <=? 31)%nat then Ok (out ++ concat (map rec_bytes l))
    else Raise AdvDataFieldListOverflow.
Proof.
  induction l as [|r l IH]; intros out Hs Ho.
  - cbn [to_bytes_loop map concat]. rewrite app_nil_r.
    destruct (Nat.leb_spec (length out + total_len []) 31) as [_|H]; [reflexivity|cbn in H; lia].
  - inversion Hs as [|? ? Hr Hl]; subst. rewrite total_len_cons.
    cbn [to_bytes_loop]. unfold rec_to_bytes. apply Nat.ltb_lt in Hr. rewrite Hr.
    cbn [bind]. rewrite rec_bytes_length.
    destruct (Nat.leb_spec (length out + (2 + length (value r))) 31) as [E|E].
    + rewrite IH by (rewrite ?app_length, ?rec_bytes_length; assumption || lia).
      rewrite app_length, rec_bytes_length, <- (Nat.add_assoc (length out)). cbn [map concat].
      rewrite app_assoc. reflexivity.
    + destruct (Nat.leb_spec (length out + (2 + length (value r) + total_len l)) 31); [lia|reflexivity].
Qed.

Lemma to_bytes_spec l :
  Forall (fun r => (length (value r) + 1 < 256)%nat) l ->
  to_bytes l = if (total_len l <=? 31)%nat then Ok (concat (map rec_bytes l))
               else Raise AdvDataFieldListOverflow.
Proof. intros Hs. apply (to_bytes_loop_spec l [] Hs), Nat.le_0_l. Qed.

Lemma fits_packable l : fits31 l -> Forall (fun r => (length (value r) + 1 < 256)%nat) l.
Proof.
  unfold fits31. induction l as [|r l IH]; [constructor|]. rewrite total_len_cons. intros H.
  constructor; [lia|apply IH; lia].
Qed.

Lemma decode_uuid16s_concat c us :
  forallb (len_is 2) us = true -> decode_uuid16s c (concat us) = Ok (Uuid16s c us).
Proof.
  intros W. rewrite decode_uuid16s_chunks, chunks_concat; [reflexivity|lia|apply forallb_len_is, W].
Qed.

Lemma decode_uuid128s_concat c us :
  forallb (len_is 16) us = true -> decode_uuid128s c (concat us) = Ok (Uuid128s c us).
Proof.
  intros W. rewrite decode_uuid128s_chunks, chunks_concat; [reflexivity|lia|apply forallb_len_is, W].
Qed.

Lemma decode_target_concat mk addrs :
  nonempty addrs && forallb (len_is 6) addrs = true -> decode_target mk (concat addrs) = Ok (mk addrs).
Proof.
  intros W. apply andb_true_iff in W as [Wn W]. pose proof (forallb_len_is _ _ W) as F.
  rewrite decode_target_chunks, chunks_concat, (concat_length_const 6 addrs F) by (lia || exact F).
  destruct addrs; [discriminate|]. rewrite Nat.mod_mul by lia. reflexivity.
Qed.

(** [value] picks the shortest of the 2-, 3- and 4-byte forms that holds [i]; the decoder
    tells them apart by their length. *)
Lemma decode_advinterval_value i :
  i < 4294967296 -> decode_advinterval (value (AdvInterval i)) = Ok (AdvInterval i).
Proof.
  intros W. cbn [value]. unfold decode_advinterval, mk_advinterval.
  assert (E : (i <=? 4294967295) = true) by lia.
  destruct (N.leb_spec i 65535); [|destruct (N.leb_spec i 16777215)].
  - cbn [le16 length Nat.eqb unpack_H bind]. rewrite le16_sum, E. reflexivity.
  - cbn [le24 length Nat.eqb index nth_error bind]. rewrite le24_sum, E by lia. reflexivity.
  - cbn [le32 length Nat.eqb unpack_I bind]. rewrite le32_value, E by lia. reflexivity.
Qed.

Section RoundTrip.
Variable urlnorm : text -> url_result.

Lemma scheme_enc s : utf8_enc1 (scheme_code s) = Some [scheme_code s].
Proof. destruct s; reflexivity. Qed.
Lemma scheme_of_code_code s : scheme_of_code (scheme_code s) = Some s.
Proof. destruct s; reflexivity. Qed.
Lemma scheme_of_name_name s :
  match scheme_name s with [] => None | _ :: _ => scheme_of_name (scheme_name s) end = Some s.
Proof. destruct s; reflexivity. Qed.

Lemma url_result_eqb_eq a b : url_result_eqb a b = true -> a = b.
Proof.
  destruct a as [|s u], b as [|s' u']; cbn [url_result_eqb]; intros H; try discriminate; [reflexivity|].
  apply andb_true_iff in H as [H1 H2]. apply bytes_eqb_eq in H1, H2. congruence.
Qed.

(** Scheme code point and URI text survive UTF-8, and the decoder hands urllib the
    "scheme:uri" the record was built from. *)
Lemma decode_uri_value s u :
  valid_text u = true -> urlnorm (scheme_name s ++ 58 :: u) = UrlOk (scheme_name s) u ->
  decode_uri urlnorm (value (Uri s u)) = Ok (Uri s u).
Proof.
  intros V U. apply utf8_encode_valid in V as [bu Hbu].
  cbn [value]. rewrite scheme_enc, Hbu. cbn [opt_bytes app]. unfold decode_uri.
  cbn [length Nat.leb]. unfold decode_utf8 at 1.
  change (scheme_code s :: bu) with ([scheme_code s] ++ bu).
  rewrite (utf8_decode_enc1 _ _ bu (scheme_enc s)), (utf8_decode_encode _ _ Hbu).
  cbn [option_map bind]. unfold encode_utf8 at 1. cbn [utf8_encode]. rewrite scheme_enc.
  cbn [app length skipn bind]. unfold decode_utf8. rewrite (utf8_decode_encode _ _ Hbu).
  cbn [bind catch_as_adv fst snd]. rewrite scheme_of_code_code.
  unfold mk_uri. rewrite U, scheme_of_name_name.
  unfold encode_utf8. cbn [utf8_encode]. rewrite scheme_enc, Hbu. reflexivity.
Qed.

Lemma decode_value r : wf_rec urlnorm r = true -> decode urlnorm (tag r) (value r) = Some (Ok r).
Proof.
  intros W.
  destruct r as [l g b e | c us | c us | n | n | v | co d | mn mx | u d | ads | ads | a | i | ad pub
                 | ro | u d | s u | f0 f1 f2 f3 f4 f5 f6 f7];
    cbn [wf_rec] in W.
  all: cbn [tag value decode].
  - replace (b2n l + 2 * b2n g + 4 * b2n b + 8 * b2n e) with (bits_le [l; g; b; e]) by (cbn [bits_le]; lia).
    unfold decode_flags. cbn [length Nat.eqb index nth_error bind]. rewrite !testbit_bits_le. reflexivity.
  - destruct c; exact (f_equal Some (decode_uuid16s_concat _ us W)).
  - destruct c; exact (f_equal Some (decode_uuid128s_concat _ us W)).
  - reflexivity.
  - reflexivity.
  - unfold decode_txpower. cbn [length Nat.leb index nth_error bind].
    unfold mk_txpower. rewrite N.mod_small by lia. reflexivity.
  - apply andb_true_iff in W as [Wc _]. rewrite N.mod_small by lia. unfold decode_manuf.
    cbn [le16 app length Nat.leb slice Nat.sub skipn firstn unpack_H bind].
    rewrite le16_sum. reflexivity.
  - unfold decode_connrange. cbn [le16 app length Nat.eqb unpack_HH bind fst snd].
    rewrite !le16_sum, mk_connrange_ok by lia. reflexivity.
  - apply andb_true_iff in W as [Wu _]. apply len_is_spec in Wu as [L Wu].
    destruct u as [|x [|y [|z u]]]; try discriminate L. wfb Wu. unfold decode_svcdata16.
    cbn [app length Nat.leb slice Nat.sub skipn firstn unpack_H bind].
    rewrite uuid_of_int_16 by lia. cbn [bind packed]. rewrite le16_bytes by lia. reflexivity.
  - exact (f_equal Some (decode_target_concat PublicTarget ads W)).
  - exact (f_equal Some (decode_target_concat RandomTarget ads W)).
  - unfold decode_appearance. cbn [le16 length Nat.eqb unpack_H bind]. rewrite le16_sum.
    unfold mk_appearance. destruct (N.leb_spec a 65535); [reflexivity|lia].
  - apply f_equal, decode_advinterval_value. lia.
  - apply len_is_spec in W as [L _].
    destruct ad as [|a0 [|a1 [|a2 [|a3 [|a4 [|a5 [|a6 ad]]]]]]]; try discriminate L.
    unfold decode_devaddr. cbn [app length Nat.eqb index nth_error bind slice Nat.sub skipn firstn].
    rewrite bdaddr_6 by reflexivity. cbn [bind]. destruct pub; reflexivity.
  - unfold decode_lerole. cbn [length Nat.eqb index nth_error bind]. unfold mk_lerole. rewrite W. reflexivity.
  - apply andb_true_iff in W as [Wu _]. apply len_is_spec in Wu as [L _]. unfold decode_svcdata128.
    assert (E : (16 <=? length (u ++ d))%nat = true) by (apply Nat.leb_le; rewrite app_length; lia).
    rewrite E. change (slice 0 16 (u ++ d)) with (firstn 16 (u ++ d)).
    rewrite firstn_app_exact, skipn_app_exact, uuid_of_bytes_16 by lia. reflexivity.
  - apply andb_true_iff in W as [V U]. apply url_result_eqb_eq in U.
    apply f_equal, decode_uri_value; assumption.
  - unfold decode_lefeatures. cbn [length Nat.leb le_int]. rewrite N.mul_0_r, N.add_0_r.
    replace (b2n f0 + 2 * b2n f1 + 4 * b2n f2 + 8 * b2n f3 + 16 * b2n f4 + 32 * b2n f5 + 64 * b2n f6 + 128 * b2n f7)
      with (bits_le [f0; f1; f2; f3; f4; f5; f6; f7]) by (cbn [bits_le]; lia).
    rewrite !testbit_bits_le. reflexivity.
Qed.

Lemma parse_loop_frame f t (payload rest : bytes) :
  parse_loop urlnorm (S f) (N.of_nat (length payload + 1) :: t :: payload ++ rest)
  = match decode urlnorm t payload with
    | Some o => r <- o ;; l <- parse_loop urlnorm f rest ;; Ok (r :: l)
    | None => parse_loop urlnorm f rest
    end.
Proof.
  cbn [parse_loop length Nat.ltb Nat.leb].
  cbn [slice Nat.sub skipn firstn unpack_BB bind fst snd].
  rewrite Nnat.Nat2N.id.
  assert (E : (length payload + 1 <=? length (payload ++ rest) + 1)%nat = true)
    by (apply Nat.leb_le; rewrite app_length; lia).
  rewrite E. unfold slice.
  replace (length payload + 1 + 1 - 2)%nat with (length payload) by lia.
  replace (length payload + 1 + 1)%nat with (S (S (length payload))) by lia.
  cbn [skipn]. rewrite firstn_app_exact, skipn_app_exact by reflexivity. reflexivity.
Qed.

Lemma parse_loop_concat l : forall f,
  forallb (wf_rec urlnorm) l = true -> (length (concat (map rec_bytes l)) <= f)%nat ->
  parse_loop urlnorm f (concat (map rec_bytes l)) = Ok l.
Proof.
  induction l as [|r l IH]; intros f W Hl.
  - cbn [map concat]. destruct f; reflexivity.
  - cbn [forallb] in W. apply andb_true_iff in W as [Wr Wl].
    cbn [map concat] in *. rewrite app_length, rec_bytes_length in Hl.
    destruct f as [|f]; [lia|]. unfold rec_bytes at 1. cbn [app].
    rewrite parse_loop_frame, (decode_value r Wr), (IH f Wl ltac:(lia)). reflexivity.
Qed.

Lemma from_bytes_concat l :
  forallb (wf_rec urlnorm) l = true -> fits31 l -> from_bytes urlnorm (concat (map rec_bytes l)) = Ok l.
Proof.
  intros W F. unfold from_bytes. rewrite concat_rec_bytes_length.
  apply Nat.ltb_ge in F. rewrite F. apply parse_loop_concat; [exact W|rewrite concat_rec_bytes_length; apply le_n].
Qed.

Lemma parse_serialise l :
  forallb (wf_rec urlnorm) l = true -> fits31 l ->
  exists b, to_bytes l = Ok b /\ (length b <= 31)%nat /\ from_bytes urlnorm b = Ok l.
Proof.
  intros W F. exists (concat (map rec_bytes l)). split; [|split].
  - rewrite to_bytes_spec by apply fits_packable, F. apply Nat.leb_le in F. rewrite F. reflexivity.
  - rewrite concat_rec_bytes_length. exact F.
  - apply from_bytes_concat; assumption.
Qed.

End RoundTrip.

(** The value of a UUID-list or target-address record with well-formed items is a byte string. *)
Lemma wf_concat (us : list bytes) k : forallb (len_is k) us = true -> wf_bytes (concat us) = true.
Proof.
  induction us as [|u us IH]; cbn [forallb concat]; [reflexivity|]. intros H.
  apply andb_true_iff in H as [Hu H]. apply len_is_spec in Hu as [_ Hu].
  rewrite wf_bytes_app, Hu, IH by exact H. reflexivity.
Qed.

Lemma scheme_of_name_sound n s : scheme_of_name n = Some s -> scheme_name s = n.
Proof.
  unfold scheme_of_name. intros H. apply find_some in H as [_ H]. apply bytes_eqb_eq in H. exact H.
Qed.

Lemma uuid_ok_16 u : uuid_ok u = true -> uty u =? 1 = true -> len_is 2 (packed u) = true.
Proof.
  unfold uuid_ok. intros H T. apply N.eqb_eq in T. rewrite T in H. cbn [N.eqb Pos.eqb andb orb] in H.
  rewrite orb_false_r in H. exact H.
Qed.

Lemma uuid_ok_128 u : uuid_ok u = true -> uty u =? 2 = true -> len_is 16 (packed u) = true.
Proof.
  unfold uuid_ok. intros H T. apply N.eqb_eq in T. rewrite T in H. cbn [N.eqb Pos.eqb andb orb] in H. exact H.
Qed.

Lemma forallb_packed k ty us :
  (forall u, uuid_ok u = true -> uty u =? ty = true -> len_is k (packed u) = true) ->
  forallb uuid_ok us = true -> forallb (fun u => uty u =? ty) us = true ->
  forallb (len_is k) (map packed us) = true.
Proof.
  intros Hk H1 H2. apply forallb_forall. intros x Hx. apply in_map_iff in Hx as (u & <- & Hu).
  rewrite forallb_forall in H1, H2. apply Hk; [apply H1, Hu|apply H2, Hu].
Qed.

Section Construct.
Variable urlnorm : text -> url_result.

Lemma construct_wf k r :
  call_ok urlnorm k = true -> construct urlnorm k = Ok r -> wf_rec urlnorm r = true.
Proof.
  intros C H. destruct k; cbn [construct call_ok] in *;
    (* a class whose [__init__] only stores its arguments: [wf_rec] is [call_ok] *)
    try (injection H as <-; exact C).
  - apply guard_Ok_inv in H as [E <-]. exact (forallb_packed 2 1 us uuid_ok_16 C E).
  - apply guard_Ok_inv in H as [E <-]. exact (forallb_packed 16 2 us uuid_ok_128 C E).
  - injection H as <-. apply N.ltb_lt, N.mod_lt. discriminate.
  - apply bind_Ok_inv in H as (p1 & E1 & H). apply bind_Ok_inv in H as (p2 & E2 & H). injection H as <-.
    apply guard_Ok_inv in E1 as [E1 _], E2 as [E2 _]. cbn [wf_rec]. rewrite E1, E2. reflexivity.
  - injection H as <-. cbn [wf_rec]. apply andb_true_iff in C as [C Wd]. apply andb_true_iff in C as [Cu Ct].
    rewrite (uuid_ok_16 u Cu Ct), Wd. reflexivity.
  - apply guard_Ok_inv in H as [E <-]. cbn [wf_rec]. lia.
  - apply guard_Ok_inv in H as [E <-]. cbn [wf_rec]. lia.
  - apply guard_Ok_inv in H as [E <-]. exact E.
  - apply guard_Ok_inv in H as [E <-]. cbn [wf_rec]. apply andb_true_iff in C as [Cu Wd].
    rewrite (uuid_ok_128 u Cu E), Wd. reflexivity.
  - (* the scheme urllib returned is the one stored, so the stability [call_ok] asks of
       "scheme:uri" is the one [wf_rec] asks *)
    unfold mk_uri in H. destruct (urlnorm url) as [|sname uri]; [discriminate|].
    destruct sname as [|c0 sname']; [discriminate|]. remember (c0 :: sname') as sname.
    destruct (scheme_of_name sname) as [s|] eqn:Es; [|discriminate].
    apply bind_Ok_inv in H as (? & _ & H). apply bind_Ok_inv in H as (? & _ & H). injection H as <-.
    cbn [wf_rec]. rewrite (scheme_of_name_sound _ _ Es). exact C.
  - (* Eddystone: a 0x16 record with UUID FEAA; its data passed the [bytes(...)] check *)
    apply bind_Ok_inv in H as (data & _ & H). apply bind_Ok_inv in H as (b & E & H).
    apply guard_Ok_inv in E as [E <-]. injection H as <-. exact E.
Qed.

End Construct.

Lemma build_wf urlnorm ks : forall l,
  forallb (call_ok urlnorm) ks = true -> mapM (construct urlnorm) ks = Ok l ->
  forallb (wf_rec urlnorm) l = true.
Proof.
  induction ks as [|k ks IH]; intros l C H; cbn [mapM forallb] in *.
  - inversion H; reflexivity.
  - apply andb_true_iff in C as [Ck Cks].
    apply bind_Ok_inv in H as (r & Er & H). apply bind_Ok_inv in H as (l' & El & H). injection H as <-.
    cbn [forallb]. rewrite (construct_wf urlnorm k r Ck Er), (IH l' Cks El). reflexivity.
Qed.

Definition key (d : device) : N * bool := (d_addr d, d_reported d).

Lemma check_timeout_cases now d : check_timeout now d = d \/ check_timeout now d = set_scanned d.
Proof. unfold check_timeout. destruct (d_scanned d); [|destruct (timed_out now d)]; auto. Qed.

Lemma check_timeout_key now d : key (check_timeout now d) = key d.
Proof. destruct (check_timeout_cases now d) as [-> | ->]; reflexivity. Qed.

Lemma set_scan_rsp_key l d : key (set_scan_rsp l d) = key d.
Proof. unfold set_scan_rsp. destruct (d_got d); reflexivity. Qed.

Lemma map_key_update a f db : (forall d, key (f d) = key d) -> map key (update_dev a f db) = map key db.
Proof.
  intros H. unfold update_dev. rewrite map_map. apply map_ext. intros d.
  destruct (d_addr d =? a); [apply H|reflexivity].
Qed.

Lemma map_addr_key db : map d_addr db = map fst (map key db).
Proof. rewrite map_map. reflexivity. Qed.

Lemma find_dev_none a db : find_dev a db = None -> ~ In a (map d_addr db).
Proof.
  unfold find_dev. intros H Hin. apply in_map_iff in Hin as (d & Ha & Hd).
  pose proof (find_none _ _ H d Hd) as E. cbn in E. rewrite Ha, N.eqb_refl in E. discriminate.
Qed.

Lemma find_dev_addr a db d : find_dev a db = Some d -> d_addr d = a.
Proof. unfold find_dev. intros H. apply find_some in H as [_ H]. apply N.eqb_eq in H. exact H. Qed.

Lemma due_check now d :
  d_scanned (check_timeout now d) && negb (d_reported (check_timeout now d)) = due now d.
Proof.
  unfold due, check_timeout.
  destruct (d_scanned d) eqn:S; [rewrite S; reflexivity|].
  destruct (timed_out now d) eqn:T; cbn [set_scanned d_scanned d_reported]; [reflexivity|rewrite S; reflexivity].
Qed.

Lemma due_check_timeout now d : due now (check_timeout now d) = due now d.
Proof.
  unfold due, check_timeout. destruct (d_scanned d) eqn:S; [rewrite S; reflexivity|].
  destruct (timed_out now d) eqn:T; [|rewrite S, T; reflexivity].
  unfold timed_out in *. cbn [set_scanned d_scanned d_ts d_reported]. rewrite T. reflexivity.
Qed.

Definition swept (now : N) (d : device) : device :=
  if due now d then mark_reported (check_timeout now d) else check_timeout now d.

Lemma timeouts_spec now db :
  timeouts now db = (map (swept now) db, map d_addr (filter (due now) db)).
Proof.
  induction db as [|d db IH]; [reflexivity|]. cbn [timeouts map filter]. rewrite IH, due_check.
  unfold swept. destruct (due now d); reflexivity.
Qed.

Lemma swept_key now d : key (swept now d) = (d_addr d, d_reported d || due now d).
Proof.
  unfold swept. destruct (due now d).
  - rewrite orb_true_r. destruct (check_timeout_cases now d) as [-> | ->]; reflexivity.
  - rewrite orb_false_r. apply check_timeout_key.
Qed.

Lemma swept_not_due now d : due now (swept now d) = false.
Proof.
  unfold swept. destruct (due now d) eqn:E.
  - unfold due. cbn [mark_reported d_reported negb]. apply andb_false_r.
  - rewrite due_check_timeout. exact E.
Qed.

(** the returned list: [if y not in acc: acc.append(y)] over the swept devices *)
Definition add_new (acc : list N) (y : N) : list N := if memN y acc then acc else acc ++ [y].

Lemma fold_add_new_keeps l : forall acc v, In v acc -> In v (fold_left add_new l acc).
Proof.
  induction l as [|w l IHl]; intros acc v Hv; [exact Hv|]. cbn [fold_left]. apply IHl.
  unfold add_new. destruct (memN w acc); [exact Hv|apply in_or_app; left; exact Hv].
Qed.

Lemma fold_add_new_adds ys : forall acc y, In y ys -> In y (fold_left add_new ys acc).
Proof.
  induction ys as [|z ys IH]; intros acc y Hy; [destruct Hy|]. cbn [fold_left].
  destruct Hy as [<-|Hy]; [|apply IH, Hy]. apply fold_add_new_keeps.
  unfold add_new. destruct (memN z acc) eqn:M.
  - unfold memN in M. apply existsb_exists in M as (v & Hv & E). apply N.eqb_eq in E. subst v. exact Hv.
  - apply in_or_app. right. left. reflexivity.
Qed.

Section ScanProofs.
Variable urlnorm : text -> url_result.
Variable flt : option N.
Variable updates : bool.

Lemma parse_adv_ok data : wf_bytes data = true -> exists o, parse_adv urlnorm data = Ok o.
Proof.
  intros W. destruct (parser_total urlnorm data W) as [Hle Hgt]. unfold parse_adv.
  destruct (Nat.le_gt_cases (length data) 31) as [L|G].
  - destruct (Hle L) as [[l ->]| ->]; eauto.
  - rewrite (Hgt G). eauto.
Qed.

Lemma parse_adv_some data l : parse_adv urlnorm data = Ok (Some l) -> from_bytes urlnorm data = Ok l.
Proof.
  unfold parse_adv. destruct (from_bytes urlnorm data) as [l'|e]; [intros H; inversion H; reflexivity|].
  destruct e; discriminate.
Qed.

Lemma handle_ok now db ev : wf_bytes (ev_data ev) = true ->
  exists r, handle urlnorm flt updates now db ev = Ok r.
Proof.
  intros W. destruct (parse_adv_ok _ W) as (o & Ho). unfold handle. rewrite Ho. cbn [bind].
  (* nothing after the parse can raise *)
  destruct (ev_pdu ev); destruct o as [l|];
    repeat match goal with
    | |- exists r, (if ?c then _ else _) = Ok r => destruct c
    | |- exists r, (let '(_, _) := ?x in _) = Ok r => destruct x
    | |- exists r, match ?x with Some _ => _ | None => _ end = Ok r => destruct x
    end; eauto.
Qed.

Lemma on_device_found_spec now db ev :
  on_device_found urlnorm flt updates now db ev
  = r <- handle urlnorm flt updates now db ev ;;
    let ys := map d_addr (filter (due now) (fst r)) in
    Ok (map (swept now) (fst r), fold_left add_new ys (snd r), ys).
Proof. unfold on_device_found. destruct (handle _ _ _ _ _ _); cbn [bind]; [rewrite timeouts_spec|]; reflexivity. Qed.

Lemma on_device_found_ok now db ev : wf_bytes (ev_data ev) = true ->
  exists r, on_device_found urlnorm flt updates now db ev = Ok r.
Proof.
  intros W. rewrite on_device_found_spec. destruct (handle_ok now db ev W) as [r ->]. cbn [bind]. eauto.
Qed.

Definition new_device (now : N) (ev : event) (l : list rec) (conn : bool) : device :=
  {| d_addr := ev_addr ev; d_type := ev_txadd ev; d_rssi := ev_rssi ev; d_adv := l; d_rsp := None;
     d_got := false; d_conn := conn; d_scanned := false; d_reported := false;
     d_ts := now; d_last := now |}.

Definition is_adv (p : pdu) : bool := match p with AdvInd | AdvNonconn => true | _ => false end.

Lemma handle_cases now db ev r :
  handle urlnorm flt updates now db ev = Ok r ->
  fst r = db
  \/ (exists l conn, is_adv (ev_pdu ev) = true /\ from_bytes urlnorm (ev_data ev) = Ok l
         /\ fst r = fst (register now db (new_device now ev l conn) updates))
  \/ (exists l, ev_pdu ev = ScanRsp /\ from_bytes urlnorm (ev_data ev) = Ok l
         /\ fst r = update_dev (ev_addr ev) (set_scan_rsp l) db).
Proof.
  intros Hh. unfold handle in Hh.
  destruct (parse_adv urlnorm (ev_data ev)) as [[l|]|e] eqn:Ep; cbn [bind] in Hh.
  - apply parse_adv_some in Ep. destruct (ev_pdu ev).
    1, 2: destruct (filter_is flt (ev_addr ev) || filter_none flt); [|inversion Hh; auto];
      destruct (register _ _ _ _) as [db' r0] eqn:Er; inversion Hh;
      right; left; eexists l, _; unfold new_device; rewrite Er; auto.
    + destruct (find_dev (ev_addr ev) db) as [dev|]; [|inversion Hh; auto].
      destruct (d_got dev); inversion Hh; [auto|]. right. right. exists l. auto.
    + inversion Hh; auto.
  - destruct (ev_pdu ev); inversion Hh; auto.
  - destruct (ev_pdu ev); try discriminate; inversion Hh; auto.
Qed.

(** what is stored for an address is what was parsed from advertisements of that address *)
Definition dev_ok (seen : list event) (d : device) : Prop :=
  (exists e, In e seen /\ is_adv (ev_pdu e) = true /\ ev_addr e = d_addr d
             /\ from_bytes urlnorm (ev_data e) = Ok (d_adv d))
  /\ match d_rsp d with
     | None => d_got d = false
     | Some l => d_got d = true
                 /\ exists e, In e seen /\ ev_pdu e = ScanRsp /\ ev_addr e = d_addr d
                              /\ from_bytes urlnorm (ev_data e) = Ok l
     end.

Lemma dev_ok_mono seen seen' d : incl seen seen' -> dev_ok seen d -> dev_ok seen' d.
Proof.
  intros I [(e & He & H1) H2]. split; [exists e; split; [apply I, He|exact H1]|].
  destruct (d_rsp d); [|exact H2]. destruct H2 as [G (e' & He' & H3)].
  split; [exact G|]. exists e'. split; [apply I, He'|exact H3].
Qed.

(* [dev_ok] reads the address, the two record lists and [got_scan_rsp] only: the timeout
   test and the reported mark keep it by conversion *)
Lemma dev_ok_check_timeout seen now d : dev_ok seen d -> dev_ok seen (check_timeout now d).
Proof. intros H. destruct (check_timeout_cases now d) as [-> | ->]; exact H. Qed.

Lemma dev_ok_swept seen now d : dev_ok seen d -> dev_ok seen (swept now d).
Proof.
  intros H. apply (dev_ok_check_timeout seen now) in H. unfold swept. destruct (due now d); exact H.
Qed.

Lemma Forall_update_dev (P : device -> Prop) a f db :
  Forall P db -> (forall d, P d -> d_addr d = a -> P (f d)) -> Forall P (update_dev a f db).
Proof.
  intros H Hf. unfold update_dev. rewrite Forall_map. eapply Forall_impl; [|exact H].
  intros d Hd. destruct (N.eqb_spec (d_addr d) a); [apply Hf; assumption|exact Hd].
Qed.

Lemma register_dev_ok seen now db d u :
  Forall (dev_ok seen) db -> dev_ok seen d -> Forall (dev_ok seen) (fst (register now db d u)).
Proof.
  intros H Hd. unfold register. destruct (find_dev (d_addr d) db) as [dev|].
  - destruct (d_rssi dev =? d_rssi d); (apply Forall_update_dev; [exact H|]); intros x Hx _.
    + exact Hx.
    + apply dev_ok_check_timeout. exact Hx.
  - apply Forall_app. split; [exact H|]. constructor; [exact Hd|constructor].
Qed.

Lemma handle_dev_ok seen now db ev r :
  Forall (dev_ok seen) db -> handle urlnorm flt updates now db ev = Ok r ->
  Forall (dev_ok (seen ++ [ev])) (fst r).
Proof.
  intros H Hh.
  assert (Hm : Forall (dev_ok (seen ++ [ev])) db).
  { eapply Forall_impl; [|exact H]. intros d. apply dev_ok_mono. apply incl_appl, incl_refl. }
  assert (Hin : In ev (seen ++ [ev])) by (apply in_or_app; right; left; reflexivity).
  destruct (handle_cases _ _ _ _ Hh) as [-> | [(l & conn & Ea & Ef & ->) | (l & Ep & Ef & ->)]].
  - exact Hm.
  - apply register_dev_ok; [exact Hm|]. split; [exists ev; auto|reflexivity].
  - apply Forall_update_dev; [exact Hm|]. intros d Hd Ha.
    unfold set_scan_rsp. destruct (d_got d) eqn:G; [exact Hd|].
    destruct Hd as [H1 _]. split; [exact H1|]. cbn [d_rsp d_got d_addr]. split; [reflexivity|].
    exists ev. auto.
Qed.

Lemma on_device_found_dev_ok seen now db ev r :
  Forall (dev_ok seen) db -> on_device_found urlnorm flt updates now db ev = Ok r ->
  Forall (dev_ok (seen ++ [ev])) (fst (fst r)).
Proof.
  intros H Hr. rewrite on_device_found_spec in Hr. apply bind_Ok_inv in Hr as (x & Eh & Hr).
  injection Hr as <-. cbn [fst]. rewrite Forall_map.
  eapply Forall_impl; [|exact (handle_dev_ok seen _ _ _ _ H Eh)]. intros d. apply dev_ok_swept.
Qed.

Lemma scan_dev_ok evs : forall clock seen db r,
  Forall (dev_ok seen) db -> scan urlnorm flt updates clock db evs = Ok r ->
  Forall (dev_ok (seen ++ evs)) (fst (fst r)).
Proof.
  induction evs as [|ev evs IH]; intros clock seen db r H Hr; cbn [scan] in Hr.
  - inversion Hr; subst. rewrite app_nil_r. exact H.
  - apply bind_Ok_inv in Hr as (x & Eo & Hr). apply bind_Ok_inv in Hr as (y & Es & Hr). injection Hr as <-. cbn [fst].
    replace (seen ++ ev :: evs) with ((seen ++ [ev]) ++ evs) by (rewrite <- app_assoc; reflexivity).
    exact (IH _ _ _ y (on_device_found_dev_ok seen _ db ev x H Eo) Es).
Qed.

(** [grows db db']: handling an event keeps every entry's address and reported flag and
    may append one unreported entry with a new address *)
Definition grows (db db' : list device) : Prop :=
  map key db' = map key db
  \/ exists a, map key db' = map key db ++ [(a, false)] /\ ~ In a (map d_addr db).

Lemma register_grows now db d u : d_reported d = false -> grows db (fst (register now db d u)).
Proof.
  intros Hd. unfold register. destruct (find_dev (d_addr d) db) as [dev|] eqn:Ef.
  - left. destruct (d_rssi dev =? d_rssi d); apply map_key_update; intros x.
    + reflexivity.
    + rewrite check_timeout_key. reflexivity.
  - right. exists (d_addr d). split; [|apply find_dev_none, Ef].
    cbn [fst]. rewrite map_app. cbn [map]. unfold key at 2. rewrite Hd. reflexivity.
Qed.

Lemma handle_grows now db ev r : handle urlnorm flt updates now db ev = Ok r -> grows db (fst r).
Proof.
  intros Hh. destruct (handle_cases _ _ _ _ Hh) as [-> | [(l & conn & _ & _ & ->) | (l & _ & _ & ->)]].
  - left. reflexivity.
  - apply register_grows. reflexivity.
  - left. apply map_key_update, set_scan_rsp_key.
Qed.

(** [Inv R db]: addresses are unique and everything the sweep reported so far is marked *)
Definition Inv (R : list N) (db : list device) : Prop :=
  NoDup (map d_addr db) /\ forall a, In a R -> In (a, true) (map key db).

Lemma grows_inv R db db' : grows db db' -> Inv R db -> Inv R db'.
Proof.
  intros G [ND HR]. destruct G as [E|(a & E & Na)]; split.
  - rewrite map_addr_key, E, <- map_addr_key. exact ND.
  - intros x Hx. rewrite E. apply HR, Hx.
  - rewrite map_addr_key, E, map_app, <- map_addr_key. cbn [map fst].
    apply NoDup_app_intro; [exact ND|repeat constructor; intros []|].
    intros x Hx [<-|[]]. exact (Na Hx).
  - intros x Hx. rewrite E. apply in_or_app. left. apply HR, Hx.
Qed.

(** the sweep marks what it yields, and yields nothing that is marked *)
Lemma sweep_step R now db1 :
  Inv R db1 -> NoDup R ->
  let ys := map d_addr (filter (due now) db1) in
  Inv (R ++ ys) (map (swept now) db1) /\ NoDup (R ++ ys).
Proof.
  intros [ND HR] NR. split; [split|].
  - rewrite map_map, (map_ext _ d_addr); [exact ND|]. intros d. exact (f_equal fst (swept_key now d)).
  - assert (K : forall d, In d db1 -> d_reported d || due now d = true ->
                 In (d_addr d, true) (map key (map (swept now) db1))).
    { intros d Hd E. rewrite <- E, <- swept_key. apply in_map, in_map, Hd. }
    intros a Ha. apply in_app_or in Ha as [Ha|Ha].
    + apply HR, in_map_iff in Ha as (d & [= <- E] & Hd). apply K; [exact Hd|rewrite E; reflexivity].
    + apply in_map_iff in Ha as (d & <- & Hd). apply filter_In in Hd as [Hd Du].
      apply K; [exact Hd|rewrite Du; apply orb_true_r].
  - apply NoDup_app_intro; [exact NR|apply NoDup_map_filter, ND|].
    (* a reported entry and a due entry with the same address would be the same entry *)
    intros a Ha Hy. apply HR, in_map_iff in Ha as (d & [= E1 E2] & Hd).
    apply in_map_iff in Hy as (d' & Ea & Hd'). apply filter_In in Hd' as [Hd' Du].
    assert (d = d') by (apply (NoDup_map_inj d_addr db1); congruence). subst d'.
    unfold due in Du. rewrite E2, andb_false_r in Du. discriminate.
Qed.

(** over ANY timed sequence, from any database with unique addresses whose reported
    devices are [R]: no address is reported by the sweep twice *)
Lemma scan_reports_once evs : forall clock db R r,
  Inv R db -> NoDup R -> scan urlnorm flt updates clock db evs = Ok r ->
  NoDup (R ++ concat (snd r)).
Proof.
  induction evs as [|ev evs IH]; intros clock db R r I NR Hr; cbn [scan] in Hr.
  - inversion Hr; subst. cbn [snd concat]. rewrite app_nil_r. exact NR.
  - rewrite on_device_found_spec in Hr. apply bind_Ok_inv in Hr as (x' & Hx & Hr).
    apply bind_Ok_inv in Hx as (x & Eh & Hx). injection Hx as <-.
    apply bind_Ok_inv in Hr as (y & Es & Hr). injection Hr as <-. cbn [fst snd concat] in *.
    pose proof (grows_inv R _ _ (handle_grows _ _ _ _ Eh) I) as I1.
    destruct (sweep_step R (clock + ev_dt ev) (fst x) I1 NR) as [I2 N2].
    rewrite app_assoc. exact (IH _ _ _ _ I2 N2 Es).
Qed.

End ScanProofs.

Lemma upd_nth_other {A} (f : A -> A) (d : A) l : forall i k, i <> k -> nth k (upd_nth i f l) d = nth k l d.
Proof.
  induction l as [|x l IH]; intros i k H; [destruct i; reflexivity|].
  destruct i, k; cbn [upd_nth nth]; try reflexivity; [congruence|apply IH; congruence].
Qed.

Lemma api_run_last urlnorm ops : forall st op,
  nth (length ops) (api_run urlnorm st (ops ++ [op])) OutNone
  = snd (api_step urlnorm (api_state urlnorm st ops) op).
Proof.
  induction ops as [|o ops IH]; intros st op; cbn [app api_run length nth api_state fold_left].
  - destruct (api_step urlnorm st op). reflexivity.
  - destruct (api_step urlnorm st o) as [st' x] eqn:E. cbn [nth fst].
    rewrite IH. unfold api_state. reflexivity.
Qed.
