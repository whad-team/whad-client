(** C15 — property theorems only, each an instance or a short consequence of the lemmas of
    Proofs.v (the two about UTF-8: of Lib/Utf8.v); the test vectors are evaluated here.
    [urlnorm] stands for urllib.parse (urlparse + geturl) and is universally quantified:
    the theorems hold whatever urllib does. *)
From Coq Require Import String List NArith Arith Bool.
From Whad Require Import Lib.Bytes Lib.Utf8 C15.Model C15.Proofs.
Import ListNotations.
Open Scope nat_scope.

(** Every list of well-formed records (any of the 22 handled classes, any field values,
    see [wf_rec]) that fits in 31 bytes serialises without error to at most 31 bytes
    that parse back to the SAME list: same classes in the same order, same exposed
    values, hence the same bytes. *)
Theorem C15_parse_serialise :
  forall (urlnorm : text -> url_result) (l : list rec),
    forallb (wf_rec urlnorm) l = true -> fits31 l ->
    exists b, to_bytes l = Ok b /\ length b <= 31 /\ from_bytes urlnorm b = Ok l.
Proof. exact parse_serialise. Qed.

(** Records built by the class constructors from admissible arguments are well formed. *)
Theorem C15_constructed_wf :
  forall (urlnorm : text -> url_result) (k : call) (r : rec),
    call_ok urlnorm k = true -> construct urlnorm k = Ok r -> wf_rec urlnorm r = true.
Proof. exact construct_wf. Qed.

(** FULL STATEMENT of the round trip over ALL arguments the constructors accept. It is
    refuted by the faithful model (two recorded finding classes, witnesses replayed on the
    implementation at every run): a URI whose normal form urllib does not map to itself
    (KNOWN-FINDING uri-not-urlparse-stable) and values the serialised record cannot carry
    (KNOWN-FINDING value-outside-serialisable-domain). *)
Definition C15_roundtrip_all_constructible_statement : Prop :=
  forall (urlnorm : text -> url_result) (ks : list call) (l : list rec),
    mapM (construct urlnorm) ks = Ok l -> fits31 l ->
    exists b, to_bytes l = Ok b /\ from_bytes urlnorm b = Ok l.

Theorem C15_roundtrip_all_constructible_refuted_uri :
  exists urlnorm ks l, mapM (construct urlnorm) ks = Ok l /\ fits31 l
    /\ exists b, to_bytes l = Ok b /\ from_bytes urlnorm b = Raise AdvDataError.
Proof.
  (* what CPython 3.12 urllib answers on the two texts involved *)
  exists (lookup_url [(cps "http:////[", UrlOk (cps "http") (cps "//[")); (cps "http://[", UrlValueError)]),
         [KUri (cps "http:////[")], [Uri Http (cps "//[")].
  split; [vm_compute; reflexivity|]. split; [unfold fits31; vm_compute; repeat constructor|].
  eexists. split; [vm_compute; reflexivity|]. vm_compute. reflexivity.
Qed.

Theorem C15_roundtrip_all_constructible_refuted_domain :
  forall urlnorm, exists ks l, mapM (construct urlnorm) ks = Ok l /\ fits31 l
    /\ exists b l', to_bytes l = Ok b /\ from_bytes urlnorm b = Ok l' /\ l' <> l.
Proof.
  intros urlnorm. exists [KManuf 74565 [1]%N], [Manuf 74565 [1]%N].
  split; [vm_compute; reflexivity|]. split; [unfold fits31; vm_compute; repeat constructor|].
  exists [4; 255; 69; 35; 1]%N, [Manuf 9029 [1]%N].
  split; [vm_compute; reflexivity|]. split; [vm_compute; reflexivity|discriminate].
Qed.

(** The part that holds: constructor calls with admissible arguments ([call_ok], the
    complement of the two finding classes) always round-trip. *)
Theorem C15_roundtrip_constructible_partial :
  forall (urlnorm : text -> url_result) (ks : list call) (l : list rec),
    forallb (call_ok urlnorm) ks = true -> mapM (construct urlnorm) ks = Ok l -> fits31 l ->
    exists b, to_bytes l = Ok b /\ length b <= 31 /\ from_bytes urlnorm b = Ok l.
Proof. intros urlnorm ks l C H. apply parse_serialise, (build_wf urlnorm ks l C H). Qed.

(** For ALL byte strings: at most 31 bytes parse to a record list or raise
    AdvDataError; longer ones raise AdvDataFieldListOverflow. No other exception class
    (struct.error, IndexError, ValueError, UnicodeDecodeError, UnicodeEncodeError,
    AttributeError, InvalidUUIDException, InvalidBDAddressException) escapes. *)
Theorem C15_parser_total :
  forall (urlnorm : text -> url_result) (b : bytes), wf_bytes b = true ->
    (length b <= 31 ->
       (exists l, from_bytes urlnorm b = Ok l) \/ from_bytes urlnorm b = Raise AdvDataError)
    /\ (31 < length b -> from_bytes urlnorm b = Raise AdvDataFieldListOverflow).
Proof. exact parser_total. Qed.

(** The fuel [from_bytes] gives its loop is never exhausted. *)
Theorem C15_fuel_enough :
  forall (urlnorm : text -> url_result) (b : bytes), wf_bytes b = true ->
    parse_loop urlnorm (length b) b <> Raise OutOfFuel.
Proof. exact parse_loop_fuel_enough. Qed.

(** Records of a type without handler are skipped. *)
Theorem C15_unknown_type_skipped :
  forall (urlnorm : text -> url_result) (f : nat) (t : N) (payload rest : bytes),
    decode urlnorm t payload = None ->
    parse_loop urlnorm (S f) (N.of_nat (length payload + 1) :: t :: payload ++ rest)
    = parse_loop urlnorm f rest.
Proof. intros urlnorm f t payload rest D. rewrite parse_loop_frame, D. reflexivity. Qed.

(** A list that does not fit raises the documented overflow error. *)
Theorem C15_to_bytes_overflow :
  forall l : list rec,
    Forall (fun r => length (value r) + 1 < 256) l -> ~ fits31 l ->
    to_bytes l = Raise AdvDataFieldListOverflow.
Proof.
  intros l Hs H. rewrite to_bytes_spec by exact Hs.
  destruct (Nat.leb_spec (total_len l) 31) as [F|_]; [destruct (H F)|reflexivity].
Qed.

(** Lib/Utf8: decoding inverts encoding, and decoded text is always encodable. *)
Theorem C15_utf8_decode_encode :
  forall (t : text) (b : bytes), utf8_encode t = Some b -> utf8_decode b = Some t.
Proof. exact utf8_decode_encode. Qed.

Theorem C15_utf8_decode_valid :
  forall (b : bytes) (t : text), utf8_decode b = Some t -> valid_text t = true.
Proof. exact utf8_decode_valid. Qed.

(** FULL STATEMENT of totality for the tree BEFORE the fix commits (model
    [from_bytes_legacy]); refuted by three witnesses, one per escaping class. Each is
    replayed on the implementation at every run (corpus/C15/fixed-*.json). *)
Definition C15_legacy_parser_total_statement : Prop :=
  forall (urlnorm : text -> url_result) (b : bytes), wf_bytes b = true -> length b <= 31 ->
    (exists l, from_bytes_legacy urlnorm b = Ok l) \/ from_bytes_legacy urlnorm b = Raise AdvDataError.

Theorem C15_legacy_unicode_decode_error_refuted :
  forall urlnorm, from_bytes_legacy urlnorm [3; 36; 255; 254]%N = Raise UnicodeDecodeError.
Proof. reflexivity. Qed.

Theorem C15_legacy_attribute_error_refuted :
  forall urlnorm, from_bytes_legacy urlnorm [1; 36]%N = Raise AttributeError.
Proof. reflexivity. Qed.

Theorem C15_legacy_value_error_refuted :
  forall urlnorm, urlnorm (cps "http://[") = UrlValueError ->
    from_bytes_legacy urlnorm [5; 36; 22; 47; 47; 91]%N = Raise ValueError.
Proof.
  (* [mk_uri] stays folded: evaluation would normalise its [UrlOk] branch, slowly *)
  intros urlnorm H.
  assert (E : mk_uri urlnorm (cps "http://[") = Raise ValueError) by (unfold mk_uri; rewrite H; reflexivity).
  cbv -[mk_uri] in *. rewrite E. reflexivity.
Qed.

(** AdvertisingDevicesDB.on_device_found, for ALL TIMED sequences of advertisements (each
    event = time elapsed on the clock + ADV_IND / ADV_NONCONN_IND / SCAN_RSP / other PDU;
    any addresses, any record bytes, any filter / updates setting) from ANY clock value and
    ANY database state: no call raises ("scanning survives any advertisement on the air").
    Induction over the sequence on top of C15_parser_total. *)
Theorem C15_scan_never_raises :
  forall (urlnorm : text -> url_result) (filter : option N) (updates : bool)
         (evs : list event) (clock : N) (db : list device),
    Forall (fun ev => wf_bytes (ev_data ev) = true) evs ->
    exists r, scan urlnorm filter updates clock db evs = Ok r.
Proof.
  intros urlnorm filter updates evs. induction evs as [|ev evs IH]; intros clock db H; cbn [scan]; [eauto|].
  inversion H as [|? ? W Hr]; subst.
  destruct (on_device_found_ok urlnorm filter updates (clock + ev_dt ev)%N db ev W) as [x ->]. cbn [bind].
  destruct (IH (clock + ev_dt ev)%N (fst (fst x)) Hr) as [y ->]. cbn [bind]. eauto.
Qed.

(** ... and what the database holds for an address is what was parsed: the advertising
    records are the parse of an ADV_IND / ADV_NONCONN_IND of that address in the sequence,
    the scan-response records (present iff got_scan_rsp) the parse of a SCAN_RSP of that
    address. *)
Theorem C15_scan_stored_parsed :
  forall (urlnorm : text -> url_result) (filter : option N) (updates : bool) (clock : N)
         (evs : list event) (r : list device * list (list N) * list (list N)),
    scan urlnorm filter updates clock [] evs = Ok r -> Forall (dev_ok urlnorm evs) (fst (fst r)).
Proof. intros urlnorm filter updates clock evs r. apply (scan_dev_ok urlnorm filter updates evs clock [] []). constructor. Qed.

(** Malformed records (AdvDataError / overflow) leave the database untouched. *)
Theorem C15_scan_malformed_ignored :
  forall (urlnorm : text -> url_result) (filter : option N) (updates : bool) (now : N)
         (db : list device) (ev : event),
    parse_adv urlnorm (ev_data ev) = Ok None -> handle urlnorm filter updates now db ev = Ok (db, []).
Proof.
  intros urlnorm filter updates now db ev H. unfold handle. rewrite H. cbn [bind].
  destruct (ev_pdu ev); reflexivity.
Qed.

(** What is reported when.  On EVERY call, whatever the event (also a malformed one or a
    PDU that is ignored), the timeout sweep reports exactly the devices that are [due]
    once the event has been handled: not reported before, and either scanned (they
    answered a scan request, or an earlier rssi update already saw the timeout) or created
    strictly more than 500 ms before this call; all of them are in the returned list, and
    after the call no device is due any more. *)
Theorem C15_sweep_reports_due :
  forall (urlnorm : text -> url_result) (filter : option N) (updates : bool) (now : N)
         (db : list device) (ev : event) (db2 : list device) (ret ys : list N),
    on_device_found urlnorm filter updates now db ev = Ok (db2, ret, ys) ->
    exists db1 app, handle urlnorm filter updates now db ev = Ok (db1, app)
      /\ ys = map d_addr (List.filter (due now) db1)
      /\ (forall y, In y ys -> In y ret)
      /\ forallb (fun d => negb (due now d)) db2 = true.
Proof.
  intros urlnorm filter updates now db ev db2 ret ys H. rewrite on_device_found_spec in H.
  destruct (handle urlnorm filter updates now db ev) as [[db1 app]|]; [|discriminate].
  injection H as <- <- <-. exists db1, app. repeat split.
  - intros y Hy. apply fold_add_new_adds, Hy.
  - apply forallb_forall. intros x Hx. apply in_map_iff in Hx as (d & <- & _).
    rewrite swept_not_due. reflexivity.
Qed.

(** ... and over ANY timed sequence the sweep reports an address AT MOST ONCE (from the
    empty database; [C15_scan_reports_once_general]: from any database with unique
    addresses in which the already reported addresses [R] are marked). Together: a device
    is reported exactly once, by the call that delivers its scan response or by the first
    call made more than 500 ms after its first advertisement, whichever comes first -
    provided such a call is made. *)
Theorem C15_scan_reports_once :
  forall (urlnorm : text -> url_result) (filter : option N) (updates : bool) (clock : N)
         (evs : list event) (r : list device * list (list N) * list (list N)),
    scan urlnorm filter updates clock [] evs = Ok r -> NoDup (concat (snd r)).
Proof.
  intros urlnorm filter updates clock evs r.
  apply (scan_reports_once urlnorm filter updates evs clock [] []); [split; [constructor|intros a []]|constructor].
Qed.

Theorem C15_scan_reports_once_general :
  forall (urlnorm : text -> url_result) (filter : option N) (updates : bool)
         (evs : list event) (clock : N) (db : list device) (R : list N)
         (r : list device * list (list N) * list (list N)),
    Inv R db -> NoDup R -> scan urlnorm filter updates clock db evs = Ok r ->
    NoDup (R ++ concat (snd r)).
Proof. exact scan_reports_once. Qed.

(** Operation sequences on the API (parse / edit a returned record through its setters /
    parse again / serialise): whatever operations came before, in whatever state, parsing
    [b] returns [from_bytes b] - the parser has no memory, and an edit of one returned list
    never shows in another. (Immediate in the model, where lists are values; what ties the
    implementation to it is the sequence correspondence [check_api] and the oracle.) *)
Theorem C15_from_bytes_pure_in_sequences :
  forall (urlnorm : text -> url_result) (ops : list api_op) (st : list (list rec)) (b : bytes),
    nth (length ops) (api_run urlnorm st (ops ++ [ApiParse b])) OutNone
    = OutParse (from_bytes urlnorm b).
Proof. intros urlnorm ops st b. apply api_run_last. Qed.

Theorem C15_api_edit_local :
  forall (urlnorm : text -> url_result) (st : list (list rec)) (op : api_op) (i k : nat),
    (exists j v, op = ApiSetName i j v) \/ (exists j v, op = ApiSetCompany i j v)
    \/ (exists j v, op = ApiSetData i j v) ->
    i <> k -> nth k (fst (api_step urlnorm st op)) [] = nth k st [].
Proof.
  intros urlnorm st op i k [(j & v & ->)|[(j & v & ->)|(j & v & ->)]] H; cbn [api_step fst];
    apply upd_nth_other, H.
Qed.

(** Built lists: after ANY sequence of build / add / remove / edit-through-setter /
    serialise / parse operations, [to_bytes()] of list #i is the serialisation of the records
    the list holds at that moment, and (well-formed records that fit) parsing it returns
    exactly those records - never an earlier state of the list. *)
Theorem C15_api_serialise_current :
  forall (urlnorm : text -> url_result) (ops : list api_op) (st : list (list rec)) (i : nat),
    nth (length ops) (api_run urlnorm st (ops ++ [ApiSerialise i])) OutNone
    = OutBytes (to_bytes (nth i (api_state urlnorm st ops) [])).
Proof. intros urlnorm ops st i. apply api_run_last. Qed.

Theorem C15_api_reparse_current :
  forall (urlnorm : text -> url_result) (ops : list api_op) (st : list (list rec)) (i : nat),
    let l := nth i (api_state urlnorm st ops) [] in
    forallb (wf_rec urlnorm) l = true -> fits31 l ->
    nth (length ops) (api_run urlnorm st (ops ++ [ApiReparse i])) OutNone = OutParse (Ok l).
Proof.
  intros urlnorm ops st i l W F. rewrite api_run_last. cbn [api_step snd]. fold l.
  destruct (parse_serialise urlnorm l W F) as (b & -> & _ & ->). reflexivity.
Qed.

(** Non-vacuity: a concrete list over eight classes (flags, 16-bit UUID list, name, URI,
    appearance, LE role, TX power, LE features) is well formed, fits, and round-trips. *)
Example C15_nonvacuous :
  let urlnorm := fun u : text =>
    if bytes_eqb u (cps "http://a") then UrlOk (cps "http") (cps "//a") else UrlValueError in
  let l := [Flags false true true false; Uuid16s CompSvc16 [[15; 24]%N]; ShortName [119; 104]%N;
            Uri Http (cps "//a"); Appearance 961%N; LeRole 2%N; TxPower 251%N;
            LeFeatures true false false false true false false false] in
  forallb (wf_rec urlnorm) l = true /\ fits31 l
  /\ (exists b, to_bytes l = Ok b /\ length b = 30 /\ from_bytes urlnorm b = Ok l).
Proof.
  cbv zeta. split; [vm_compute; reflexivity|]. split; [unfold fits31; vm_compute; repeat constructor|].
  eexists. split; [vm_compute; reflexivity|]. split; vm_compute; reflexivity.
Qed.
