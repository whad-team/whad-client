(** C04 — property theorems only, each a short consequence of Proofs.v.

    [run cfg sched s0] executes an arbitrary list of scheduler actions (one atomic step of
    the caller / writer / reader / connector I/O thread, a clock tick, a spontaneous
    emission of the device) on the interleaving model of Model.v.  Every theorem
    quantifies over ALL schedules [sched] (no bound), all scripts of the application
    thread, all device histories (reactions to commands, spontaneous chunks, frames that do
    not decode), and over the configuration: connector attached or not, native or virtual
    device (synchronous handler), any timeout.  The model is the model of the REPAIRED code
    when the [legacy_*] flags are false. *)
From Coq Require Import List NArith Arith Bool.
From Whad Require Import C04.Model C04.Proofs.
Import ListNotations.
Open Scope N_scope.

(** 1. Commands get their own answer.  H1 [wf_cmd]: the device's reaction to each command
    holds exactly one message kept by a command filter (the model emits the reaction only
    after the writer thread wrote the command).  H2 [no_resp]: spontaneous traffic holds
    none.  Then every command that completed before the first timeout returned the response
    to that very command ([routed]; pointwise form below). *)
Theorem C04_response_routing :
  forall (cfg : config) (script : list op) (sp : list chunk) (l0 : bool) (sched : list action),
    Forall (wf_cmd (fcs script)) script -> Forall (no_resp (fcs script)) sp ->
    routed (fcs script) (returned (run cfg sched (init cfg script sp l0))) = true.
Proof. exact response_routing. Qed.

Theorem C04_response_routing_pointwise :
  forall cfg script sp l0 sched (k : nat) (o : op) (m : msg),
    Forall (wf_cmd (fcs script)) script -> Forall (no_resp (fcs script)) sp ->
    let l := returned (run cfg sched (init cfg script sp l0)) in
    nth_error l k = Some (o, ROk m) -> all_ok (firstn k l) = true ->
    resp_of (fcs script) o = Some m.
Proof.
  intros cfg script sp l0 sched k o m H1 H2 l Hn Hk.
  exact (routed_spec _ _ _ _ _ (response_routing cfg script sp l0 sched H1 H2) Hn Hk).
Qed.

(** 2. Notifications exactly once, in order.  With a connector attached, at EVERY reachable
    state: delivered ++ (in the connector I/O thread's hands) ++ (events queue) ++ (in the
    handler's / reader's hands, reader buffer) ++ (on the wire)  =  emitted, restricted to
    notifications (messages no command filter keeps).  For a virtual device the statement
    covers the synchronous path (no spontaneous traffic). *)
Theorem C04_notifications_exactly_once_in_order :
  forall cfg script sp l0 sched,
    has_conn cfg = true -> forallb no_sync_op script = true -> (virt cfg = true -> sp = []) ->
    let s := run cfg sched (init cfg script sp l0) in
    nf (fcs script) (pipeline s) = nf (fcs script) (emitted s).
Proof. exact notifications_exactly_once_in_order. Qed.

(** Hence when nothing is in flight any more, what reached process_message is exactly what
    was emitted: no loss, no duplicate, no reordering. *)
Theorem C04_notifications_at_quiescence :
  forall cfg script sp l0 sched,
    has_conn cfg = true -> forallb no_sync_op script = true -> (virt cfg = true -> sp = []) ->
    let s := run cfg sched (init cfg script sp l0) in
    drained s -> nf (fcs script) (delivered s) = nf (fcs script) (emitted s).
Proof.
  intros cfg script sp l0 sched Hc Hn Hsp s Hd. rewrite <- (pipeline_drained s Hd).
  exact (notifications_exactly_once_in_order cfg script sp l0 sched Hc Hn Hsp).
Qed.

(** 3. Timeout bound (repaired wait loop), whatever is queued, with and without connector,
    native and virtual: the caller starts at most ONE wait after the command's deadline;
    once it has, the deadline test that follows sees [clock - start > timeout] (and raises
    Timeout, [C04_late_then_timeout]); every wait started on time ends within
    [start + 2 * timeout]. *)
Theorem C04_timeout_bound :
  forall cfg script sp l0 sched,
    legacy_wait cfg = false ->
    let s := run cfg sched (init cfg script sp l0) in
    (a_late s <= 1)%nat
    /\ (a_late s = 1%nat -> in_loop (a_pc s) = true -> tmo cfg < clock s - a_start s)
    /\ (forall d, a_pc s = A_W2 (Some d) -> a_late s = 0%nat -> d <= a_start s + 2 * tmo cfg).
Proof. exact timeout_bound. Qed.

Theorem C04_late_then_timeout :
  forall cfg s, a_pc s = A_W5 -> tmo cfg < clock s - a_start s ->
    returned (step_A cfg s) = returned s ++ [(hd OLock (a_script s), RTimeout)].
Proof.
  intros cfg s Hp Hl. unfold step_A. rewrite Hp. apply N.ltb_lt in Hl. rewrite Hl. reflexivity.
Qed.

(** The wait loop as found (deadline evaluated only on queue.Empty) refutes the bound:
    without a connector one unrelated queued message is re-enqueued for ever. *)
Theorem C04_timeout_bound_legacy_refuted :
  exists (cfg : config) (script : list op) (sched : list action),
    legacy_wait cfg = true /\
    let s := run cfg sched (init cfg script [] false) in
    (a_late s > 1)%nat /\ returned s = [] /\ tmo cfg < clock s - a_start s.
Proof.
  exists legacy_cfg, legacy_script, legacy_sched. split; [reflexivity|]. vm_compute. repeat split; auto.
Qed.

(** 4. A frame the host cannot decode does not block later messages: whatever undecodable
    frames the history holds, the reader thread stays alive (and theorem 2 holds with them,
    [emitted] listing the decodable messages only). *)
Theorem C04_undecodable_does_not_block :
  forall cfg script sp l0 sched,
    has_conn cfg = true -> forallb no_sync_op script = true -> (virt cfg = true -> sp = []) ->
    r_pc (run cfg sched (init cfg script sp l0)) <> RD_Dead.
Proof.
  intros cfg script sp l0 sched _ _ _. exact (proj1 (reader_never_dies cfg script sp l0 sched)).
Qed.

(** Device.put_message reads the message filter ONCE (repaired): for EVERY configuration, script
    (including filter resets: send_message without filter on a virtual device stores None) and
    schedule, the reader thread is never at a second filter load and never dies. *)
Theorem C04_reader_never_dies :
  forall cfg script sp l0 sched,
    let s := run cfg sched (init cfg script sp l0) in
    r_pc s <> RD_Dead /\ (forall m, r_pc s <> RD_P P6 m).
Proof. exact reader_never_dies. Qed.

(** 5. Virtual devices (VirtualDevice.send_message: handler run synchronously by the caller
    under the device's lock): the statements above hold with [virt cfg = true]; spelled out
    for the notifications. *)
Theorem C04_virtual_notifications :
  forall cfg script l0 sched,
    virt cfg = true -> has_conn cfg = true -> forallb no_sync_op script = true ->
    let s := run cfg sched (init cfg script [] l0) in
    nf (fcs script) (delivered s ++ hand_c s ++ events s ++ hand_a s ++ a_vbuf s)
    = nf (fcs script) (emitted s).
Proof.
  intros cfg script l0 sched Hv Hc Hn s.
  assert (H : Inv_N (fcs script) cfg s) by (apply Inv_N_run; auto using script_in_fcs).
  rewrite <- (virtual_pipeline _ _ _ H Hv). exact (n_pipe _ _ _ H).
Qed.

(** Non-vacuity: a script of two commands whose reactions carry notifications around the
    response (one undecodable frame in between) meets H1/H2; under a concrete schedule both
    commands return their own response and all five notifications are delivered in order. *)
Example C04_nonvacuous :
  let cfg := mkConfig true false 3 false false false false in
  let script := nv_script in
  Forall (wf_cmd (fcs script)) script /\ Forall (no_resp (fcs script)) nv_spont
  /\ let s := run cfg nv_sched (init cfg script nv_spont false) in
     map snd (returned s) = [ROk (mkMsg 3 11 false); ROk (mkMsg 4 21 false)]
     /\ delivered s = [mkMsg 0 1 true; mkMsg 0 10 true; mkMsg 0 12 true; mkMsg 5 20 false; mkMsg 0 22 true].
Proof.
  cbv zeta. split; [|split].
  - repeat constructor; cbn; auto; eexists; reflexivity.
  - repeat constructor.
  - vm_compute. split; reflexivity.
Qed.
