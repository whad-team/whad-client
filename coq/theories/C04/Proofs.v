(** C04 — invariants of the interleaving model, proved inductive over every schedule.

    Four invariants, each preserved by every action: [Inv_T] (timeout bound), [Inv_N]
    (notifications: what was delivered followed by what is in flight is what was emitted),
    [r_alive] (the reader thread is never at the second filter load and never dies) and
    [Inv_R] (routing: weight of the responses upstream of the caller). *)
From Coq Require Import List NArith Arith Bool Lia ZifyBool ZifyN ZifyNat.
From Whad Require Import C04.Model.
Import ListNotations.
Open Scope N_scope.

Lemma run_invariant :
  forall (cfg : config) (I : state -> Prop),
    (forall a s, I s -> I (act cfg a s)) ->
    forall l s, I s -> I (run cfg l s).
Proof.
  intros cfg I HI l. unfold run. induction l as [|a l IH]; intros s Hs; cbn; auto.
Qed.

Lemma run_app : forall cfg l1 l2 s, run cfg (l1 ++ l2) s = run cfg l2 (run cfg l1 s).
Proof. intros. unfold run. apply fold_left_app. Qed.

Ltac split_match :=
  repeat match goal with
  | |- context [match ?x with _ => _ end] => destruct x eqn:?
  end.

Lemma msgs_of_app : forall a b, msgs_of (a ++ b) = msgs_of a ++ msgs_of b.
Proof. induction a as [|[m|] a IH]; intros; cbn; rewrite ?IH; auto. Qed.

Lemma r_next_msgs : forall b,
  msgs_of b = match fst (r_next b) with RD_P _ m => [m] | _ => [] end ++ msgs_of (snd (r_next b)).
Proof. induction b as [|[m|] b IH]; cbn; auto. Qed.

Lemma r_next_pc : forall b,
  match fst (r_next b) with
  | RD_Read => snd (r_next b) = []
  | RD_P p _ => p = P1
  | RD_Dead => False
  end.
Proof. induction b as [|[m|] b IH]; cbn; auto. Qed.

Definition r_turn (b : list frame) (s : state) : state :=
  set_r_pc (fst (r_next b)) (set_r_buf (snd (r_next b)) s).

Definition op_entry (p : apc) : bool :=
  match p with
  | A_Done | A_S0 | A_V0 | A_L1 | A_U1 | A_E1 | A_E2 | A_E3 | A_K1 => true
  | _ => false
  end.

Lemma a_begin_entry : forall cfg sc, op_entry (a_begin cfg sc) = true.
Proof.
  intros cfg [|[] ?]; cbn; auto;
    repeat match goal with |- context [if ?b then _ else _] => destruct b end; auto.
Qed.

Lemma pstep_cases : forall cfg p m s,
  match snd (pstep cfg p m s) with
  | PFin => fst (pstep cfg p m s) = set_out_q (out_q s ++ [m]) s
            \/ fst (pstep cfg p m s) = set_events (events s ++ [m]) s
  | _ => fst (pstep cfg p m s) = s
  end.
Proof.
  intros cfg [] m s; cbn; auto.
  - destruct (has_conn cfg); reflexivity.
  - destruct (filt s) as [f|]; [destruct (matches f m)|]; reflexivity.
  - destruct (filt s) as [f|]; [destruct (matches f m)|]; reflexivity.
Qed.

(** A thread touches only its own fields: its step is a composition of their setters.
    ([state] has no eta: the values are read back from the result, then [s] is destructed.) *)
Lemma pstep_frame : forall cfg p m s, exists q e, fst (pstep cfg p m s) = set_out_q q (set_events e s).
Proof.
  intros. exists (out_q (fst (pstep cfg p m s))), (events (fst (pstep cfg p m s))).
  destruct p, s; reflexivity.
Qed.

Lemma step_W_frame : forall cfg s, exists w q wi e,
  step_W cfg s = set_w_pc w (set_in_q q (set_wire wi (set_emitted e s))).
Proof.
  intros. set (s' := step_W cfg s). exists (w_pc s'), (in_q s'), (wire s'), (emitted s'). subst s'.
  destruct s. unfold step_W; cbn. split_match; reflexivity.
Qed.

Lemma step_C_frame : forall cfg s, exists c e t d dr sq l lq di,
  step_C cfg s = set_c_pc c (set_events e (set_taken t (set_delivered d (set_dropped dr
                   (set_sync_q sq (set_lk l (set_locked_q lq (set_dispatched di s)))))))).
Proof.
  intros. set (s' := step_C cfg s).
  exists (c_pc s'), (events s'), (taken s'), (delivered s'), (dropped s'), (sync_q s'), (lk s'),
    (locked_q s'), (dispatched s').
  subst s'. destruct s. unfold step_C; cbn. split_match; reflexivity.
Qed.

Lemma step_R_frame : forall cfg s, exists p b wi q e,
  step_R cfg s = set_r_pc p (set_r_buf b (set_wire wi (set_out_q q (set_events e s)))).
Proof.
  intros. set (s' := step_R cfg s).
  exists (r_pc s'), (r_buf s'), (wire s'), (out_q s'), (events s'). subst s'.
  unfold step_R. destruct (r_pc s) as [|p m|] eqn:Er.
  - destruct s; cbn in *. split_match; reflexivity.
  - destruct (pstep_frame cfg p m s) as (q & e & ->). destruct s; cbn in *. split_match; reflexivity.
  - destruct s; reflexivity.
Qed.

Lemma step_A_frame_R : forall cfg s, r_pc (step_A cfg s) = r_pc s.
Proof.
  intros. unfold step_A, ret, a_finish, note_head, v_next.
  destruct (a_pc s); try (destruct (pstep_frame cfg p m s) as (q & e & ->)); split_match; reflexivity.
Qed.

Definition in_loop (p : apc) : bool :=
  match p with
  | A_W2 _ | A_W3 _ | A_W4 _ _ | A_W5 => true
  | _ => false
  end.

(** [a_late] counts, for the running command, the waits ([out_q.get]) the caller started
    after the command's deadline. *)
Record Inv_T (cfg : config) (s : state) : Prop := mkInv_T {
  t_late : (a_late s <= 1)%nat;
  t_start : a_start s <= clock s;
  t_over : a_late s = 1%nat -> in_loop (a_pc s) = true -> tmo cfg < clock s - a_start s;
  t_head : a_pc s = A_W2 None -> a_late s = 0%nat;
  t_dl : forall d, a_pc s = A_W2 (Some d) -> a_late s = 0%nat -> d <= a_start s + 2 * tmo cfg
}.

Lemma a_begin_not_loop : forall cfg sc, in_loop (a_begin cfg sc) = false.
Proof.
  intros. pose proof (a_begin_entry cfg sc). destruct (a_begin cfg sc); try reflexivity; discriminate.
Qed.

Lemma a_begin_not_W2 : forall cfg sc d, a_begin cfg sc <> A_W2 d.
Proof. intros cfg sc d H. pose proof (a_begin_not_loop cfg sc) as E. rewrite H in E. discriminate. Qed.

Lemma Inv_T_init : forall cfg script sp l0, Inv_T cfg (init cfg script sp l0).
Proof.
  intros. constructor; unfold init; cbn; try lia; intros; try discriminate.
  all: exfalso; eapply a_begin_not_W2; eassumption.
Qed.

Lemma Inv_T_move : forall cfg s s',
  a_late s' = a_late s -> a_start s' = a_start s -> clock s <= clock s' ->
  (in_loop (a_pc s') = true -> in_loop (a_pc s) = true) ->
  (forall dl, a_pc s' = A_W2 dl -> a_pc s = A_W2 dl) ->
  Inv_T cfg s -> Inv_T cfg s'.
Proof.
  intros cfg s s' E2 E3 E4 Hin Hw [H1 H0 H2 H3 H4]. constructor; rewrite ?E2, ?E3.
  - exact H1.
  - lia.
  - intros Hl Hp. specialize (H2 Hl (Hin Hp)). lia.
  - intros E. exact (H3 (Hw _ E)).
  - intros d E. exact (H4 d (Hw _ E)).
Qed.

(* [cbn] would turn [2 * tmo cfg] into a match on [tmo cfg], which [lia] does not read *)
Local Opaque N.mul N.add N.sub N.ltb N.leb.

Ltac t_move cfg s H Epc :=
  apply (Inv_T_move cfg s);
  [ reflexivity | reflexivity | apply N.le_refl
  | cbn; rewrite ?Epc, ?a_begin_not_loop; cbn; first [discriminate | auto]
  | cbn; rewrite ?Epc; intros dl' E;
    first [discriminate E | exfalso; eapply a_begin_not_W2; eassumption]
  | exact H ].

Lemma Inv_T_step_A : forall cfg s, legacy_wait cfg = false -> Inv_T cfg s -> Inv_T cfg (step_A cfg s).
Proof.
  intros cfg s Hl H. pose proof H as [H1 H0 H2 H3 H4].
  unfold step_A, ret, a_finish, v_next. rewrite Hl.
  (* all steps but three leave the timing locals alone and stay clear of the loop's head *)
  destruct (a_pc s) eqn:Epc; try (destruct (pstep_frame cfg p m s) as (q & e & ->));
    try (split_match; t_move cfg s H Epc; fail).
  - (* W1 *)
    constructor; cbn; intros; try discriminate; auto; lia.
  - (* W2 *)
    destruct dl as [d|]; cbn [note_head].
    + destruct (out_q s); [destruct (d <=? clock s)|]; first [exact H | t_move cfg s H Epc].
    + (* a wait is started: late iff the deadline has passed; if not, the new deadline is
         within [tmo] of now, hence within [2 * tmo] of the start *)
      assert (E0 : a_late s = 0%nat) by auto.
      destruct (tmo cfg <? clock s - a_start s) eqn:El; [apply N.ltb_lt in El | apply N.ltb_ge in El];
        destruct (out_q s); constructor; cbn; rewrite ?E0; intros; try discriminate; auto;
        try match goal with E : A_W2 _ = A_W2 _ |- _ => injection E as <- end; lia.
  - (* W5: back to the head only if the deadline has not passed, so no late wait was counted *)
    destruct (tmo cfg <? clock s - a_start s) eqn:El.
    + t_move cfg s H Epc.
    + apply N.ltb_ge in El. constructor; cbn; intros; try discriminate; auto.
      destruct (a_late s) as [|[|n]]; [reflexivity| |lia]. specialize (H2 eq_refl eq_refl). lia.
Qed.

Local Transparent N.mul N.add N.sub N.ltb N.leb.

Lemma Inv_T_act : forall cfg, legacy_wait cfg = false ->
  forall a s, Inv_T cfg s -> Inv_T cfg (act cfg a s).
Proof.
  intros cfg Hl [[]| |] s H; cbn [act step].
  - apply Inv_T_step_A; auto.
  - destruct (step_W_frame cfg s) as (w & q & wi & e & ->).
    apply (Inv_T_move cfg s); auto; apply N.le_refl.
  - destruct (step_R_frame cfg s) as (p & b & wi & q & e & ->).
    apply (Inv_T_move cfg s); auto; apply N.le_refl.
  - destruct (step_C_frame cfg s) as (c & e & t & d & dr & sq & l & lq & di & ->).
    apply (Inv_T_move cfg s); auto; apply N.le_refl.
  - apply (Inv_T_move cfg s); auto. unfold tick; cbn; lia.
  - unfold emit. destruct (spont s); [exact H|]. apply (Inv_T_move cfg s); auto; apply N.le_refl.
Qed.

Lemma Inv_T_run : forall cfg script sp l0 sched, legacy_wait cfg = false ->
  Inv_T cfg (run cfg sched (init cfg script sp l0)).
Proof. intros. apply run_invariant; [apply Inv_T_act; auto | apply Inv_T_init]. Qed.

(** timeout_bound: under every schedule, with and without connector, native or virtual,
    whatever is queued. *)
Lemma timeout_bound :
  forall cfg script sp l0 sched,
    legacy_wait cfg = false ->
    let s := run cfg sched (init cfg script sp l0) in
    (a_late s <= 1)%nat
    /\ (a_late s = 1%nat -> in_loop (a_pc s) = true -> tmo cfg < clock s - a_start s)
    /\ (forall d, a_pc s = A_W2 (Some d) -> a_late s = 0%nat -> d <= a_start s + 2 * tmo cfg).
Proof.
  intros cfg script sp l0 sched Hl s.
  destruct (Inv_T_run cfg script sp l0 sched Hl) as [H1 _ H2 _ H4]. auto.
Qed.

Section Notif.
Variable FC : list N.   (* the filter classes used by the commands of the script *)

(** A message is a response iff some command's filter keeps it; a notification otherwise. *)
Definition isr (m : msg) : bool := existsb (N.eqb (m_cls m)) FC.
Definition isn (m : msg) : bool := negb (isr m).
Definition nf (l : list msg) : list msg := filter isn l.

Lemma nf_app : forall a b, nf (a ++ b) = nf a ++ nf b.
Proof. intros. apply filter_app. Qed.

Lemma nf_single_r : forall m, isn m = false -> nf [m] = [].
Proof. intros m H. unfold nf; cbn. rewrite H. reflexivity. Qed.

Lemma nf_cons : forall m l, nf (m :: l) = nf [m] ++ nf l.
Proof. intros. change (m :: l) with ([m] ++ l). apply nf_app. Qed.

Lemma nf_drop : forall a m b, isn m = false -> nf (a ++ [m] ++ b) = nf (a ++ b).
Proof. intros a m b H. rewrite !nf_app, (nf_single_r m H). reflexivity. Qed.

Lemma nf_cons_nil : forall m l, nf (m :: l) = [] -> isn m = false /\ nf l = [].
Proof. intros m l H. unfold nf in *; cbn in H. destruct (isn m); [discriminate|auto]. Qed.

Lemma matches_isn : forall f m, In f FC -> matches f m = true -> isn m = false.
Proof.
  unfold matches, isn, isr. intros f m Hin Hm. apply N.eqb_eq in Hm.
  apply negb_false_iff. apply existsb_exists. exists f. split; auto. apply N.eqb_eq; auto.
Qed.

Definition hand_c (s : state) : list msg :=
  match c_pc s with
  | CC_C2 m | CC_C5 m | CC_S1 m | CC_S2 m | CC_SPut m => [m]
  | _ => []
  end.
Definition hand_r (s : state) : list msg := match r_pc s with RD_P _ m => [m] | _ => [] end.
Definition hand_a (s : state) : list msg := match a_pc s with A_VP _ m => [m] | _ => [] end.

(** Everything between the device and process_message, oldest first. *)
Definition pipeline (s : state) : list msg :=
  delivered s ++ hand_c s ++ events s ++ hand_a s ++ a_vbuf s
  ++ hand_r s ++ msgs_of (r_buf s) ++ msgs_of (concat (wire s)).

Lemma pipeline_a_pc : forall s s',
  delivered s' = delivered s -> c_pc s' = c_pc s -> events s' = events s -> hand_a s' = hand_a s ->
  a_vbuf s' = a_vbuf s -> r_pc s' = r_pc s -> r_buf s' = r_buf s -> wire s' = wire s ->
  pipeline s' = pipeline s.
Proof.
  intros s s' E1 E2 E3 E4 E5 E6 E7 E8. unfold pipeline, hand_c, hand_r.
  rewrite E1, E2, E3, E4, E5, E6, E7, E8. reflexivity.
Qed.

Definition seg_c (s : state) : list msg := delivered s ++ hand_c s ++ events s.
Definition seg_a (s : state) : list msg := hand_a s ++ a_vbuf s.
Definition seg_r (s : state) : list msg :=
  hand_r s ++ msgs_of (r_buf s) ++ msgs_of (concat (wire s)).

Lemma pipeline_segs : forall s, pipeline s = seg_c s ++ seg_a s ++ seg_r s.
Proof. intros. unfold pipeline, seg_c, seg_a, seg_r. rewrite <- !app_assoc. reflexivity. Qed.

Lemma nf_pipeline : forall s, nf (pipeline s) = nf (seg_c s) ++ nf (seg_a s) ++ nf (seg_r s).
Proof. intros. rewrite pipeline_segs, !nf_app. reflexivity. Qed.

Definition e_pc (p : apc) : bool :=
  match p with A_E1 | A_E2 | A_E3 => true | _ => false end.

Definition c_nosync (p : cpc) : bool :=
  match p with CC_S1 _ | CC_S2 _ | CC_SPut _ => false | _ => true end.

Definition cmd_in_FC (o : op) : Prop :=
  match o with
  | OCmd fc _ => In fc FC
  | OSend (Some f) _ => In f FC
  | OSync _ => False
  | _ => True
  end.

(** Where put_message can be with a connector attached and the filter read once; at [P7]
    the filter has kept the message. *)
Definition ppc_ok (p : ppc) (m : msg) : Prop := p <> P2 /\ p <> P6 /\ (p = P7 -> isn m = false).

Definition a_ok (cfg : config) (p : apc) : Prop :=
  match p with
  | A_W3 m => isn m = false
  | A_W4 q m => isn m = false /\ ppc_ok q m
  | A_VP q m => virt cfg = true /\ ppc_ok q m
  | A_V0 | A_V1 | A_V3 => virt cfg = true
  | A_E1 | A_E2 | A_E3 => False
  | _ => True
  end.

Definition r_ok (s : state) : Prop :=
  match r_pc s with
  | RD_Read => r_buf s = []
  | RD_P p m => ppc_ok p m
  | RD_Dead => False
  end.

Record Inv_N (cfg : config) (s : state) : Prop := mkInv_N {
  n_pipe : nf (pipeline s) = nf (emitted s);
  n_sync : sync_mode s = 0;
  n_script : Forall cmd_in_FC (a_script s);
  n_filt : forall f, filt s = Some f -> In f FC;
  n_outq : nf (out_q s) = [];
  n_a : a_ok cfg (a_pc s);
  n_vbuf : hand_a s = [] -> a_vbuf s = [];
  n_r : r_ok s;
  n_c : c_nosync (c_pc s) = true;
  (* a virtual device has no reader-side traffic, a native one no handler: the two
     producers never hold messages at the same time *)
  n_virt : virt cfg = true -> wire s = [] /\ spont s = [] /\ r_pc s = RD_Read
}.

Definition reads_N (s : state) :=
  (delivered s, c_pc s, events s, a_pc s, a_vbuf s, r_pc s, r_buf s, wire s, emitted s,
   sync_mode s, a_script s, filt s, out_q s, spont s).

Lemma Inv_N_ext : forall cfg s s', reads_N s' = reads_N s -> Inv_N cfg s -> Inv_N cfg s'.
Proof.
  intros cfg [] [] E H. cbn in E. injection E as <- <- <- <- <- <- <- <- <- <- <- <- <- <-.
  destruct H. constructor; assumption.
Qed.

Lemma cur_fk_in : forall s f, Forall cmd_in_FC (a_script s) -> cur_fk s = Some f -> In f FC.
Proof.
  intros s f HF E. unfold cur_fk in E. destruct (a_script s) as [|o t]; [discriminate|].
  apply Forall_inv in HF. destruct o as [fc r|[k|] r| | | |]; try discriminate; injection E as <-; exact HF.
Qed.

Lemma a_begin_ok : forall cfg sc, Forall cmd_in_FC sc -> a_ok cfg (a_begin cfg sc).
Proof.
  intros cfg sc HF. destruct HF as [|[] t Ho _]; cbn; auto.
  1, 2: destruct (virt cfg) eqn:Ev; cbn; auto.
  destruct Ho.
Qed.

Lemma Inv_N_move : forall cfg s p', Inv_N cfg s ->
  hand_a (set_a_pc p' s) = hand_a s -> a_ok cfg p' -> Inv_N cfg (set_a_pc p' s).
Proof.
  intros cfg s p' [] Ea Hok. constructor; auto.
  - unfold pipeline in *. rewrite Ea. assumption.
  - rewrite Ea. assumption.
Qed.

Lemma hand_a_finish : forall cfg s, hand_a (a_finish cfg s) = [].
Proof.
  intros. pose proof (a_begin_entry cfg (tl (a_script s))) as He. unfold hand_a, a_finish; cbn.
  destruct (a_begin cfg (tl (a_script s))); try reflexivity; discriminate.
Qed.

Lemma Inv_N_finish : forall cfg s, Inv_N cfg s -> hand_a s = [] -> Inv_N cfg (a_finish cfg s).
Proof.
  intros cfg s [] Ha.
  assert (HF : Forall cmd_in_FC (tl (a_script s))) by (destruct n_script0; cbn; auto).
  constructor; auto.
  - unfold pipeline in *. rewrite hand_a_finish. rewrite Ha in n_pipe0. exact n_pipe0.
  - apply a_begin_ok; exact HF.
Qed.

Lemma Inv_N_set_filt : forall cfg s k, Inv_N cfg s -> (forall f, k = Some f -> In f FC) ->
  Inv_N cfg (set_filt k s).
Proof. intros cfg s k [] Hk. constructor; auto. Qed.

Lemma Inv_N_set_outq : forall cfg s q, Inv_N cfg s -> nf q = [] -> Inv_N cfg (set_out_q q s).
Proof. intros cfg s q [] Hq. constructor; auto. Qed.

Lemma Inv_N_put_outq : forall cfg s m, Inv_N cfg s -> isn m = false ->
  Inv_N cfg (set_out_q (out_q s ++ [m]) s).
Proof.
  intros cfg s m H Hm. apply Inv_N_set_outq; auto.
  rewrite nf_app, (n_outq _ _ H), (nf_single_r m Hm). reflexivity.
Qed.

(** The caller hands a response it does not want to the connector: where it lands among
    the notifications does not matter. *)
Lemma Inv_N_put_events_resp : forall cfg s m, Inv_N cfg s -> isn m = false ->
  Inv_N cfg (set_events (events s ++ [m]) s).
Proof.
  intros cfg s m [] Hm. constructor; auto.
  rewrite nf_pipeline in *.
  replace (nf (seg_c (set_events (events s ++ [m]) s))) with (nf (seg_c s)); [assumption|].
  unfold seg_c. cbn [events set_events]. rewrite !nf_app, (nf_single_r m Hm), app_nil_r. reflexivity.
Qed.

Lemma virt_no_reader : forall cfg s, Inv_N cfg s -> virt cfg = true -> seg_r s = [].
Proof.
  intros cfg s [] Ev. destruct (n_virt0 Ev) as (Ew & _ & Er).
  unfold seg_r, hand_r. unfold r_ok in n_r0. rewrite Er in *. rewrite n_r0, Ew. reflexivity.
Qed.

Lemma native_no_handler : forall cfg s, Inv_N cfg s -> virt cfg = false -> seg_a s = [].
Proof.
  intros cfg s [] Ev.
  assert (Ha : hand_a s = []).
  { unfold hand_a. destruct (a_pc s); try reflexivity. destruct n_a0; congruence. }
  unfold seg_a. rewrite Ha, (n_vbuf0 Ha). reflexivity.
Qed.

Definition v_pc (ms : list msg) : apc := match ms with [] => A_V3 | m :: _ => A_VP P1 m end.

Lemma v_next_frame : forall ms s, v_next ms s = set_a_pc (v_pc ms) (set_a_vbuf (tl ms) s).
Proof. intros [|m r] s; reflexivity. Qed.

Lemma seg_a_v_next : forall ms s, seg_a (set_a_pc (v_pc ms) (set_a_vbuf (tl ms) s)) = ms.
Proof. intros [|m r] s; reflexivity. Qed.

Lemma Inv_N_v_next : forall cfg s s2 ms, Inv_N cfg s -> virt cfg = true ->
  (sync_mode s2, a_script s2, c_pc s2, r_pc s2, r_buf s2, wire s2, spont s2)
  = (sync_mode s, a_script s, c_pc s, r_pc s, r_buf s, wire s, spont s) ->
  (forall f, filt s2 = Some f -> In f FC) -> nf (out_q s2) = [] ->
  nf (seg_c s2) ++ nf ms = nf (emitted s2) ->
  Inv_N cfg (v_next ms s2).
Proof.
  intros cfg s s2 ms H Ev E Hf Hq Hp. pose proof (virt_no_reader cfg s H Ev) as Er.
  destruct H. injection E as E1 E2 E3 E4 E5 E6 E7. rewrite v_next_frame.
  constructor; try (cbn; congruence).
  - rewrite nf_pipeline, seg_a_v_next.
    replace (seg_r _) with (seg_r s) by (unfold seg_r, hand_r; cbn; rewrite E4, E5, E6; reflexivity).
    rewrite Er, app_nil_r. exact Hp.
  - exact Hf.
  - exact Hq.
  - destruct ms; cbn; repeat split; auto; discriminate.
  - destruct ms; [reflexivity|discriminate].
  - unfold r_ok in *. cbn. rewrite E4, E5. exact n_r0.
  - cbn. rewrite E4, E6, E7. exact n_virt0.
Qed.

Lemma seg_r_wire : forall s c sp e,
  seg_r (set_spont sp (set_wire (wire s ++ c) (set_emitted e s))) = seg_r s ++ msgs_of (concat c).
Proof.
  intros. unfold seg_r. cbn [wire set_spont set_wire]. rewrite concat_app, msgs_of_app, !app_assoc. reflexivity.
Qed.

Lemma Inv_N_device_emits : forall cfg s c sp ms, Inv_N cfg s -> virt cfg = false -> ms = msgs_of (concat c) ->
  Inv_N cfg (set_spont sp (set_wire (wire s ++ c) (set_emitted (emitted s ++ ms) s))).
Proof.
  intros cfg s c sp ms [] Ev ->. constructor; auto; [|congruence].
  rewrite nf_pipeline, seg_r_wire in *. cbn [emitted set_spont set_wire set_emitted].
  rewrite !nf_app, <- n_pipe0, <- !app_assoc. reflexivity.
Qed.

Lemma Inv_N_step_W : forall cfg s, Inv_N cfg s -> Inv_N cfg (step_W cfg s).
Proof.
  intros cfg s H. unfold step_W. destruct (virt cfg) eqn:Ev; [exact H|].
  destruct (w_pc s); split_match; try (apply (Inv_N_ext cfg s); [reflexivity|exact H]).
  eapply Inv_N_ext; [|exact (Inv_N_device_emits cfg s c (spont s) _ H Ev eq_refl)]. reflexivity.
Qed.

Lemma Inv_N_emit : forall cfg s, Inv_N cfg s -> Inv_N cfg (emit s).
Proof.
  intros cfg s H. unfold emit. destruct (spont s) as [|c r] eqn:Es; [exact H|].
  apply (Inv_N_device_emits cfg s [c]); auto.
  - destruct (virt cfg) eqn:Ev; auto. destruct (n_virt _ _ H Ev) as (_ & E & _). congruence.
  - cbn. rewrite app_nil_r. reflexivity.
Qed.

Lemma Inv_N_conn : forall cfg s s', Inv_N cfg s -> seg_c s' = seg_c s -> c_nosync (c_pc s') = true ->
  (a_pc s', a_vbuf s', r_pc s', r_buf s', wire s', emitted s', sync_mode s', a_script s', filt s', out_q s', spont s')
  = (a_pc s, a_vbuf s, r_pc s, r_buf s, wire s, emitted s, sync_mode s, a_script s, filt s, out_q s, spont s) ->
  Inv_N cfg s'.
Proof.
  intros cfg [] [] H Ec Hn E. cbn in E. injection E as <- <- <- <- <- <- <- <- <- <- <-.
  destruct H. constructor; auto. rewrite nf_pipeline in *. rewrite Ec. exact n_pipe0.
Qed.

Lemma Inv_N_step_C : forall cfg s, Inv_N cfg s -> Inv_N cfg (step_C cfg s).
Proof.
  intros cfg s H. unfold step_C. destruct (has_conn cfg); cbn [negb]; [|exact H].
  pose proof (n_c _ _ H) as Hns. rewrite (n_sync _ _ H).
  change (0 =? 2) with false. change (0 =? 1) with false.
  destruct (c_pc s) eqn:Ec; try discriminate Hns;
    [destruct (events s) as [|m r] eqn:Ee (* CC_Get *) | ..]; split_match; try exact H.
  all: apply (Inv_N_conn cfg s _ H); [|reflexivity|reflexivity].
  all: unfold seg_c, hand_c; cbn; rewrite Ec, ?Ee; cbn; rewrite <- ?app_assoc; reflexivity.
Qed.

Lemma pstep_inv : forall cfg p m s,
  has_conn cfg = true -> (forall f, filt s = Some f -> In f FC) -> ppc_ok p m ->
  match snd (pstep cfg p m s) with
  | PNext p' => fst (pstep cfg p m s) = s /\ ppc_ok p' m
  | PFin => (isn m = false /\ fst (pstep cfg p m s) = set_out_q (out_q s ++ [m]) s)
            \/ fst (pstep cfg p m s) = set_events (events s ++ [m]) s
  | PCrash => False
  end.
Proof.
  intros cfg p m s Hc Hf (Hp2 & Hp6 & Hp7). unfold ppc_ok.
  destruct p; cbn; rewrite ?Hc; try congruence.
  - repeat split; discriminate.
  - destruct (filt s) eqn:Ef; [|repeat split; discriminate].
    destruct (matches n m) eqn:Em; repeat split; try discriminate.
    intros _. eapply matches_isn; eauto.
  - left; auto.
  - repeat split; discriminate.
  - repeat split; discriminate.
  - right; auto.
Qed.

Lemma seg_r_next : forall s b,
  seg_r (r_turn b s) = msgs_of b ++ msgs_of (concat (wire s)).
Proof. intros. unfold seg_r, hand_r, r_turn. cbn. rewrite (r_next_msgs b), <- app_assoc. reflexivity. Qed.

Lemma r_ok_next : forall s b, r_ok (r_turn b s).
Proof.
  intros. unfold r_ok, r_turn. cbn. pose proof (r_next_pc b) as X.
  destruct (fst (r_next b)); [exact X| |exact X]. subst p. repeat split; discriminate.
Qed.

Lemma Inv_N_r_next : forall cfg s s2 b, Inv_N cfg s -> virt cfg = false ->
  (sync_mode s2, a_script s2, c_pc s2, a_pc s2, a_vbuf s2, filt s2)
  = (sync_mode s, a_script s, c_pc s, a_pc s, a_vbuf s, filt s) ->
  nf (out_q s2) = [] ->
  nf (seg_c s2) ++ nf (msgs_of b ++ msgs_of (concat (wire s2))) = nf (emitted s2) ->
  Inv_N cfg (r_turn b s2).
Proof.
  intros cfg s s2 b H Ev E Hq Hp. pose proof (native_no_handler cfg s H Ev) as Ea.
  destruct H. injection E as E1 E2 E3 E4 E5 E6.
  constructor; try (cbn; congruence).
  - rewrite nf_pipeline, seg_r_next.
    replace (seg_a (r_turn b s2)) with (seg_a s); [rewrite Ea; exact Hp|].
    unfold seg_a, hand_a, r_turn. cbn [a_pc a_vbuf set_r_pc set_r_buf]. rewrite E4, E5. reflexivity.
  - cbn. rewrite E6. exact n_filt0.
  - exact Hq.
  - unfold hand_a, r_turn. cbn [a_pc a_vbuf set_r_pc set_r_buf]. rewrite E4, E5. exact n_vbuf0.
  - apply r_ok_next.
Qed.

Lemma seg_c_put : forall s m, seg_c (set_events (events s ++ [m]) s) = seg_c s ++ [m].
Proof. intros. unfold seg_c. cbn [events set_events]. rewrite !app_assoc. reflexivity. Qed.

Lemma reader_busy_native : forall cfg s, Inv_N cfg s -> r_pc s <> RD_Read \/ wire s <> [] -> virt cfg = false.
Proof.
  intros cfg s H Hb. destruct (virt cfg) eqn:Ev; auto.
  destruct (n_virt _ _ H Ev) as (Ew & _ & Er). tauto.
Qed.

Lemma Inv_N_step_R : forall cfg s, has_conn cfg = true -> Inv_N cfg s -> Inv_N cfg (step_R cfg s).
Proof.
  intros cfg s Hc H. unfold step_R.
  pose proof (n_pipe _ _ H) as Hp. rewrite nf_pipeline in Hp.
  pose proof (n_r _ _ H) as Hr. unfold r_ok in Hr.
  destruct (r_pc s) as [|p m|] eqn:Er; [| |destruct Hr].
  - destruct (wire s) as [|c w] eqn:Ew; [exact H|].
    assert (Ev : virt cfg = false) by (apply (reader_busy_native cfg s H); right; congruence).
    apply (Inv_N_r_next cfg s _ c H Ev); [reflexivity | exact (n_outq _ _ H) |].
    rewrite (native_no_handler cfg s H Ev) in Hp. unfold seg_r, hand_r in Hp. rewrite Er, Hr, Ew in Hp.
    cbn [concat msgs_of app] in Hp. rewrite msgs_of_app in Hp. exact Hp.
  - assert (Ev : virt cfg = false) by (apply (reader_busy_native cfg s H); left; congruence).
    rewrite (native_no_handler cfg s H Ev) in Hp.
    assert (Esr : seg_r s = [m] ++ msgs_of (r_buf s) ++ msgs_of (concat (wire s)))
      by (unfold seg_r, hand_r; rewrite Er; reflexivity).
    rewrite Esr, (nf_app [m]) in Hp.
    pose proof (pstep_inv cfg p m s Hc (n_filt _ _ H) Hr) as Hps.
    destruct (snd (pstep cfg p m s)) as [p'| |]; [| |destruct Hps].
    + destruct Hps as (-> & Hok). destruct H. constructor; auto.
      * unfold pipeline, hand_r in *. rewrite Er in n_pipe0. exact n_pipe0.
      * intros E; congruence.
    + destruct Hps as [(Hm & ->)| ->]; apply (Inv_N_r_next cfg s _ (r_buf s) H Ev); try reflexivity.
      * (* kept for the caller *)
        cbn. rewrite nf_app, (n_outq _ _ H), (nf_single_r m Hm). reflexivity.
      * rewrite (nf_single_r m Hm) in Hp. exact Hp.
      * exact (n_outq _ _ H).
      * (* forwarded to the connector *)
        rewrite seg_c_put, nf_app, <- app_assoc. exact Hp.
Qed.

Ltac n_move s H Epc :=
  match goal with |- Inv_N ?cfg (set_a_pc ?p _) =>
    apply (Inv_N_ext cfg (set_a_pc p s)); [reflexivity|];
    apply Inv_N_move; [exact H | unfold hand_a; cbn; rewrite Epc; reflexivity | cbn; auto]
  end.

Ltac n_fin s H Epc :=
  match goal with |- Inv_N ?cfg (a_finish _ _) =>
    apply (Inv_N_ext cfg (a_finish cfg s)); [reflexivity|];
    apply Inv_N_finish; [exact H | unfold hand_a; rewrite Epc; reflexivity]
  end.

Lemma Inv_N_step_A : forall cfg s, has_conn cfg = true -> Inv_N cfg s -> Inv_N cfg (step_A cfg s).
Proof.
  intros cfg s Hc H. unfold step_A, ret. generalize (n_a _ _ H).
  (* most steps only move the caller's program counter or end its operation *)
  destruct (a_pc s) eqn:Epc; cbn [a_ok]; intros Ha;
    try (split_match; first [contradiction | exact H | n_move s H Epc | n_fin s H Epc]; fail).
  - (* S1 *)
    destruct (cur_fk s) as [f|] eqn:Efk; [|n_move s H Epc].
    assert (H' : Inv_N cfg (set_filt (Some f) s)).
    { apply Inv_N_set_filt; auto. intros f' [= <-]. exact (cur_fk_in s f (n_script _ _ H) Efk). }
    n_move (set_filt (Some f) s) H' Epc.
  - (* W2 *)
    destruct (out_q s) as [|m q] eqn:Eq.
    + destruct dl as [d|]; [destruct (d <=? clock s)|]; unfold note_head; split_match;
        first [exact H | n_move s H Epc].
    + destruct (nf_cons_nil m q) as (Hm & Hq); [rewrite <- Eq; exact (n_outq _ _ H)|].
      pose proof (Inv_N_set_outq cfg s q H Hq) as H'.
      unfold note_head; split_match; n_move (set_out_q q s) H' Epc.
  - (* W3 *)
    destruct (filt s) as [f|] eqn:Ef; [|n_move s H Epc].
    destruct (matches f m) eqn:Em; [n_fin s H Epc | n_move s H Epc].
    repeat split; auto; discriminate.
  - (* W4 *)
    destruct Ha as (Hm & Hok).
    pose proof (pstep_inv cfg p m s Hc (n_filt _ _ H) Hok) as Hps.
    destruct (snd (pstep cfg p m s)) as [p'| |]; [| |destruct Hps].
    + destruct Hps as (-> & Hok'). n_move s H Epc.
    + destruct Hps as [(_ & ->)| ->].
      * pose proof (Inv_N_put_outq cfg s m H Hm) as H'.
        destruct (legacy_wait cfg); n_move (set_out_q (out_q s ++ [m]) s) H' Epc.
      * pose proof (Inv_N_put_events_resp cfg s m H Hm) as H'.
        destruct (legacy_wait cfg); n_move (set_events (events s ++ [m]) s) H' Epc.
  - (* V1: the handler's messages are emitted and enter the pipeline behind everything
       the connector side holds; nothing is behind them on a virtual device *)
    pose proof (n_pipe _ _ H) as Hp. rewrite nf_pipeline in Hp.
    rewrite (virt_no_reader cfg s H Ha), app_nil_r in Hp.
    assert (Esa : seg_a s = []).
    { unfold seg_a. assert (E : hand_a s = []) by (unfold hand_a; rewrite Epc; reflexivity).
      rewrite E, (n_vbuf _ _ H E). reflexivity. }
    rewrite Esa, app_nil_r in Hp.
    apply (Inv_N_v_next cfg s _ _ H Ha); [reflexivity | | exact (n_outq _ _ H) |].
    + intros f. exact (cur_fk_in s f (n_script _ _ H)).
    + cbn [emitted set_filt set_emitted]. rewrite nf_app, <- Hp. reflexivity.
  - (* VP *)
    destruct Ha as (Ev & Hok).
    pose proof (n_pipe _ _ H) as Hp. rewrite nf_pipeline in Hp.
    rewrite (virt_no_reader cfg s H Ev), app_nil_r in Hp.
    assert (Esa : seg_a s = [m] ++ a_vbuf s) by (unfold seg_a, hand_a; rewrite Epc; reflexivity).
    rewrite Esa, nf_app in Hp.
    pose proof (pstep_inv cfg p m s Hc (n_filt _ _ H) Hok) as Hps.
    destruct (snd (pstep cfg p m s)) as [p'| |]; [| |destruct Hps].
    + destruct Hps as (-> & Hok'). n_move s H Epc.
    + destruct Hps as [(Hm & ->)| ->]; apply (Inv_N_v_next cfg s _ _ H Ev); try reflexivity.
      * exact (n_filt _ _ H).
      * cbn. rewrite nf_app, (n_outq _ _ H), (nf_single_r m Hm). reflexivity.
      * rewrite (nf_single_r m Hm) in Hp. exact Hp.
      * exact (n_filt _ _ H).
      * exact (n_outq _ _ H).
      * rewrite seg_c_put, nf_app, <- app_assoc. exact Hp.
Qed.

Lemma Inv_N_act : forall cfg, has_conn cfg = true ->
  forall a s, Inv_N cfg s -> Inv_N cfg (act cfg a s).
Proof.
  intros cfg Hc [[]| |] s H; cbn [act step].
  - apply Inv_N_step_A; auto.
  - apply Inv_N_step_W; auto.
  - apply Inv_N_step_R; auto.
  - apply Inv_N_step_C; auto.
  - apply (Inv_N_ext cfg s); [reflexivity|exact H].
  - apply Inv_N_emit; auto.
Qed.

Lemma Inv_N_init : forall cfg script sp l0,
  Forall cmd_in_FC script -> (virt cfg = true -> sp = []) -> Inv_N cfg (init cfg script sp l0).
Proof.
  intros cfg script sp l0 HF Hsp. constructor; unfold init; cbn; auto; try discriminate.
  - unfold pipeline, hand_c, hand_r, hand_a; cbn. pose proof (a_begin_entry cfg script).
    destruct (a_begin cfg script); try reflexivity; discriminate.
  - apply a_begin_ok; exact HF.
Qed.

Lemma Inv_N_run : forall cfg script sp l0 sched,
  has_conn cfg = true -> Forall cmd_in_FC script -> (virt cfg = true -> sp = []) ->
  Inv_N cfg (run cfg sched (init cfg script sp l0)).
Proof. intros. apply run_invariant; [apply Inv_N_act; auto | apply Inv_N_init; auto]. Qed.

Lemma virtual_pipeline : forall cfg s, Inv_N cfg s -> virt cfg = true ->
  pipeline s = delivered s ++ hand_c s ++ events s ++ hand_a s ++ a_vbuf s.
Proof.
  intros cfg s H Ev. rewrite pipeline_segs, (virt_no_reader cfg s H Ev), app_nil_r.
  unfold seg_c, seg_a. rewrite <- !app_assoc. reflexivity.
Qed.

End Notif.

(** The filter classes of a script. *)
Definition fcs (script : list op) : list N :=
  flat_map (fun o => match o with OCmd fc _ => [fc] | OSend (Some f) _ => [f] | _ => [] end) script.

Definition no_sync_op (o : op) : bool := match o with OSync _ => false | _ => true end.

Lemma script_in_fcs : forall script, forallb no_sync_op script = true ->
  Forall (cmd_in_FC (fcs script)) script.
Proof.
  intros script H. apply Forall_forall. intros o Ho.
  assert (Hn : no_sync_op o = true) by (eapply forallb_forall in H; eauto).
  destruct o as [fc react|[f|] react| | | |]; cbn in *; auto; try discriminate.
  - unfold fcs. apply in_flat_map. exists (OCmd fc react). split; auto. cbn; auto.
  - unfold fcs. apply in_flat_map. exists (OSend (Some f) react). split; auto. cbn; auto.
Qed.

(** notifications_exactly_once_in_order: at every reachable state, what has reached
    process_message, followed by what is still on its way (in the connector I/O thread's
    hands, in the events queue, in the handler / reader thread's hands, in the reader's
    buffer, on the wire), is exactly what the device emitted -- restricted to notifications,
    i.e. to messages no command filter keeps. *)
Lemma notifications_exactly_once_in_order :
  forall cfg script sp l0 sched,
    has_conn cfg = true -> forallb no_sync_op script = true -> (virt cfg = true -> sp = []) ->
    let s := run cfg sched (init cfg script sp l0) in
    nf (fcs script) (pipeline s) = nf (fcs script) (emitted s).
Proof.
  intros cfg script sp l0 sched Hc Hn Hsp.
  exact (n_pipe _ _ _ (Inv_N_run _ cfg script sp l0 sched Hc (script_in_fcs _ Hn) Hsp)).
Qed.

Definition drained (s : state) : Prop :=
  hand_c s = [] /\ events s = [] /\ hand_a s = [] /\ a_vbuf s = [] /\ hand_r s = []
  /\ r_buf s = [] /\ wire s = [].

Lemma pipeline_drained : forall s, drained s -> pipeline s = delivered s.
Proof.
  intros s (E1 & E2 & E3 & E4 & E5 & E6 & E7). unfold pipeline.
  rewrite E1, E2, E3, E4, E5, E6, E7. apply app_nil_r.
Qed.

(** put_message reads the filter once: it never reaches the second load [P6] of the code as
    found, the only place where a filter reset to None could kill the running thread. *)
Lemma pstep_no_p6 : forall cfg p m s,
  p <> P6 ->
  match snd (pstep cfg p m s) with
  | PNext p' => p' <> P6
  | PFin => True
  | PCrash => False
  end.
Proof.
  intros cfg p m s Hp. destruct p; cbn; try discriminate; try congruence; auto.
  - destruct (has_conn cfg); discriminate.
  - destruct (filt s); [destruct (matches n m)|]; discriminate.
Qed.

Definition r_alive (p : rpc) : Prop :=
  match p with RD_Dead | RD_P P6 _ => False | _ => True end.

Lemma step_R_alive : forall cfg s, r_alive (r_pc s) -> r_alive (r_pc (step_R cfg s)).
Proof.
  assert (Hn : forall b, r_alive (fst (r_next b))).
  { intro b. pose proof (r_next_pc b) as X. destruct (fst (r_next b)); [exact I| |exact X].
    subst p. exact I. }
  intros cfg s H. unfold step_R. destruct (r_pc s) as [|p m|] eqn:Er; [| |destruct H].
  - destruct (wire s); [rewrite Er; exact I | apply Hn].
  - assert (Hp : p <> P6) by (intros ->; exact H).
    pose proof (pstep_no_p6 cfg p m s Hp) as X.
    destruct (snd (pstep cfg p m s)) as [p'| |]; [|apply Hn|destruct X].
    cbn. destruct p'; try exact I. congruence.
Qed.

(** reader_never_dies: for EVERY configuration (connector or not, native or virtual with an
    asynchronous producer), every script -- including send_message without filter on a virtual
    device, which stores None into the filter -- and every schedule, the reader thread is never
    at a second filter load and never dies. *)
Lemma reader_never_dies :
  forall cfg script sp l0 sched,
    let s := run cfg sched (init cfg script sp l0) in
    r_pc s <> RD_Dead /\ (forall m, r_pc s <> RD_P P6 m).
Proof.
  intros cfg script sp l0 sched s.
  assert (H : r_alive (r_pc s)).
  { apply (run_invariant cfg (fun s => r_alive (r_pc s))); [|exact I].
    intros [[]| |] s0 H; cbn [act step].
    - rewrite step_A_frame_R. exact H.
    - destruct (step_W_frame cfg s0) as (w & q & wi & e & ->). exact H.
    - apply step_R_alive; exact H.
    - destruct (step_C_frame cfg s0) as (c & e & t & d & dr & sq & l & lq & di & ->). exact H.
    - exact H.
    - unfold emit. destruct (spont s0); exact H. }
  destruct (r_pc s) as [|[] m|]; try destruct H; split; intros; discriminate.
Qed.

Lemma msg_eqb_eq : forall a b, msg_eqb a b = true <-> a = b.
Proof.
  intros [c1 u1 p1] [c2 u2 p2]. unfold msg_eqb; cbn. split.
  - intro H. apply andb_true_iff in H as [H H3]. apply andb_true_iff in H as [H1 H2].
    apply N.eqb_eq in H1, H2. apply Bool.eqb_prop in H3. subst; auto.
  - intro H. inversion H; subst. rewrite !N.eqb_refl. destruct p2; reflexivity.
Qed.

Section Routing.
Variable FC : list N.

(** The response to a command: the one message of the device's reaction that some command
    filter keeps. *)
Definition resp_of (o : op) : option msg :=
  match o with
  | OCmd _ react => match filter (isr FC) (msgs_of (concat react)) with [x] => Some x | _ => None end
  | _ => None
  end.

Definition own (o : op) (m : msg) : bool :=
  match resp_of o with Some x => msg_eqb x m | None => false end.

(** Weight of a message still on its way to the caller while command [o] runs: 0 for a
    notification, 1 for the response to [o], 2 for any other response. *)
Definition wt (o : op) (m : msg) : nat :=
  if isr FC m then (if own o m then 1 else 2)%nat else 0%nat.

Fixpoint wsum (o : op) (l : list msg) : nat :=
  match l with [] => 0%nat | m :: r => (wt o m + wsum o r)%nat end.

Lemma wsum_app : forall o a b, wsum o (a ++ b) = (wsum o a + wsum o b)%nat.
Proof. induction a; intros; cbn; auto. rewrite IHa. lia. Qed.

Lemma wsum_zero : forall o l, wsum o l = 0%nat <-> filter (isr FC) l = [].
Proof.
  induction l as [|m l IH]; cbn; [tauto|]. unfold wt. destruct (isr FC m); [|exact IH].
  split; [destruct (own o m)|]; discriminate.
Qed.

Lemma wsum_zero_any : forall o o' l, wsum o l = 0%nat -> wsum o' l = 0%nat.
Proof. intros o o' l H. apply wsum_zero, (wsum_zero o), H. Qed.

Lemma wsum_filter : forall o l, wsum o l = wsum o (filter (isr FC) l).
Proof.
  induction l as [|m l IH]; cbn; auto. unfold wt at 1. destruct (isr FC m) eqn:E; cbn; auto.
  unfold wt. rewrite E. lia.
Qed.

(** H1: the reaction to a command holds exactly one message that a command filter keeps; what
    answers a message sent without waiting (send_message) holds none. *)
Definition wf_cmd (o : op) : Prop :=
  match o with
  | OCmd fc react => In fc FC /\ exists x, filter (isr FC) (msgs_of (concat react)) = [x]
  | OSend k react => (forall f, k = Some f -> In f FC) /\ filter (isr FC) (msgs_of (concat react)) = []
  | _ => True
  end.

Lemma wsum_reaction : forall fc react, wf_cmd (OCmd fc react) ->
  wsum (OCmd fc react) (msgs_of (concat react)) = 1%nat.
Proof.
  intros fc react (_ & x & Hx). rewrite wsum_filter, Hx. cbn.
  assert (Hr : isr FC x = true).
  { assert (In x (filter (isr FC) (msgs_of (concat react)))) by (rewrite Hx; left; auto).
    apply filter_In in H. tauto. }
  unfold wt, own. cbn. rewrite Hr, Hx. replace (msg_eqb x x) with true; auto.
  symmetry. apply msg_eqb_eq; auto.
Qed.

(** H2: what the device emits spontaneously matches no command filter. *)
Definition no_resp (c : chunk) : Prop := filter (isr FC) (msgs_of c) = [].

Definition react_msgs (r : list chunk) : list msg := msgs_of (concat r).
Definition inq_msgs (s : state) : list msg := flat_map react_msgs (in_q s).
Definition hand_w (s : state) : list msg :=
  match w_pc s with WR_Acq c | WR_Write c => react_msgs c | _ => [] end.
Definition hand_k (s : state) : list msg :=
  match a_pc s with A_W3 m | A_W4 _ m => [m] | _ => [] end.

(** Everything that can still reach the caller's filter test. *)
Definition upstream (s : state) : list msg :=
  inq_msgs s ++ hand_w s ++ msgs_of (concat (wire s)) ++ msgs_of (r_buf s) ++ hand_r s
  ++ out_q s ++ hand_k s ++ hand_a s ++ a_vbuf s.

Definition cur_op (s : state) : op := hd OLock (a_script s).
Definition W (s : state) : nat := wsum (cur_op s) (upstream s).

Lemma cur_fk_wf : forall s f, Forall wf_cmd (a_script s) -> cur_fk s = Some f -> In f FC.
Proof.
  intros s f HF E. unfold cur_fk in E. destruct (a_script s) as [|o t]; [discriminate|].
  apply Forall_inv in HF. destruct o as [fc r|k r| | | |]; try discriminate; destruct HF as (HF & _).
  - injection E as <-. exact HF.
  - exact (HF f E).
Qed.

Lemma wsum_cur_react : forall s, Forall wf_cmd (a_script s) ->
  wsum (cur_op s) (react_msgs (cur_react s)) = if cur_is_cmd s then 1%nat else 0%nat.
Proof.
  intros s HF. unfold cur_op, cur_react, cur_is_cmd. destruct (a_script s) as [|o t]; [reflexivity|].
  apply Forall_inv in HF. destruct o as [fc r|k r| | | |]; try reflexivity.
  - exact (wsum_reaction fc r HF).
  - destruct HF as (_ & HF). apply wsum_zero, HF.
Qed.

Definition wait_phase (p : apc) : bool :=
  match p with
  | A_W0 | A_W1 | A_W2 _ | A_W3 _ | A_W4 _ _ | A_W5 | A_VP _ _ | A_V3 | A_Crash => true
  | _ => false
  end.

Definition is_ok (x : op * result) : bool := match snd x with ROk _ => true | RTimeout => false end.
Definition all_ok (l : list (op * result)) : bool := forallb is_ok l.

(** Every command, up to the first one that timed out, returned its own response. *)
Fixpoint routed (l : list (op * result)) : bool :=
  match l with
  | [] => true
  | (o, ROk m) :: r => own o m && routed r
  | (_, RTimeout) :: _ => true
  end.

Lemma routed_snoc : forall l o r,
  routed l = true -> (all_ok l = true -> match r with ROk m => own o m = true | RTimeout => True end) ->
  routed (l ++ [(o, r)]) = true.
Proof.
  induction l as [|[o' [m'|]] l IH]; intros o r Hr Ho; cbn in *.
  - destruct r; [rewrite Ho|]; auto.
  - apply andb_true_iff in Hr as [H1 H2]. rewrite H1. cbn. apply IH; auto.
  - auto.
Qed.

Lemma all_ok_snoc : forall l x, all_ok (l ++ [x]) = all_ok l && is_ok x.
Proof. intros. unfold all_ok. rewrite forallb_app. cbn. rewrite andb_true_r. reflexivity. Qed.

(** A command (not a mere send_message) is past its send phase. *)
Definition waiting (s : state) : bool := wait_phase (a_pc s) && cur_is_cmd s.

(** While no command has timed out: at most the running command's own response is upstream
    while it waits, and no response at all otherwise. *)
Record Inv_R (s : state) : Prop := mkInv_R {
  rt_script : Forall wf_cmd (a_script s);
  rt_spont : Forall no_resp (spont s);
  rt_filt : forall f, filt s = Some f -> In f FC;
  rt_routed : routed (returned s) = true;
  rt_weight : all_ok (returned s) = true -> (W s <= if waiting s then 1 else 0)%nat
}.

Definition reads_R (s : state) :=
  (a_script s, spont s, filt s, returned s, a_pc s, in_q s, w_pc s, wire s, r_buf s, r_pc s,
   out_q s, a_vbuf s).

Lemma Inv_R_ext : forall s s', reads_R s' = reads_R s -> Inv_R s -> Inv_R s'.
Proof.
  intros [] [] E H. cbn in E. injection E as <- <- <- <- <- <- <- <- <- <- <- <-.
  destruct H. constructor; assumption.
Qed.

Lemma Inv_R_le : forall s s', Inv_R s ->
  (a_script s', spont s', returned s') = (a_script s, spont s, returned s) ->
  (forall f, filt s' = Some f -> In f FC) ->
  (waiting s = true -> waiting s' = true) -> (W s' <= W s)%nat -> Inv_R s'.
Proof.
  intros s s' [] E Hf Hph Hw. injection E as E1 E2 E3. constructor; rewrite ?E1, ?E2, ?E3; auto.
  intro Ho. specialize (rt_weight0 Ho).
  destruct (waiting s); [rewrite Hph by reflexivity; lia | destruct (waiting s'); lia].
Qed.

Lemma Inv_R_reaction : forall s s', Inv_R s -> waiting s = false ->
  (a_script s', spont s', returned s') = (a_script s, spont s, returned s) ->
  (forall f, filt s' = Some f -> In f FC) -> waiting s' = cur_is_cmd s ->
  (W s' <= W s + wsum (cur_op s) (react_msgs (cur_react s)))%nat -> Inv_R s'.
Proof.
  intros s s' [] Hn E Hf Hw Hle. injection E as E1 E2 E3. constructor; rewrite ?E1, ?E2, ?E3; auto.
  intro Ho. specialize (rt_weight0 Ho). rewrite Hn in rt_weight0.
  rewrite (wsum_cur_react s rt_script0) in Hle. rewrite Hw. lia.
Qed.

(** Weights are compared on the stations a step touches, the rest of [upstream] being a
    common prefix and suffix: the writer touches the first three stations, the reader the
    four from the wire to [out_q], the caller the four from [out_q] on. *)
Lemma W_mid : forall s s' pre a a' post,
  upstream s = pre ++ a ++ post -> upstream s' = pre ++ a' ++ post -> cur_op s' = cur_op s ->
  (W s' + wsum (cur_op s) a = W s + wsum (cur_op s) a')%nat.
Proof. intros s s' pre a a' post E E' Eo. unfold W. rewrite E, E', Eo, !wsum_app. lia. Qed.

Lemma upstream_writer : forall s, upstream s =
  [] ++ (inq_msgs s ++ hand_w s ++ msgs_of (concat (wire s)))
  ++ (msgs_of (r_buf s) ++ hand_r s ++ out_q s ++ hand_k s ++ hand_a s ++ a_vbuf s).
Proof. intros. unfold upstream. rewrite <- !app_assoc. reflexivity. Qed.

Lemma upstream_reader : forall s, upstream s =
  (inq_msgs s ++ hand_w s)
  ++ (msgs_of (concat (wire s)) ++ msgs_of (r_buf s) ++ hand_r s ++ out_q s)
  ++ (hand_k s ++ hand_a s ++ a_vbuf s).
Proof. intros. unfold upstream. rewrite <- !app_assoc. reflexivity. Qed.

Ltac w_mid up s :=
  match goal with |- (W ?s' <= _)%nat =>
    generalize (W_mid s s' _ _ _ _ (up s) (up s') eq_refl) end.

(** The weights of the stations as sums, one term per message or queue, for [lia]; [eqs]
    rewrites with what is known of the program counters and queues. *)
Ltac w_st eqs :=
  unfold inq_msgs, hand_w, hand_k, hand_r, hand_a, cur_op; cbn -[react_msgs flat_map W];
  eqs; cbn [concat]; rewrite ?flat_map_app, ?concat_app, ?msgs_of_app; cbn [flat_map concat msgs_of];
  rewrite ?wsum_app; cbn [wsum app]; rewrite ?wsum_app; unfold react_msgs; try lia.

Lemma Inv_R_step_W : forall cfg s, Inv_R s -> Inv_R (step_W cfg s).
Proof.
  intros cfg s H. unfold step_W. destruct (virt cfg); [exact H|].
  destruct (w_pc s) eqn:Ew; [destruct (in_q s) as [|c q] eqn:Eq (* WR_Get *) | ..];
    split_match; try exact H;
    (apply (Inv_R_le s _ H); [reflexivity | exact (rt_filt _ H) | auto |]);
    w_mid upstream_writer s;
    w_st ltac:(rewrite ?Ew, ?Eq).
Qed.

Lemma Inv_R_step_C : forall cfg s, Inv_R s -> Inv_R (step_C cfg s).
Proof.
  intros cfg s H. destruct (step_C_frame cfg s) as (c & e & t & d & dr & sq & l & lq & di & ->).
  apply (Inv_R_ext s); [reflexivity|exact H].
Qed.

Lemma Inv_R_emit : forall s, Inv_R s -> Inv_R (emit s).
Proof.
  intros s H. unfold emit. destruct (spont s) as [|c r] eqn:Es; [exact H|].
  pose proof (rt_spont _ H) as F. rewrite Es in F. inversion F as [|? ? Hc Hr]; subst.
  destruct H. constructor; auto. intro Ho. apply (Nat.le_trans _ (W s)); [|exact (rt_weight0 Ho)].
  w_mid upstream_writer s. w_st idtac. rewrite app_nil_r, (proj2 (wsum_zero _ (msgs_of c)) Hc). lia.
Qed.

Lemma Inv_R_step_R : forall cfg s, Inv_R s -> Inv_R (step_R cfg s).
Proof.
  intros cfg s H. unfold step_R. destruct (r_pc s) as [|p m|] eqn:Er; [| |exact H].
  - destruct (wire s) as [|c w] eqn:Ew; [exact H|].
    apply (Inv_R_le s _ H); [reflexivity | exact (rt_filt _ H) | auto |].
    w_mid upstream_reader s.
    w_st ltac:(rewrite Er, Ew). rewrite (r_next_msgs c), wsum_app. lia.
  - pose proof (pstep_cases cfg p m s) as X.
    destruct (snd (pstep cfg p m s)); [rewrite X| destruct X as [-> | ->] |];
      (apply (Inv_R_le s _ H); [reflexivity | exact (rt_filt _ H) | auto |]);
      w_mid upstream_reader s;
      w_st ltac:(rewrite ?Er); rewrite (r_next_msgs (r_buf s)), wsum_app; lia.
Qed.

Lemma a_begin_idle : forall cfg sc, wait_phase (a_begin cfg sc) = false.
Proof.
  intros. pose proof (a_begin_entry cfg sc). destruct (a_begin cfg sc); try reflexivity; discriminate.
Qed.

(** What the caller's steps leave alone (but for the command it enqueues): the stations
    before [out_q]. *)
Definition feed (s : state) : list msg :=
  inq_msgs s ++ hand_w s ++ msgs_of (concat (wire s)) ++ msgs_of (r_buf s) ++ hand_r s.

Lemma upstream_feed : forall s, upstream s = feed s ++ out_q s ++ hand_k s ++ hand_a s ++ a_vbuf s.
Proof. intros. unfold upstream, feed. rewrite <- !app_assoc. reflexivity. Qed.

Lemma upstream_finish : forall cfg s, upstream (a_finish cfg s) = feed s ++ out_q s ++ a_vbuf s.
Proof.
  intros. rewrite upstream_feed. unfold hand_k, hand_a, a_finish. cbn [a_pc set_a_pc].
  pose proof (a_begin_entry cfg (tl (a_script s))).
  destruct (a_begin cfg (tl (a_script s))); try reflexivity; discriminate.
Qed.

Lemma Inv_R_finish : forall cfg s s1, Inv_R s ->
  (a_script s1, spont s1, filt s1) = (a_script s, spont s, filt s) ->
  routed (returned s1) = true ->
  (all_ok (returned s1) = true -> wsum (cur_op s) (feed s1 ++ out_q s1 ++ a_vbuf s1) = 0%nat) ->
  Inv_R (a_finish cfg s1).
Proof.
  intros cfg s s1 [] E Hr Hw. injection E as E1 E2 E3. constructor.
  - unfold a_finish; cbn. rewrite E1. destruct rt_script0; cbn; auto.
  - unfold a_finish; cbn. rewrite E2; auto.
  - unfold a_finish; cbn. rewrite E3; auto.
  - exact Hr.
  - intro Ho.
    replace (waiting (a_finish cfg s1)) with false
      by (unfold waiting, a_finish; cbn [a_pc set_a_pc]; rewrite a_begin_idle; reflexivity).
    unfold W. rewrite upstream_finish, (wsum_zero_any _ _ _ (Hw Ho)). constructor.
Qed.

Lemma Inv_R_finish_idle : forall cfg s, Inv_R s -> waiting s = false -> hand_k s = [] -> hand_a s = [] ->
  Inv_R (a_finish cfg s).
Proof.
  intros cfg s H Hw Hk Ha. apply (Inv_R_finish cfg s s H); [reflexivity | exact (rt_routed _ H) |].
  intro Ho. pose proof (rt_weight _ H Ho) as X. rewrite Hw in X. unfold W in X.
  rewrite upstream_feed, Hk, Ha in X. cbn [app] in X. lia.
Qed.

Lemma Inv_R_move : forall s p', Inv_R s ->
  (waiting s = true -> waiting (set_a_pc p' s) = true) ->
  hand_k (set_a_pc p' s) ++ hand_a (set_a_pc p' s) = hand_k s ++ hand_a s ->
  Inv_R (set_a_pc p' s).
Proof.
  intros s p' H Hw Hh. apply (Inv_R_le s _ H); [reflexivity | exact (rt_filt _ H) | exact Hw |].
  unfold W. rewrite !upstream_feed, !(app_assoc (hand_k _)), Hh. apply le_n.
Qed.

Ltac r_move s H Epc :=
  match goal with |- Inv_R (set_a_pc ?p _) =>
    apply (Inv_R_ext (set_a_pc p s)); [reflexivity|];
    apply (Inv_R_move s p H);
    [ unfold waiting; cbn; rewrite ?Epc; cbn; first [discriminate | auto]
    | unfold hand_k, hand_a; cbn; rewrite Epc; reflexivity ]
  end.

Lemma upstream_caller : forall s, upstream s =
  feed s ++ (out_q s ++ hand_k s ++ hand_a s ++ a_vbuf s) ++ [].
Proof. intros. rewrite upstream_feed, app_nil_r. reflexivity. Qed.

Ltac r_le s H Epc :=
  apply (Inv_R_le s _ H);
  [ reflexivity | exact (rt_filt _ H)
  | unfold waiting; cbn; rewrite ?Epc; cbn; first [discriminate | auto]
  | w_mid upstream_caller s ].

Ltac r_fin s H Epc :=
  match goal with |- Inv_R (a_finish ?cfg _) =>
    apply (Inv_R_ext (a_finish cfg s)); [reflexivity|];
    apply (Inv_R_finish_idle cfg s H);
    [ unfold waiting; cbn; rewrite Epc; reflexivity | unfold hand_k; cbn; rewrite Epc; reflexivity
    | unfold hand_a; cbn; rewrite Epc; reflexivity ]
  end.

Lemma Inv_R_step_A : forall cfg s, Inv_R s -> Inv_R (step_A cfg s).
Proof.
  intros cfg s H. unfold step_A, ret.
  (* most steps only move the caller's program counter or end an operation that is not
     waiting for anything *)
  destruct (a_pc s) eqn:Epc;
    try (split_match; first [exact H | r_move s H Epc | r_fin s H Epc]; fail).
  - (* S1 *)
    destruct (cur_fk s) as [f|] eqn:Efk; [|r_move s H Epc].
    assert (H' : Inv_R (set_filt (Some f) s)).
    { destruct H. constructor; auto. intros f0 [= <-]. exact (cur_fk_wf s f rt_script0 Efk). }
    r_move (set_filt (Some f) s) H' Epc.
  - (* S2 *)
    assert (Hn : waiting s = false) by (unfold waiting; rewrite Epc; reflexivity).
    destruct (cur_is_cmd s) eqn:Ecmd.
    + apply (Inv_R_reaction s _ H Hn); [reflexivity | exact (rt_filt _ H) | reflexivity |].
      (* both ends of [upstream] change: the command is queued, the caller's hands are named anew *)
      unfold W, upstream. w_st ltac:(rewrite Epc).
    + assert (H1 : Inv_R (set_in_q (in_q s ++ [cur_react s]) s)).
      { apply (Inv_R_reaction s _ H Hn); [reflexivity | exact (rt_filt _ H) | |].
        - rewrite Ecmd. exact Hn.
        - w_mid upstream_writer s. w_st idtac. }
      r_fin (set_in_q (in_q s ++ [cur_react s]) s) H1 Epc.
  - (* W2 *)
    destruct (out_q s) as [|m q] eqn:Eq.
    + destruct dl as [d|]; [destruct (d <=? clock s)|]; unfold note_head; split_match;
        first [exact H | r_move s H Epc].
    + unfold note_head; split_match; r_le s H Epc; w_st ltac:(rewrite Epc, Eq).
  - (* W3 *)
    destruct (filt s) as [f|] eqn:Ef; [|r_le s H Epc; w_st ltac:(rewrite Epc)].
    destruct (matches f m) eqn:Em; [|r_move s H Epc].
    (* the message is a response; with at most weight 1 upstream it is the command's own,
       and nothing else is left *)
    assert (Hr : isr FC m = true).
    { apply negb_false_iff. exact (matches_isn FC f m (rt_filt _ H f Ef) Em). }
    assert (Hw : all_ok (returned s) = true ->
                 (wsum (cur_op s) (feed s ++ out_q s ++ a_vbuf s) + wt (cur_op s) m <= 1)%nat).
    { intro Ho. pose proof (rt_weight _ H Ho) as X. unfold W in X. rewrite upstream_feed in X.
      unfold hand_k, hand_a in X. rewrite Epc, !wsum_app in X. cbn [wsum] in X.
      rewrite !wsum_app. destruct (waiting s); lia. }
    unfold wt in Hw. rewrite Hr in Hw.
    apply (Inv_R_finish cfg s _ H); [reflexivity | |]; cbn [returned set_returned].
    + apply routed_snoc; [exact (rt_routed _ H)|]. intro Ho. specialize (Hw Ho).
      fold (cur_op s). destruct (own (cur_op s) m); [reflexivity|lia].
    + rewrite all_ok_snoc. intro Ho. apply andb_true_iff in Ho as [Ho _]. specialize (Hw Ho).
      change (wsum (cur_op s) (feed s ++ out_q s ++ a_vbuf s) = 0%nat).
      destruct (own (cur_op s) m); lia.
  - (* W4 *)
    pose proof (pstep_cases cfg p m s) as X.
    destruct (snd (pstep cfg p m s)); [rewrite X | destruct X as [-> | ->]; destruct (legacy_wait cfg) |];
      r_le s H Epc; w_st ltac:(rewrite Epc).
  - (* W5 *)
    destruct (tmo cfg <? clock s - a_start s); [|r_move s H Epc].
    apply (Inv_R_finish cfg s _ H); [reflexivity | |]; cbn [returned set_returned].
    + apply routed_snoc; [exact (rt_routed _ H) | exact (fun _ => I)].
    + rewrite all_ok_snoc, andb_false_r. discriminate.
  - (* V1 *)
    assert (Hn : waiting s = false) by (unfold waiting; rewrite Epc; reflexivity).
    unfold v_next. destruct (msgs_of (concat (cur_react s))) as [|m0 rest] eqn:Ems;
      (apply (Inv_R_reaction s _ H Hn);
       [reflexivity | intros f; exact (cur_fk_wf s f (rt_script _ H)) | reflexivity |]);
      w_mid upstream_caller s; w_st ltac:(rewrite Epc); rewrite Ems; cbn [wsum]; lia.
  - (* VP *)
    pose proof (pstep_cases cfg p m s) as X.
    destruct (snd (pstep cfg p m s));
      [rewrite X | destruct X as [-> | ->]; unfold v_next; destruct (a_vbuf s) eqn:Evb |];
      r_le s H Epc; w_st ltac:(rewrite Epc, ?Evb).
  - (* V3 *)
    destruct (cur_is_cmd s) eqn:Ecmd; [r_move s H Epc; rewrite Ecmd; auto|].
    apply (Inv_R_finish_idle cfg s H).
    + unfold waiting. rewrite Ecmd. apply andb_false_r.
    + unfold hand_k; rewrite Epc; reflexivity.
    + unfold hand_a; rewrite Epc; reflexivity.
Qed.

Lemma Inv_R_act : forall cfg a s, Inv_R s -> Inv_R (act cfg a s).
Proof.
  intros cfg [[]| |] s H; cbn [act step].
  - apply Inv_R_step_A; auto.
  - apply Inv_R_step_W; auto.
  - apply Inv_R_step_R; auto.
  - apply Inv_R_step_C; auto.
  - apply (Inv_R_ext s); [reflexivity|exact H].
  - apply Inv_R_emit; auto.
Qed.

Lemma Inv_R_init : forall cfg script sp l0,
  Forall wf_cmd script -> Forall no_resp sp -> Inv_R (init cfg script sp l0).
Proof.
  intros cfg script sp l0 H1 H2. constructor; unfold init; cbn; auto; [discriminate|].
  intros _. unfold W, upstream, inq_msgs, hand_w, hand_k, hand_r, hand_a; cbn.
  pose proof (a_begin_entry cfg script). destruct (a_begin cfg script); try discriminate; apply Nat.le_0_l.
Qed.

Lemma Inv_R_run : forall cfg script sp l0 sched,
  Forall wf_cmd script -> Forall no_resp sp -> Inv_R (run cfg sched (init cfg script sp l0)).
Proof. intros. apply run_invariant; [intros; apply Inv_R_act; auto | apply Inv_R_init; auto]. Qed.

Lemma routed_spec : forall l k o m,
  routed l = true -> nth_error l k = Some (o, ROk m) ->
  all_ok (firstn k l) = true -> resp_of o = Some m.
Proof.
  induction l as [|[o' r'] l IH]; intros k o m Hr Hn Hk.
  - destruct k; discriminate.
  - destruct k as [|k]; cbn in *.
    + inversion Hn; subst. apply andb_true_iff in Hr as [Ho _]. unfold own in Ho.
      destruct (resp_of o); [|discriminate]. apply msg_eqb_eq in Ho. subst; auto.
    + destruct r' as [m'|]; cbn in Hk; [|discriminate].
      apply andb_true_iff in Hr as [_ Hr]. eapply IH; eauto.
Qed.

End Routing.

(** response_routing.  H1: the reaction to each command holds exactly one message that a
    command filter keeps (its response; the model emits it only after the writer wrote the
    command).  H2: spontaneous traffic holds none.  Then, under every schedule, with or
    without a connector, native or virtual: every command that completed before the first
    timeout returned the response to that very command. *)
Lemma response_routing :
  forall cfg script sp l0 sched,
    Forall (wf_cmd (fcs script)) script -> Forall (no_resp (fcs script)) sp ->
    routed (fcs script) (returned (run cfg sched (init cfg script sp l0))) = true.
Proof.
  intros cfg script sp l0 sched H1 H2. exact (rt_routed _ _ (Inv_R_run _ cfg script sp l0 sched H1 H2)).
Qed.

(** The wait loop as found (deadline evaluated on Empty only) refutes the bound: the witness. *)

Definition legacy_cfg : config := mkConfig false false 1 true false false false.
Definition legacy_script : list op := [OCmd 3 [[Some (mkMsg 0 1 true)]]].
(** The caller sends, the writer writes, the reader queues the unrelated message; then the
    caller spins: get, filter, re-put, get, ... while the clock passes the deadline. *)
Definition legacy_sched : list action :=
  [Step TA; Step TA; Step TA; Step TW; Step TW; Step TW; Step TW; Step TR; Step TR; Step TR;
   Step TA; Step TA; Step TA; Step TA; Step TA; Step TA; Tick; Tick; Tick]
  ++ concat (repeat [Step TA; Step TA; Step TA; Step TA] 3).

(** The same schedule on the repaired loop ends with Timeout at the first late test. *)
Lemma timeout_bound_witness_repaired :
  let cfg := mkConfig false false 1 false false false false in
  let s := run cfg legacy_sched (init cfg legacy_script [] false) in
  map snd (returned s) = [RTimeout] /\ (a_late s <= 1)%nat.
Proof. vm_compute. split; auto. Qed.

(** A concrete run meeting H1/H2 (non-vacuity). *)

Definition nv_script : list op :=
  [OCmd 3 [[Some (mkMsg 0 10 true); None; Some (mkMsg 3 11 false)]; [Some (mkMsg 0 12 true)]];
   OCmd 4 [[Some (mkMsg 5 20 false); Some (mkMsg 4 21 false); Some (mkMsg 0 22 true)]]].
Definition nv_spont : list chunk := [[Some (mkMsg 0 1 true)]].
Definition nv_sched : list action :=
  concat (repeat [Emit; Step TA; Step TW; Step TR; Step TC] 60).

